(* The windows of a batch as seen from the whole series (its downsampling window, not
   only the batch's own cut of it): batch_windows_facts and batch_labels, for C36, C37
   and C38; and the windows of ALL batches of a raw series, for C36. *)
From Coq Require Import ZArith List Bool Lia Sorted.
Import ListNotations.
From Verif Require Import Lib.ListFacts Lib.Downsample_Core Lib.Downsample_Batch Lib.Downsample_Raw.
Open Scope Z_scope.

Lemma sorted_lt_le l : StronglySorted Z.lt l -> StronglySorted Z.le l.
Proof. apply StronglySorted_weaken, Z.lt_le_incl. Qed.

Lemma in_concat_map_snd {A B} (l : list (A * list B)) p s :
  In p l -> In s (snd p) -> In s (concat (map snd l)).
Proof. intros Hp Hs. apply in_concat. exists (snd p). split; [apply in_map; exact Hp|exact Hs]. Qed.

Lemma Forall2_map_eq {A B C} (R : A -> B -> Prop) (f : A -> C) (g : B -> C) l1 l2 :
  Forall2 R l1 l2 -> (forall x y, R x y -> f x = g y) -> map f l1 = map g l2.
Proof. induction 1 as [|x y l1 l2 Hxy _ IH]; intros H; [reflexivity|]. cbn. f_equal; [apply H; exact Hxy|apply IH; exact H]. Qed.

(* for window labels (increasing integers); sorted_le_last in Downsample_Batch.v is the
   same bound for the samples of a batch, ordered by timestamp *)
Lemma sorted_le_last_Z l : StronglySorted Z.lt l -> forall x, In x l -> x <= last l 0.
Proof.
  induction l as [|a l IHl]; intros Hs x Hx; [contradiction|].
  apply StronglySorted_inv in Hs as [Hs Ha]. destruct l as [|c l'].
  - destruct Hx as [<-|[]]. cbn. lia.
  - change (last (a :: c :: l') 0) with (last (c :: l') 0).
    destruct Hx as [<-|Hx]; [|apply IHl; assumption].
    rewrite Forall_forall in Ha. pose proof (Ha _ (last_in (c :: l') 0 ltac:(discriminate))). lia.
Qed.

Section Windows.
Variable cw : Z -> Z -> Z.
Variable res : Z.
Hypothesis cw_ge : forall t, 0 <= t -> t <= cw t res.
Hypothesis cw_same : forall t t', 0 <= t -> t <= t' -> t' <= cw t res -> cw t' res = cw t res.

Let cw_mono := cw_mono cw res cw_ge cw_same.

Definition good_batch (b : list sample) : Prop := b <> [] /\ sorted_nonneg b.

(* a window as seen globally: non-empty, and its samples are exactly in the
   downsampling window of its label, at or before the label *)
Definition gwin_ok (p : Z * list sample) : Prop :=
  snd p <> [] /\ 0 <= fst p /\
  Forall (fun s => 0 <= fst s /\ fst s <= fst p /\ cw (fst s) res = cw (fst p) res) (snd p).

Lemma ew_label lastT t : 0 <= t -> t <= lastT ->
  t <= ew cw res lastT t /\ cw (ew cw res lastT t) res = cw t res.
Proof.
  intros H0 Hl. unfold ew. pose proof (cw_ge t H0).
  destruct (Z_le_gt_dec (cw t res) lastT) as [H1|H1].
  - rewrite Z.min_l by lia. split; [lia|]. apply cw_same; lia.
  - rewrite Z.min_r by lia. split; [lia|]. apply cw_same; lia.
Qed.

Lemma batch_windows_facts b : good_batch b ->
  let bw := batch_windows cw res b in
  concat (map snd bw) = b /\ Forall gwin_ok bw /\
  StronglySorted Z.lt (map fst bw) /\
  StronglySorted Z.lt (map (fun p => cw (fst p) res) bw) /\
  bw <> [] /\ fst (last bw (0, [])) = last_t b /\
  Forall2 snap_ok (fst (downsample_batch cw res b)) bw /\
  snd (downsample_batch cw res b) = last_t b.
Proof.
  intros [Hne Hsn]. pose proof (batch_spec cw res cw_ge cw_same b Hne Hsn) as S.
  cbv zeta in *. destruct S as (Hcat & Hwin & Hsort & HF & HnT & Hlast).
  destruct Hsn as [Hs Hnn]. pose proof (sorted_le_last b Hs) as Hle.
  set (bw := batch_windows cw res b) in *.
  assert (Hin : forall p s, In p bw -> In s (snd p) -> In s b).
  { intros p s Hp Hs'. rewrite <- Hcat. eapply in_concat_map_snd; eauto. }
  assert (G : Forall gwin_ok bw).
  { rewrite Forall_forall in *. intros p Hp. destruct (Hwin p Hp) as [Hpne Hall].
    assert (Hall' : Forall (fun s => 0 <= fst s /\ fst s <= fst p /\ cw (fst s) res = cw (fst p) res) (snd p)).
    { rewrite Forall_forall in *. intros s Hs'. specialize (Hall s Hs').
      pose proof (Hin p s Hp Hs') as Hb.
      destruct (ew_label (last_t b) (fst s) (Hnn s Hb) (Hle s Hb)) as [E1 E2].
      rewrite Hall in *. split; [apply Hnn; exact Hb|]. split; [lia|]. congruence. }
    split; [exact Hpne|]. split; [|exact Hall'].
    destruct (snd p) as [|s0 l]; [congruence|]. apply Forall_cons_iff in Hall' as [(? & ? & _) _]. lia. }
  split; [exact Hcat|]. split; [exact G|]. split; [exact Hsort|].
  split.
  { apply (StronglySorted_map_in (fun p q : Z * list (Z * Z) => fst p < fst q) Z.lt (fun p => cw (fst p) res) bw).
    - apply StronglySorted_unmap. exact Hsort.
    - intros p1 p2 H1 H2 Hlt. rewrite Forall_forall in G, Hwin.
      destruct (G p1 H1) as (Hne1 & H01 & A1). destruct (G p2 H2) as (Hne2 & H02 & A2).
      assert (Hm : cw (fst p1) res <= cw (fst p2) res) by (apply cw_mono; lia).
      destruct (Z.eq_dec (cw (fst p1) res) (cw (fst p2) res)) as [E|]; [|lia]. exfalso.
      destruct (Hwin p1 H1) as [_ W1]. destruct (Hwin p2 H2) as [_ W2].
      destruct (snd p1) as [|s1 l1]; [congruence|]. destruct (snd p2) as [|s2 l2]; [congruence|].
      apply Forall_cons_iff in A1 as [(_ & _ & C1) _]. apply Forall_cons_iff in A2 as [(_ & _ & C2) _].
      apply Forall_cons_iff in W1 as [W1 _]. apply Forall_cons_iff in W2 as [W2 _].
      unfold ew in W1, W2. rewrite C1 in W1. rewrite C2 in W2. rewrite E in W1. lia. }
  split.
  { intro E. rewrite E in Hcat. cbn in Hcat. congruence. }
  repeat split; assumption.
Qed.

(* the timestamps one batch emits: they increase, end at the batch's last timestamp, and
   each is at or after some sample of the batch *)
Lemma batch_labels b : good_batch b ->
  let ls := map fst (fst (downsample_batch cw res b)) in
  ls <> [] /\ StronglySorted Z.lt ls /\ last ls 0 = last_t b /\
  Forall (fun w => exists s, In s b /\ fst s <= w) ls.
Proof.
  intros Hb. destruct (batch_windows_facts b Hb) as (Bcat & Bok & Bsort & _ & Bne & Blast & BF & _).
  cbv zeta. rewrite (snap_ok_labels _ _ BF).
  split; [intro E; apply map_eq_nil in E; exact (Bne E)|]. split; [exact Bsort|].
  split; [rewrite <- Blast; apply (last_map fst _ (0, []))|].
  apply Forall_map, Forall_forall. intros p Hp.
  rewrite Forall_forall in Bok. destruct (Bok p Hp) as (Hpne & _ & A).
  destruct (snd p) as [|s l] eqn:Es; [congruence|]. apply Forall_cons_iff in A as [(_ & Hsw & _) _].
  exists s. split; [|exact Hsw]. rewrite <- Bcat.
  eapply in_concat_map_snd; [exact Hp|rewrite Es; left; reflexivity].
Qed.

Definition all_windows (batches : list (list sample)) : list (Z * list sample) :=
  concat (map (batch_windows cw res) batches).

Definition all_outs (batches : list (list sample)) : list (Z * fagg) :=
  concat (map (fun b => fst (downsample_batch cw res b)) batches).

Lemma all_windows_facts : forall batches,
  Forall good_batch batches -> seps cw res batches ->
  let gw := all_windows batches in
  concat (map snd gw) = concat batches /\ Forall gwin_ok gw /\
  StronglySorted Z.lt (map (fun p => cw (fst p) res) gw) /\
  Forall2 snap_ok (all_outs batches) gw.
Proof.
  induction batches as [|b rest IH]; intros Hg Hsep; cbv zeta.
  - repeat split; constructor.
  - apply Forall_cons_iff in Hg as [Hb Hg]. destruct Hsep as [Hcross Hsep].
    specialize (IH Hg Hsep). cbv zeta in IH. destruct IH as (Rcat & Rok & Rsort & RF).
    destruct (batch_windows_facts b Hb) as (Bcat & Bok & _ & Bsort & _ & _ & BF & _).
    unfold all_windows, all_outs in *. cbn [map concat].
    split; [rewrite map_app, concat_app, Bcat, Rcat; reflexivity|].
    split; [apply Forall_app; split; assumption|].
    split; [|apply Forall2_app; assumption].
    rewrite map_app. apply StronglySorted_app; [exact Bsort|exact Rsort|].
    intros x y Hx Hy. apply in_map_iff in Hx as (p1 & <- & H1). apply in_map_iff in Hy as (p2 & <- & H2).
    rewrite Forall_forall in Bok, Rok.
    destruct (Bok p1 H1) as (Hne1 & _ & A1). destruct (Rok p2 H2) as (Hne2 & _ & A2).
    destruct (snd p1) as [|s1 l1] eqn:E1; [congruence|]. destruct (snd p2) as [|s2 l2] eqn:E2; [congruence|].
    apply Forall_cons_iff in A1 as [(_ & _ & C1) _]. apply Forall_cons_iff in A2 as [(N2 & _ & C2) _].
    assert (I1 : In s1 b) by (rewrite <- Bcat; eapply in_concat_map_snd; [exact H1|rewrite E1; left; reflexivity]).
    assert (I2 : In s2 (concat rest)) by (rewrite <- Rcat; eapply in_concat_map_snd; [exact H2|rewrite E2; left; reflexivity]).
    rewrite Forall_forall in Hcross. specialize (Hcross s1 I1). rewrite Forall_forall in Hcross.
    specialize (Hcross s2 I2). pose proof (cw_ge (fst s2) N2). lia.
Qed.

(* every window is the filter of the whole series by its downsampling window *)
Lemma all_windows_filter : forall batches,
  Forall good_batch batches -> seps cw res batches ->
  Forall (fun p => filter (fun s => cw (fst s) res =? cw (fst p) res) (concat batches) = snd p)
         (all_windows batches).
Proof.
  intros batches Hg Hsep. destruct (all_windows_facts batches Hg Hsep) as (Hcat & Hok & Hsort & _).
  rewrite <- Hcat.
  apply (windows_filter (fun s => cw (fst s) res) (fun p => cw (fst p) res)); [|exact (StronglySorted_NoDup _ _ Z.lt_irrefl Hsort)].
  eapply Forall_impl; [|exact Hok]. intros p (_ & _ & A).
  eapply Forall_impl; [|exact A]. intros s (_ & _ & C). exact C.
Qed.

End Windows.

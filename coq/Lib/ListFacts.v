(* List facts that do not depend on any model, by topic: NoDup, filter, firstn /
   skipn / nth, last, flat_map, insertion into a sorted list, StronglySorted and
   the uniqueness of the sorted arrangement.
   The models write their own insertion functions (Go's sort.Slice / sort.Sort
   over a concrete less); those of the shape "insert before the first element
   the test puts it before" are instances of [ins], shown by a two-line
   induction (or by conversion) where they are used. The sortedness lemmas of
   Section Insertion take the relation [R] the test decides ([leb_R], [nleb_R]);
   [Sorted] needs no more, [StronglySorted] needs [R] transitive. *)
From Coq Require Import List Bool Sorted Permutation RelationClasses.
Import ListNotations.
From Verif Require Import Lib.Corr.

Lemma list_eqb_refl {A} (eqb : A -> A -> bool) :
  (forall x, eqb x x = true) -> forall l, list_eqb eqb l l = true.
Proof. intros H l. induction l; simpl; [reflexivity|]. now rewrite H. Qed.

Lemma NoDup_map_inj {A B} (f : A -> B) l x y :
  NoDup (map f l) -> In x l -> In y l -> f x = f y -> x = y.
Proof.
  induction l as [|a l IH]; simpl; intros Hn Hx Hy E; [contradiction|].
  inversion Hn as [|? ? Ha Hl]; subst. destruct Hx as [->|Hx], Hy as [->|Hy]; auto.
  - destruct Ha. rewrite E. now apply in_map.
  - destruct Ha. rewrite <- E. now apply in_map.
Qed.

Lemma NoDup_map_incl {A B} (f : A -> B) u l :
  NoDup (map f u) -> incl l u -> NoDup l -> NoDup (map f l).
Proof.
  intros Hu Hi. induction 1 as [|a l Ha _ IH]; simpl; constructor.
  - intro Hin. apply in_map_iff in Hin as (x & E & Hx). apply Ha.
    rewrite <- (NoDup_map_inj f u x a Hu); auto; apply Hi; [now right|now left].
  - apply IH. intros x Hx. apply Hi. now right.
Qed.

Lemma NoDup_map_filter {A B} (f : A -> B) p l : NoDup (map f l) -> NoDup (map f (filter p l)).
Proof.
  intro H. apply (NoDup_map_incl f l); [exact H|apply incl_filter|].
  apply NoDup_filter, (NoDup_map_inv f), H.
Qed.

Lemma NoDup_app_iff {A} (l1 l2 : list A) :
  NoDup (l1 ++ l2) <-> NoDup l1 /\ NoDup l2 /\ forall x, In x l1 -> ~ In x l2.
Proof.
  induction l1 as [|a l1 IH]; simpl.
  - split; [intro H; repeat split; [constructor|exact H|intros x []]|intros (_ & H & _); exact H].
  - rewrite !NoDup_cons_iff, IH, in_app_iff. split.
    + intros (Ha & H1 & H2 & Hd). repeat split; [tauto|exact H1|exact H2|].
      intros x [<-|Hx]; [tauto|exact (Hd x Hx)].
    + intros ((Ha & H1) & H2 & Hd). repeat split; [|exact H1|exact H2|].
      * intros [H|H]; [exact (Ha H)|exact (Hd a (or_introl eq_refl) H)].
      * intros x Hx. apply Hd. now right.
Qed.

Lemma NoDup_app {A} (l1 l2 : list A) :
  NoDup l1 -> NoDup l2 -> (forall x, In x l1 -> ~ In x l2) -> NoDup (l1 ++ l2).
Proof. intros. apply NoDup_app_iff. auto. Qed.

Lemma NoDup_snoc {A} (l : list A) x : NoDup l -> ~ In x l -> NoDup (l ++ [x]).
Proof. intros H Hx. apply (Permutation_NoDup (Permutation_cons_append l x)). now constructor. Qed.

Lemma NoDup_firstn {A} (l : list A) k : NoDup l -> NoDup (firstn k l).
Proof. intro H. rewrite <- (firstn_skipn k l) in H. now apply NoDup_app_iff in H. Qed.

Lemma filter_all {A} (f : A -> bool) l : (forall x, In x l -> f x = true) -> filter f l = l.
Proof.
  induction l as [|a l IH]; simpl; intro H; [reflexivity|].
  rewrite (H a (or_introl eq_refl)). f_equal. apply IH. intros. apply H. now right.
Qed.

Lemma filter_none {A} (f : A -> bool) l : (forall x, In x l -> f x = false) -> filter f l = [].
Proof.
  induction l as [|a l IH]; simpl; intro H; [reflexivity|].
  rewrite (H a (or_introl eq_refl)). apply IH. intros. apply H. now right.
Qed.

Lemma filter_filter {A} (p q : A -> bool) l : filter p (filter q l) = filter (fun x => q x && p x) l.
Proof.
  induction l as [|x l IH]; simpl; [reflexivity|].
  destruct (q x); simpl; [destruct (p x); now rewrite IH|exact IH].
Qed.

Lemma filter_comm {A} (p q : A -> bool) l : filter p (filter q l) = filter q (filter p l).
Proof. rewrite !filter_filter. apply filter_ext. intro x. apply andb_comm. Qed.

Lemma filter_map_comm {A B} (p : B -> bool) (f : A -> B) l :
  filter p (map f l) = map f (filter (fun x => p (f x)) l).
Proof. induction l as [|a l IH]; simpl; [reflexivity|]. destruct (p (f a)); simpl; now rewrite IH. Qed.

Lemma filter_length_le {A} (f : A -> bool) l : length (filter f l) <= length l.
Proof. induction l as [|a l IH]; simpl; [|destruct (f a); simpl]; auto using le_n_S, le_S. Qed.

Lemma filter_perm {A} (f : A -> bool) l l' : Permutation l l' -> Permutation (filter f l) (filter f l').
Proof.
  induction 1; simpl; auto.
  - destruct (f x); auto.
  - destruct (f x), (f y); auto. apply perm_swap.
  - etransitivity; eassumption.
Qed.

Lemma firstn_app_length {A} (a b : list A) : firstn (length a) (a ++ b) = a.
Proof. rewrite firstn_app, firstn_all, PeanoNat.Nat.sub_diag. apply app_nil_r. Qed.

Lemma skipn_app_length {A} (a b : list A) : skipn (length a) (a ++ b) = b.
Proof. rewrite skipn_app, skipn_all, PeanoNat.Nat.sub_diag. reflexivity. Qed.

Lemma firstn_In {A} (l : list A) k x : In x (firstn k l) -> In x l.
Proof. intros H. rewrite <- (firstn_skipn k l). apply in_or_app. now left. Qed.

Lemma map_nth_seq {A} (d : A) (l : list A) : map (fun n => nth n l d) (seq 0 (length l)) = l.
Proof.
  induction l as [|a l IH]; simpl; [reflexivity|]. f_equal.
  rewrite <- seq_shift, map_map. exact IH.
Qed.

Lemma last_in {A} (l : list A) d : l <> [] -> In (last l d) l.
Proof.
  induction l as [|x [|y l'] IH]; intro H; [congruence|now left|].
  right. apply IH. discriminate.
Qed.

Lemma last_default {A} (l : list A) d d' : l <> [] -> last l d = last l d'.
Proof.
  induction l as [|x [|y l'] IH]; intro H; [congruence|reflexivity|].
  apply IH. discriminate.
Qed.

Lemma last_cons {A} (x : A) l d : last (x :: l) d = last l x.
Proof. destruct l as [|y l']; [reflexivity|]. apply (last_default (y :: l')). discriminate. Qed.

Lemma last_app_ne {A} (l1 l2 : list A) d : l2 <> [] -> last (l1 ++ l2) d = last l2 d.
Proof.
  intros H. induction l1 as [|x l1 IH]; [reflexivity|]. rewrite <- IH. simpl.
  destruct (l1 ++ l2) eqn:E; [|reflexivity]. apply app_eq_nil in E as [_ E]. congruence.
Qed.

Lemma last_map {A B} (f : A -> B) l d : last (map f l) (f d) = f (last l d).
Proof. induction l as [|x [|y l'] IH]; [reflexivity|reflexivity|exact IH]. Qed.

Lemma flat_map_ext_in {A B} (f g : A -> list B) l :
  (forall a, In a l -> f a = g a) -> flat_map f l = flat_map g l.
Proof.
  induction l as [|a l IH]; simpl; intro H; [reflexivity|].
  rewrite (H a (or_introl eq_refl)), IH; [reflexivity|]. intros. apply H. now right.
Qed.

Section Insertion.
  Context {A : Type} (leb : A -> A -> bool).

  Fixpoint ins (x : A) (l : list A) : list A :=
    match l with
    | [] => [x]
    | y :: r => if leb x y then x :: l else y :: ins x r
    end.

  Definition isort (l : list A) : list A := fold_right ins [] l.

  Lemma ins_perm x l : Permutation (ins x l) (x :: l).
  Proof.
    induction l as [|y r IH]; simpl; [reflexivity|].
    destruct (leb x y); [reflexivity|]. rewrite IH. apply perm_swap.
  Qed.

  Lemma ins_In x y l : In y (ins x l) <-> y = x \/ In y l.
  Proof.
    split; intro H.
    - apply (Permutation_in _ (ins_perm x l)) in H. destruct H; auto.
    - apply (Permutation_in _ (Permutation_sym (ins_perm x l))). destruct H; [left|right]; auto.
  Qed.

  Lemma ins_length x l : length (ins x l) = S (length l).
  Proof. exact (Permutation_length (ins_perm x l)). Qed.

  Lemma isort_perm l : Permutation (isort l) l.
  Proof. induction l; simpl; [constructor|]. now rewrite ins_perm, IHl. Qed.

  Lemma isort_In x l : In x (isort l) <-> In x l.
  Proof. split; apply Permutation_in; [|symmetry]; apply isort_perm. Qed.

  (* [R] is what the test decides: [leb x y] gives [R x y], its failure [R y x]. *)
  Variable R : A -> A -> Prop.
  Hypothesis leb_R : forall x y, leb x y = true -> R x y.
  Hypothesis nleb_R : forall x y, leb x y = false -> R y x.

  Lemma ins_Sorted x l : Sorted R l -> Sorted R (ins x l).
  Proof.
    induction 1 as [|y r Hs IH Hd]; simpl; [repeat constructor|].
    destruct (leb x y) eqn:E.
    - constructor; [constructor; assumption|constructor; auto].
    - constructor; [exact IH|]. destruct Hd as [|z r' Hyz]; simpl.
      + constructor. auto.
      + destruct (leb x z); constructor; auto.
  Qed.

  Lemma isort_Sorted l : Sorted R (isort l).
  Proof. induction l; simpl; [constructor|now apply ins_Sorted]. Qed.

  Lemma ins_StronglySorted `{!Transitive R} x l :
    StronglySorted R l -> StronglySorted R (ins x l).
  Proof. intro H. apply Sorted_StronglySorted; [assumption|]. apply ins_Sorted, StronglySorted_Sorted, H. Qed.

  Lemma isort_StronglySorted `{!Transitive R} l : StronglySorted R (isort l).
  Proof. apply Sorted_StronglySorted; [assumption|apply isort_Sorted]. Qed.
End Insertion.

Lemma StronglySorted_weaken {A} (R R' : A -> A -> Prop) l :
  (forall x y, R x y -> R' x y) -> StronglySorted R l -> StronglySorted R' l.
Proof.
  intro H. induction 1 as [|a l _ IH F]; constructor; [exact IH|].
  eapply Forall_impl; [apply H|exact F].
Qed.

(* [Sorted_StronglySorted] with transitivity asked only of the elements of the list. *)
Lemma Sorted_StronglySorted_in {A} (R : A -> A -> Prop) l :
  (forall x y z, In x l -> In y l -> In z l -> R x y -> R y z -> R x z) ->
  Sorted R l -> StronglySorted R l.
Proof.
  induction l as [|a l IH]; intros Ht Hs; [constructor|].
  inversion Hs as [|? ? Hs' Hrel]; subst.
  assert (IH' : StronglySorted R l) by (apply IH; [intros x y z Hx Hy Hz; apply Ht; now right|exact Hs']).
  constructor; [exact IH'|].
  destruct Hrel as [|b l Hab]; constructor; [exact Hab|].
  inversion IH' as [|? ? _ Hall]; subst. rewrite Forall_forall in *. intros z Hz.
  apply (Ht a b z); simpl; auto.
Qed.

Lemma StronglySorted_app_inv {A} (R : A -> A -> Prop) l1 l2 :
  StronglySorted R (l1 ++ l2) ->
  StronglySorted R l1 /\ StronglySorted R l2 /\ (forall x y, In x l1 -> In y l2 -> R x y).
Proof.
  induction l1 as [|a l1 IH]; simpl; intro H.
  - repeat split; [constructor|exact H|intros x y []].
  - apply StronglySorted_inv in H as [Hs Ha]. apply IH in Hs as (H1 & H2 & Hc).
    apply Forall_app in Ha as [Ha1 Ha2]. repeat split; [now constructor|exact H2|].
    intros x y [<-|Hx] Hy; [|now apply Hc]. rewrite Forall_forall in Ha2. now apply Ha2.
Qed.

Lemma StronglySorted_app {A} (R : A -> A -> Prop) l1 l2 :
  StronglySorted R l1 -> StronglySorted R l2 ->
  (forall x y, In x l1 -> In y l2 -> R x y) -> StronglySorted R (l1 ++ l2).
Proof.
  intros H1 H2 Hc. induction H1 as [|x l1 _ IH Hx]; simpl; [exact H2|].
  constructor; [apply IH; intros; apply Hc; simpl; auto|].
  apply Forall_app. split; [exact Hx|]. apply Forall_forall. intros y Hy. apply Hc; simpl; auto.
Qed.

Lemma StronglySorted_filter {A} (R : A -> A -> Prop) f l :
  StronglySorted R l -> StronglySorted R (filter f l).
Proof.
  induction 1 as [|x r _ IH Hx]; simpl; [constructor|].
  destruct (f x); [constructor; [exact IH|exact (incl_Forall (incl_filter f r) Hx)]|exact IH].
Qed.

Lemma StronglySorted_map_in {A B} (R : A -> A -> Prop) (R' : B -> B -> Prop) (f : A -> B) l :
  StronglySorted R l ->
  (forall x y, In x l -> In y l -> R x y -> R' (f x) (f y)) ->
  StronglySorted R' (map f l).
Proof.
  induction 1 as [|x l _ IH Hx]; intros Hf; simpl; constructor.
  - apply IH. intros a b Ha Hb. apply Hf; now right.
  - rewrite Forall_map. rewrite Forall_forall in *. intros y Hy.
    apply Hf; [now left|now right|now apply Hx].
Qed.

Lemma StronglySorted_unmap {A B} (R : B -> B -> Prop) (f : A -> B) l :
  StronglySorted R (map f l) -> StronglySorted (fun x y => R (f x) (f y)) l.
Proof.
  induction l as [|x l IH]; simpl; intros H; [constructor|].
  apply StronglySorted_inv in H as [Hs Hx]. constructor; [apply IH; exact Hs|].
  rewrite Forall_map in Hx. exact Hx.
Qed.

Lemma StronglySorted_NoDup {A} (R : A -> A -> Prop) l :
  (forall x, ~ R x x) -> StronglySorted R l -> NoDup l.
Proof.
  intro Irr. induction 1 as [|x l _ IH Hx]; constructor; [|exact IH].
  intro Hin. rewrite Forall_forall in Hx. exact (Irr x (Hx x Hin)).
Qed.

(* Two sorted arrangements of the same elements are equal as soon as [R] is
   antisymmetric on them. *)
Lemma StronglySorted_perm_eq {A} (R : A -> A -> Prop) l1 : forall l2,
  (forall x y, In x l1 -> In y l1 -> R x y -> R y x -> x = y) ->
  Permutation l1 l2 -> StronglySorted R l1 -> StronglySorted R l2 -> l1 = l2.
Proof.
  induction l1 as [|a t1 IH]; intros l2 Hanti Hp H1 H2.
  - apply Permutation_nil in Hp. now subst.
  - destruct l2 as [|b t2]; [apply Permutation_sym, Permutation_nil in Hp; discriminate|].
    inversion H1 as [|? ? H1' F1]; subst. inversion H2 as [|? ? H2' F2]; subst.
    rewrite Forall_forall in F1, F2.
    assert (Hb : In b (a :: t1)) by (apply (Permutation_in _ (Permutation_sym Hp)); now left).
    assert (Ha : In a (b :: t2)) by (apply (Permutation_in _ Hp); now left).
    assert (a = b) as <-.
    { destruct Hb as [|Hb]; [assumption|]. destruct Ha as [|Ha]; [congruence|].
      apply Hanti; simpl; auto. }
    f_equal. apply IH; auto.
    + intros x y Hx Hy. apply Hanti; now right.
    + exact (Permutation_cons_inv Hp).
Qed.

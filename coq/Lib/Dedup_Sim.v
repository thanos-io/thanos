(* Counter mode and non-counter mode of the dedup iterator model take the same
   decisions: adjustAtValue only changes values, and every decision of
   Next / Seek depends on timestamps and exhaustion only. Hence a counter-mode
   reader sees the same timestamps (and the same exhaustion points) as the
   non-counter reader of the same replicas. Used by C02 to transfer
   termination and the shape of the output from the C01 refinement. *)
From Coq Require Import ZArith List Bool Lia.
Import ListNotations.
From Verif Require Import Lib.Dedup_Iter Lib.Dedup_SpecFacts.
Open Scope Z_scope.

(* s_rel relates states that agree on everything but values: validity,
   timestamps, sizes, preserved by every operation, and by adjusting one side only *)
Record sim (o1 o2 : iobj) : Type := mkSim {
  s_rel : X o1 -> X o2 -> Prop;
  s_valid : forall x y, s_rel x y -> valid o1 x = valid o2 y;
  s_atT : forall x y, s_rel x y -> atT o1 x = atT o2 y;
  s_ts : forall x y, s_rel x y -> ts (at_ o1 x) = ts (at_ o2 y);
  s_size : forall x y, s_rel x y -> size o1 x = size o2 y;
  s_next : forall x y, s_rel x y -> s_rel (next o1 x) (next o2 y);
  s_seek : forall t x y, s_rel x y -> s_rel (seek o1 t x) (seek o2 t y);
  s_adj1 : forall v x y, s_rel x y -> s_rel (adjust o1 v x) y;
  s_adj2 : forall v x y, s_rel x y -> s_rel x (adjust o2 v y);
}.
Arguments s_rel {o1 o2}. Arguments s_valid {o1 o2}. Arguments s_atT {o1 o2}. Arguments s_ts {o1 o2}.
Arguments s_size {o1 o2}. Arguments s_next {o1 o2}. Arguments s_seek {o1 o2}.
Arguments s_adj1 {o1 o2}. Arguments s_adj2 {o1 o2}.

Definition leafR (l1 l2 : leaf) : Prop := l_started l1 = l_started l2 /\ l_list l1 = l_list l2.

Lemma leafR_valid l1 l2 : leafR l1 l2 -> leaf_valid l1 = leaf_valid l2.
Proof. intros [H1 H2]. unfold leaf_valid. rewrite H1, H2. reflexivity. Qed.
Lemma leafR_atT l1 l2 : leafR l1 l2 -> leaf_atT l1 = leaf_atT l2.
Proof. intros [H1 H2]. unfold leaf_atT. rewrite H2. reflexivity. Qed.
Lemma leafR_ts l1 l2 : leafR l1 l2 -> ts (leaf_at l1) = ts (leaf_at l2).
Proof. intros [H1 H2]. unfold leaf_at. rewrite H2. destruct (l_list l2); reflexivity. Qed.
Lemma leafR_seek t l1 l2 : leafR l1 l2 -> leafR (leaf_seek t l1) (leaf_seek t l2).
Proof. intros [H1 H2]. unfold leafR, leaf_seek; simpl. rewrite H2. split; reflexivity. Qed.
Lemma leafR_next l1 l2 : leafR l1 l2 -> leafR (leaf_next l1) (leaf_next l2).
Proof. intros [H1 H2]. unfold leafR, leaf_next. rewrite H1, H2. destruct (l_started l2); split; reflexivity. Qed.
Lemma leafR_adj c1 c2 v w l1 l2 : leafR l1 l2 -> leafR (leaf_adjust c1 v l1) (leaf_adjust c2 w l2).
Proof.
  intros [H1 H2]. unfold leafR, leaf_adjust.
  destruct c1, c2; try destruct (v >? _); try destruct (w >? _); simpl; split; assumption.
Qed.

(* transparent: tower_sim shows s_rel of the initial leaves by computing it *)
Lemma leaf_sim : sim (leaf_obj true) (leaf_obj false).
Proof.
  refine (mkSim (leaf_obj true) (leaf_obj false) leafR leafR_valid leafR_atT leafR_ts _ leafR_next leafR_seek _ _).
  - intros x y [_ H]; simpl. rewrite H. reflexivity.
  - intros v x y H. change (leafR (leaf_adjust true v x) y). 
    replace y with (leaf_adjust false v y) by reflexivity. apply leafR_adj. exact H.
  - intros v x y H. exact H.
Defined.

Section NodeSim.
  Variable cfg : pcfg.
  Variables A1 A2 : iobj.
  Variable SA : sim A1 A2.
  Notation N1 := (node_obj true cfg A1).
  Notation N2 := (node_obj false cfg A2).

  Definition nR (x : nstate A1) (y : nstate A2) : Prop :=
    let '(a1, b1, s1) := x in let '(a2, b2, s2) := y in
    s_rel SA a1 a2 /\ leafR b1 b2 /\ s1 = s2.

  Lemma nR_adj1 v x y : nR x y -> nR (node_adjust true A1 v x) y.
  Proof.
    destruct x as [[a1 b1] s1], y as [[a2 b2] s2]. intros (Ha & Hb & Hs). unfold node_adjust, nR.
    split; [destruct (valid A1 a1); [apply (s_adj1 SA)|]; exact Ha|].
    split; [|exact Hs]. destruct (leaf_valid b1); [|exact Hb].
    replace b2 with (leaf_adjust false v b2) by reflexivity. apply leafR_adj. exact Hb.
  Qed.
  Lemma nR_adj2 v x y : nR x y -> nR x (node_adjust false A2 v y).
  Proof.
    destruct x as [[a1 b1] s1], y as [[a2 b2] s2]. intros (Ha & Hb & Hs). unfold node_adjust, nR.
    split; [destruct (valid A2 a2); [apply (s_adj2 SA)|]; exact Ha|].
    split; [|exact Hs]. destruct (leaf_valid b2); exact Hb.
  Qed.

  Lemma na1_R a1 a2 s : s_rel SA a1 a2 -> s_rel SA (na1 A1 a1 s) (na1 A2 a2 s).
  Proof.
    intro H. unfold na1, seek_opt. rewrite <- (s_valid SA _ _ H).
    destruct (valid A1 a1), (lastT s); try exact H. apply (s_seek SA). exact H.
  Qed.
  Lemma nb1_R b1 b2 s : leafR b1 b2 -> leafR (nb1 b1 s) (nb1 b2 s).
  Proof.
    intro H. unfold nb1, seek_opt. rewrite <- (leafR_valid _ _ H).
    destruct (leaf_valid b1), (lastT s); try exact H. apply leafR_seek. exact H.
  Qed.

  Lemma nR_next x y : nR x y -> nR (node_next true cfg A1 x) (node_next false cfg A2 y).
  Proof.
    destruct x as [[a1 b1] s], y as [[a2 b2] s2]. intros (Ha & Hb & <-).
    rewrite !node_next_eq. cbv zeta.
    pose proof (na1_R _ _ s Ha) as Ha'. pose proof (nb1_R _ _ s Hb) as Hb'.
    (* the decision reads validity and timestamps only *)
    assert (Hs : ns1 cfg A2 (na1 A2 a2 s) (nb1 b2 s) s = ns1 cfg A1 (na1 A1 a1 s) (nb1 b1 s) s).
    { unfold ns1. rewrite <- (s_valid SA _ _ Ha'), <- (leafR_valid _ _ Hb'),
        <- (s_atT SA _ _ Ha'), <- (leafR_atT _ _ Hb'). reflexivity. }
    rewrite Hs. set (s' := ns1 cfg A1 _ _ s).
    assert (Hbase : nR (na1 A1 a1 s, nb1 b1 s, s') (na1 A2 a2 s, nb1 b2 s, s')) by (unfold nR; auto).
    (* so is whether the children are adjusted, and adjusting keeps the relation *)
    unfold lastv. rewrite <- (s_valid SA _ _ Ha), <- (leafR_valid _ _ Hb).
    destruct (useA s && valid A1 a1); [|destruct (negb (useA s) && leaf_valid b1)];
      try exact Hbase; destruct (Bool.eqb (useA s') (useA s)); try exact Hbase;
      apply nR_adj1; apply nR_adj2; exact Hbase.
  Qed.

  Lemma nR_atT x y : nR x y -> node_atT A1 x = node_atT A2 y.
  Proof.
    destruct x as [[a1 b1] s1], y as [[a2 b2] s2]. intros (Ha & Hb & Hs). subst s2.
    unfold node_atT. rewrite (s_atT SA _ _ Ha), (leafR_atT _ _ Hb). reflexivity.
  Qed.

  Lemma nR_loop : forall fuel t x y, nR x y ->
    nR (node_seek_loop true cfg A1 fuel t x) (node_seek_loop false cfg A2 fuel t y).
  Proof.
    induction fuel as [|f IH]; intros t x y H; [exact H|].
    pose proof (nR_atT _ _ H) as Ht. pose proof (nR_next _ _ H) as Hn.
    destruct x as [[a1 b1] s1], y as [[a2 b2] s2]. cbn [node_seek_loop]. rewrite <- Ht.
    destruct H as (Ha & Hb & Hs). subst s2.
    destruct (node_atT A1 (a1, b1, s1) >=? t).
    - destruct (useA s1).
      + pose proof (s_seek SA (node_atT A1 (a1, b1, s1)) _ _ Ha) as Ha'.
        unfold nR. rewrite (s_valid SA _ _ Ha'). auto.
      + pose proof (leafR_seek (node_atT A1 (a1, b1, s1)) _ _ Hb) as Hb'.
        unfold nR. rewrite (leafR_valid _ _ Hb'). auto.
    - set (x' := node_next true cfg A1 (a1, b1, s1)) in *.
      set (y' := node_next false cfg A2 (a2, b2, s1)) in *.
      assert (Hv : node_valid A1 x' = node_valid A2 y').
      { destruct x' as [[? ?] ?], y' as [[? ?] ?]. destruct Hn as (_ & _ & ->). reflexivity. }
      rewrite <- Hv. destruct (node_valid A1 x'); [apply IH|]; exact Hn.
  Qed.

  Lemma nR_size x y : nR x y -> node_size A1 x = node_size A2 y.
  Proof.
    destruct x as [[a1 b1] s1], y as [[a2 b2] s2]. intros (Ha & [_ Hb] & Hs).
    unfold node_size. rewrite (s_size SA _ _ Ha), Hb. reflexivity.
  Qed.

  Lemma nR_seek t x y : nR x y -> nR (node_seek true cfg A1 t x) (node_seek false cfg A2 t y).
  Proof.
    intro H. pose proof (nR_size _ _ H) as Hsz. pose proof (nR_next _ _ H) as Hn.
    destruct x as [[a1 b1] s1], y as [[a2 b2] s2]. unfold node_seek.
    assert (s1 = s2) by (destruct H as (_ & _ & E); exact E). subst s2.
    destruct (lastT s1).
    - rewrite Hsz. apply nR_loop. exact H.
    - set (x' := node_next true cfg A1 (a1, b1, s1)) in *.
      set (y' := node_next false cfg A2 (a2, b2, s1)) in *.
      assert (Hv : node_valid A1 x' = node_valid A2 y').
      { destruct x' as [[? ?] ?], y' as [[? ?] ?]. destruct Hn as (_ & _ & ->). reflexivity. }
      rewrite <- Hv, (nR_size _ _ Hn). destruct (node_valid A1 x'); [apply nR_loop|]; exact Hn.
  Qed.

  (* transparent: tower_sim_gen uses that its s_rel is nR *)
  Definition node_sim : sim N1 N2.
  Proof.
    refine (mkSim N1 N2 nR _ nR_atT _ nR_size nR_next nR_seek nR_adj1 nR_adj2).
    - intros [[a1 b1] s1] [[a2 b2] s2] (_ & _ & ->). reflexivity.
    - intros [[a1 b1] s1] [[a2 b2] s2] (Ha & Hb & ->). simpl.
      destruct (lastA s2); [apply (s_ts SA); exact Ha|apply leafR_ts; exact Hb].
  Defined.

  Lemma node_sim_init a1 a2 b : s_rel SA a1 a2 -> nR (node_init A1 a1 b) (node_init A2 a2 b).
  Proof.
    intro H. unfold node_init, nR. split; [apply (s_next SA); exact H|]. split; [split; reflexivity|reflexivity].
  Qed.
End NodeSim.

Lemma tower_sim_gen cfg : forall rest (i1 i2 : iter) (SM : sim (io i1) (io i2)),
  s_rel SM (ist i1) (ist i2) ->
  exists SM' : sim (io (fold_left (iter_node true cfg) rest i1)) (io (fold_left (iter_node false cfg) rest i2)),
    s_rel SM' (ist (fold_left (iter_node true cfg) rest i1)) (ist (fold_left (iter_node false cfg) rest i2)).
Proof.
  induction rest as [|b rest IH]; intros i1 i2 SM H.
  - exists SM. exact H.
  - cbn [fold_left].
    exact (IH (iter_node true cfg i1 b) (iter_node false cfg i2 b) (node_sim cfg (io i1) (io i2) SM)
              (node_sim_init (io i1) (io i2) SM (ist i1) (ist i2) b H)).
Qed.

Lemma tower_sim cfg first rest :
  exists SM : sim (io (tower true cfg first rest)) (io (tower false cfg first rest)),
    s_rel SM (ist (tower true cfg first rest)) (ist (tower false cfg first rest)).
Proof.
  unfold tower. apply (tower_sim_gen cfg rest (iter_leaf true first) (iter_leaf false first) leaf_sim).
  split; reflexivity.
Qed.

Section SimReaders.
  Variables o1 o2 : iobj.
  Variable SM : sim o1 o2.

  Definition obs_ts (ob : obs) : option Z := option_map ts ob.

  Lemma observe_sim x y : s_rel SM x y -> obs_ts (observe o1 x) = obs_ts (observe o2 y).
  Proof.
    intro H. unfold observe. rewrite (s_valid SM _ _ H). destruct (valid o2 y); [|reflexivity].
    simpl. rewrite (s_ts SM _ _ H). reflexivity.
  Qed.

  Lemma run_ops_sim : forall ops x y, s_rel SM x y ->
    map obs_ts (run_ops o1 x ops) = map obs_ts (run_ops o2 y ops).
  Proof.
    induction ops as [|p ops IH]; intros x y H; [reflexivity|].
    cbn [run_ops map].
    assert (H' : s_rel SM (step o1 p x) (step o2 p y)) by (destruct p; [apply (s_next SM)|apply (s_seek SM)]; exact H).
    rewrite (observe_sim _ _ H'). f_equal. apply IH. exact H'.
  Qed.

  Lemma drain_loop_sim : forall fuel x y out2, s_rel SM x y ->
    drain_loop o2 fuel y = Some out2 ->
    exists out1, drain_loop o1 fuel x = Some out1 /\ map ts out1 = map ts out2.
  Proof.
    induction fuel as [|f IH]; intros x y out2 H Hd; [discriminate|].
    cbn [drain_loop] in *. pose proof (s_next SM _ _ H) as Hn.
    rewrite (s_valid SM _ _ Hn). destruct (valid o2 (next o2 y)).
    - destruct (drain_loop o2 f (next o2 y)) as [r2|] eqn:E; [|discriminate].
      destruct (IH _ _ _ Hn E) as (r1 & Hr1 & Hm). rewrite Hr1.
      inversion Hd; subst. eexists; split; [reflexivity|]. simpl. rewrite (s_ts SM _ _ Hn), Hm. reflexivity.
    - inversion Hd; subst. exists []. split; reflexivity.
  Qed.
End SimReaders.

Theorem tower_counter_same_timestamps cfg first rest out2 :
  drain (tower false cfg first rest) = Some out2 ->
  exists out1, drain (tower true cfg first rest) = Some out1 /\ map ts out1 = map ts out2.
Proof.
  destruct (tower_sim cfg first rest) as [SM H]. unfold drain. rewrite (s_size SM _ _ H).
  apply (drain_loop_sim _ _ SM). exact H.
Qed.

Theorem tower_counter_reader_timestamps cfg first rest ops :
  map (option_map ts) (run_prog (tower true cfg first rest) ops) =
  map (option_map ts) (run_prog (tower false cfg first rest) ops).
Proof.
  destruct (tower_sim cfg first rest) as [SM H]. unfold run_prog. apply (run_ops_sim _ _ SM). exact H.
Qed.

(* Refinement of the iterator-object model (Lib/Dedup_Iter.v, non-counter mode)
   to the specification-level penalty merge: an iterator object satisfies
   [contract] when it behaves as a reader of a plain list of samples [fut];
   leaves do, and a dedup node over a contract-satisfying [a] and a leaf [b]
   does, with [fut] given by [pm] over the children's streams. *)
From Coq Require Import ZArith List Bool Lia.
Import ListNotations.
From Verif Require Import Lib.Dedup_Iter Lib.Dedup_SpecFacts.
Open Scope Z_scope.

Section Defs.
  Variable o : iobj.
  Variable fut : X o -> list sample.

  (* x observes as the stream l: head = current sample, tail = future *)
  Definition settled (x : X o) (l : list sample) : Prop :=
    match l with
    | [] => valid o x = false /\ fut x = []
    | s :: r => valid o x = true /\ at_ o x = s /\ atT o x = ts s /\ fut x = r
    end.

  Definition str (x : X o) : list sample := if valid o x then at_ o x :: fut x else fut x.

  (* x is positioned on the head of the stream it reads itself *)
  Definition coherent (x : X o) : Prop := settled x (str x).

  Lemma settled_str x l : settled x l -> str x = l.
  Proof.
    unfold settled, str. destruct l as [|s r].
    - intros [-> ->]. reflexivity.
    - intros (-> & -> & _ & ->). reflexivity.
  Qed.

  Lemma settled_self x l : settled x l -> settled x (str x).
  Proof. intro H. rewrite (settled_str _ _ H). exact H. Qed.

  Lemma settled_valid x l : settled x l -> valid o x = nonempty l.
  Proof. destruct l; simpl; intros H; destruct H as [H _]; exact H. Qed.
End Defs.

(* Inv holds of every reachable state. Fresh: nothing has been returned yet
   (then the iterator is not valid); Seek is covered on a valid iterator or on a
   fresh one, not after exhaustion. fut: the samples still to come after the
   current one. *)
Record contract (o : iobj) : Type := mkContract {
  Inv : X o -> Prop;
  Fresh : X o -> Prop;
  fut : X o -> list sample;
  c_fresh : forall x, Fresh x -> valid o x = false;
  c_next : forall x, Inv x -> Inv (next o x) /\ settled o fut (next o x) (fut x);
  c_seek : forall t x, Inv x -> (valid o x = true \/ Fresh x) ->
      Inv (seek o t x) /\ settled o fut (seek o t x) (drop_lt t (str o fut x));
  c_size : forall x, Inv x -> (length (str o fut x) <= size o x)%nat;
  c_adjust : forall v x, adjust o v x = x;
}.
Arguments Inv {o}. Arguments Fresh {o}. Arguments fut {o}.
Arguments c_fresh {o}. Arguments c_next {o}. Arguments c_seek {o}. Arguments c_size {o}. Arguments c_adjust {o}.

Definition leaf_fut (l : leaf) : list sample := if l_started l then tl (l_list l) else l_list l.

Lemma pair_add0 (s : sample) : (fst s, snd s + 0) = s.
Proof. destruct s; simpl. f_equal. lia. Qed.

(* transparent: leaf_contract_init reads Inv, Fresh and fut of the initial leaf off it *)
Lemma leaf_contract : contract (leaf_obj false).
Proof.
  refine (mkContract (leaf_obj false) (fun l => l_adj l = 0) (fun l => l_started l = false) leaf_fut _ _ _ _ _).
  - intros [st l adj]; simpl. intros ->. reflexivity.
  - intros [st l adj]; simpl. intros ->. split.
    + destruct st; reflexivity.
    + unfold leaf_fut; simpl. destruct st; simpl.
      * destruct l as [|x l]; simpl; [split; reflexivity|].
        destruct l as [|y l]; simpl; [split; reflexivity|].
        unfold leaf_valid, leaf_at, leaf_atT; simpl. rewrite pair_add0. repeat split; reflexivity.
      * destruct l as [|y l]; simpl; [split; reflexivity|].
        unfold leaf_valid, leaf_at, leaf_atT; simpl. rewrite pair_add0. repeat split; reflexivity.
  - intros t [st l adj]; simpl. intros -> Hv. split; [reflexivity|].
    assert (Hs : str (leaf_obj false) leaf_fut (mkLeaf st l 0) = l).
    { unfold str, leaf_fut; simpl. unfold leaf_valid, leaf_at; simpl.
      destruct Hv as [Hv|Hv].
      - unfold leaf_valid in Hv; simpl in Hv. destruct st; simpl in *; [|discriminate].
        destruct l as [|x l]; simpl in *; [discriminate|]. rewrite pair_add0. reflexivity.
      - simpl in Hv. subst st. reflexivity. }
    rewrite Hs. unfold leaf_seek; simpl.
    destruct (drop_lt t l) as [|s r] eqn:E; simpl.
    + unfold leaf_valid, leaf_fut; simpl. split; reflexivity.
    + unfold leaf_valid, leaf_fut, leaf_at, leaf_atT; simpl. rewrite pair_add0. repeat split; reflexivity.
  - intros [st l adj]; simpl. intros ->. unfold str, leaf_fut; simpl. unfold leaf_valid, leaf_at; simpl.
    destruct st; simpl.
    + destruct l as [|x l]; simpl; lia.
    + lia.
  - intros v x. reflexivity.
Defined.

Lemma leaf_contract_init l :
  Inv leaf_contract (leaf_init l) /\ Fresh leaf_contract (leaf_init l) /\ fut leaf_contract (leaf_init l) = l.
Proof. repeat split. Qed.

Section NodeC.
  Variable cfg : pcfg.
  Variable A : iobj.
  Variable CA : contract A.

  Notation strA := (str A (fut CA)).
  Notation nstateA := (nstate A).

  Definition nfut (x : nstateA) : list sample :=
    let '(a, b, s) := x in
    pm cfg (S (length (strA a) + length (l_list b))) (lastT s) (penA s) (penB s) (strA a) (l_list b).

  (* when the node holds a sample it is the head of the stream of the child it was
     picked from, in the state [choose] leaves behind *)
  Definition nInv (x : nstateA) : Prop :=
    let '(a, b, s) := x in
    Inv CA a /\ coherent A (fut CA) a /\ l_started b = true /\ l_adj b = 0 /\
    (n_ok s = true -> useA s = lastA s /\ exists c, lastT s = Some (ts c) /\
        picked (lastA s) c (penA s) (penB s) (strA a) (l_list b)).

  Definition nFresh (x : nstateA) : Prop := let '(_, _, s) := x in lastT s = None /\ n_ok s = false.

  Lemma node_adjust_id v (y : nstateA) : node_adjust false A v y = y.
  Proof.
    destruct y as [[a b] s]. unfold node_adjust. rewrite (c_adjust CA).
    simpl. destruct (valid A a), (leaf_valid b); reflexivity.
  Qed.

  (* without counter adjustment a step is its three parts *)
  Lemma node_next_parts a b s :
    node_next false cfg A (a, b, s) = (na1 A a s, nb1 b s, ns1 cfg A (na1 A a s) (nb1 b s) s).
  Proof.
    rewrite node_next_eq. cbv zeta.
    destruct (lastv A a b s); [destruct (Bool.eqb _ _)|]; try reflexivity. apply node_adjust_id.
  Qed.

  (* wf_: what validity says of the stream of a coherent iterator *)
  Lemma wf_invalid a : coherent A (fut CA) a -> valid A a = false -> strA a = [].
  Proof.
    unfold coherent, str. intros H Hv. rewrite Hv in *.
    destruct (fut CA a) as [|x r] eqn:E; [reflexivity|].
    simpl in H. destruct H as [H _]. congruence.
  Qed.

  Lemma na1_spec a s :
    Inv CA a -> coherent A (fut CA) a ->
    Inv CA (na1 A a s) /\ settled A (fut CA) (na1 A a s) (sdrop (lastT s) (penA s) (strA a)).
  Proof.
    intros Hi Hw. unfold coherent in Hw. unfold na1. destruct (valid A a) eqn:Hv.
    - unfold seek_opt, sdrop. destruct (lastT s) as [l|].
      + apply (c_seek CA); [exact Hi|left; exact Hv].
      + split; assumption.
    - pose proof (wf_invalid _ Hw Hv) as E. split; [exact Hi|].
      rewrite E in *. destruct (lastT s); simpl; exact Hw.
  Qed.

  Lemma nb1_spec b s :
    l_started b = true -> l_adj b = 0 ->
    l_started (nb1 b s) = true /\ l_adj (nb1 b s) = 0 /\
    l_list (nb1 b s) = sdrop (lastT s) (penB s) (l_list b).
  Proof.
    intros Hs Ha. unfold nb1, leaf_valid. rewrite Hs. simpl.
    destruct (l_list b) as [|x l] eqn:E; simpl.
    - rewrite E. destruct (lastT s); simpl; auto.
    - unfold seek_opt, sdrop. destruct (lastT s); simpl; [rewrite E|]; auto.
  Qed.

  Lemma leaf_started_obs b : l_started b = true -> l_adj b = 0 ->
    leaf_valid b = nonempty (l_list b) /\
    (forall x r, l_list b = x :: r -> leaf_at b = x /\ leaf_atT b = ts x).
  Proof.
    intros Hs Ha. unfold leaf_valid, leaf_at, leaf_atT. rewrite Hs, Ha. split; [reflexivity|].
    intros x r ->. rewrite pair_add0. split; reflexivity.
  Qed.

  (* with fuel beyond the two lengths the merge does not depend on the fuel *)
  Lemma pm_refuel f1 f2 lt pA pB la lb :
    (length la + length lb < f1)%nat -> (length la + length lb < f2)%nat ->
    pm cfg f1 lt pA pB la lb = pm cfg f2 lt pA pB la lb.
  Proof.
    intros H1 H2. pose proof (mu_le lt pA pB la lb). apply pm_fuel; lia.
  Qed.

  Lemma nfut_alt a b s f :
    (mu (lastT s) (penA s) (penB s) (strA a) (l_list b) < f)%nat ->
    nfut (a, b, s) = pm cfg f (lastT s) (penA s) (penB s) (strA a) (l_list b).
  Proof.
    intro H. unfold nfut. apply pm_fuel; [|exact H].
    pose proof (mu_le (lastT s) (penA s) (penB s) (strA a) (l_list b)). lia.
  Qed.

  Notation N := (node_obj false cfg A).

  (* on children that read la and lb the node decides as [choose] does on la and lb *)
  Lemma ns1_choose a1 b1 s la :
    settled A (fut CA) a1 la -> l_started b1 = true -> l_adj b1 = 0 ->
    ns1 cfg A a1 b1 s =
    match choose cfg (lastT s) (penA s) (penB s) la (l_list b1) with
    | None => mkNst false (lastT s) (lastA s) (penA s) (penB s) false
    | Some (side, c, pA', pB') => mkNst true (Some (ts c)) side pA' pB' side
    end.
  Proof.
    intros Hw Hs Ha. destruct (leaf_started_obs b1 Hs Ha) as [Hbv Hbat].
    unfold ns1, choose. rewrite (settled_valid _ _ _ _ Hw), Hbv.
    destruct la as [|sa ra], (l_list b1) as [|sb rb]; cbn [nonempty negb]; try reflexivity.
    - rewrite (proj2 (Hbat _ _ eq_refl)). reflexivity.
    - destruct Hw as (_ & _ & -> & _). reflexivity.
    - destruct Hw as (_ & _ & -> & _). rewrite (proj2 (Hbat _ _ eq_refl)).
      destruct (_ <=? _); reflexivity.
  Qed.

  (* the child on the side picked is positioned on the sample picked *)
  Lemma picked_cur a b side c pA pB :
    coherent A (fut CA) a -> l_started b = true -> l_adj b = 0 ->
    picked side c pA pB (strA a) (l_list b) ->
    (if side then at_ A a else leaf_at b) = c /\ (if side then atT A a else leaf_atT b) = ts c.
  Proof.
    unfold coherent. intros Hw Hbs Hba. destruct side; intros [[r Hr] _].
    - rewrite Hr in Hw. destruct Hw as (_ & Hat & HatT & _). auto.
    - exact (proj2 (leaf_started_obs b Hbs Hba) _ _ Hr).
  Qed.

  Lemma node_next_spec x :
    nInv x -> nInv (node_next false cfg A x) /\
              settled N nfut (node_next false cfg A x) (nfut x).
  Proof.
    destruct x as [[a b] s]. intros (Hi & Hw & Hbs & Hba & Hok).
    rewrite node_next_parts.
    destruct (na1_spec a s Hi Hw) as [Hi1 Hw1].
    destruct (nb1_spec b s Hbs Hba) as (Hbs1 & Hba1 & Hbl1).
    pose proof (settled_str _ _ _ _ Hw1) as Hsa1.
    pose proof (settled_self _ _ _ _ Hw1) as Hw1'.
    rewrite (ns1_choose _ _ s _ Hw1 Hbs1 Hba1).
    set (a1 := na1 A a s) in *. set (b1 := nb1 b s) in *.
    (* one step of the specification, on the same two streams *)
    unfold nfut at 2. rewrite pm_S. cbv zeta. rewrite <- Hbl1.
    pose proof (sdrop_length (lastT s) (penA s) (strA a)) as Hla.
    pose proof (sdrop_length (lastT s) (penB s) (l_list b)) as Hlb. rewrite <- Hbl1 in Hlb.
    destruct (choose _ _ _ _ _ _) as [[[[side c] pA'] pB']|] eqn:E.
    - apply choose_head in E. rewrite <- Hsa1 in E.
      destruct (picked_cur a1 b1 _ _ _ _ Hw1' Hbs1 Hba1 E) as [Hat HatT].
      split; [repeat split; try assumption; exists c; split; [reflexivity|exact E]|].
      unfold settled, nfut. cbn [valid node_obj node_valid n_ok at_ node_at atT node_atT lastA useA lastT penA penB].
      repeat split; try assumption. apply picked_mu in E. rewrite Hsa1 in *. apply pm_fuel; lia.
    - (* both children exhausted *)
      apply choose_none in E as [Ea Eb]. split.
      + refine (conj Hi1 (conj Hw1' (conj Hbs1 (conj Hba1 _)))). cbn [n_ok]. discriminate.
      + unfold settled, nfut. cbn [valid node_obj node_valid n_ok lastT penA penB].
        rewrite Hsa1, Ea, Eb. cbn [pm]. destruct (lastT s); auto.
  Qed.

  Lemma set_ok_true s : n_ok s = true -> set_ok true s = s.
  Proof. destruct s; simpl. intros ->. reflexivity. Qed.

  Lemma nInv_cur a b s :
    nInv (a, b, s) -> n_ok s = true ->
    exists c, node_at A (a, b, s) = c /\ node_atT A (a, b, s) = ts c /\ lastT s = Some (ts c) /\
      useA s = lastA s /\ picked (lastA s) c (penA s) (penB s) (strA a) (l_list b).
  Proof.
    intros (Hi & Hw & Hbs & Hba & Hok) Hv. destruct (Hok Hv) as (HuA & c & HlT & Hp).
    destruct (picked_cur a b _ c _ _ Hw Hbs Hba Hp) as [Hat HatT].
    exists c. cbn [node_atT node_at]. rewrite HuA. auto.
  Qed.

  (* Seek's exit: the child that holds the current sample is sought to that
     sample's own timestamp, which leaves it where it is *)
  Lemma node_reseek a b s :
    nInv (a, b, s) -> n_ok s = true ->
    let t0 := node_atT A (a, b, s) in
    let x' := if useA s then (seek A t0 a, b, set_ok (valid A (seek A t0 a)) s)
              else (a, leaf_seek t0 b, set_ok (leaf_valid (leaf_seek t0 b)) s) in
    nInv x' /\ settled N nfut x' (node_at A (a, b, s) :: nfut (a, b, s)).
  Proof.
    intros HI Hv. destruct (nInv_cur a b s HI Hv) as (c & Hat & HatT & HlT & HuA & Hp).
    rewrite Hat, HatT, HuA. cbv zeta. cbn [node_at node_atT] in Hat, HatT. rewrite HuA in HatT.
    pose proof HI as (Hi & Hw & Hbs & Hba & _). unfold coherent in Hw.
    destruct (lastA s) eqn:ElA; pose proof Hp as [[r Hr] Hpen].
    - rewrite Hr in Hw. pose proof Hw as (Hva & _).
      destruct (c_seek CA (ts c) a Hi (or_introl Hva)) as [Hi' Hs'].
      rewrite Hr, drop_lt_keep in Hs' by lia.
      pose proof (settled_str _ _ _ _ Hs') as Hstr'. rewrite <- Hr in Hstr'.
      pose proof Hs' as (-> & Hat' & HatT' & _). rewrite (set_ok_true s Hv). split.
      + refine (conj Hi' (conj _ (conj Hbs (conj Hba (fun _ => conj _ (ex_intro _ c (conj HlT _))))))).
        * unfold coherent. rewrite Hstr', Hr. exact Hs'.
        * congruence.
        * rewrite ElA, Hstr'. exact Hp.
      + unfold settled, nfut. cbn [valid node_obj node_valid at_ node_at atT node_atT].
        rewrite HuA, ElA, Hstr'. auto.
    - assert (Hb' : leaf_seek (ts c) b = b).
      { unfold leaf_seek. rewrite Hr, drop_lt_keep by lia.
        destruct b as [st l adj]. cbn in Hbs, Hr |- *. rewrite Hbs, Hr. reflexivity. }
      rewrite Hb', (proj1 (leaf_started_obs b Hbs Hba)), Hr. cbn [nonempty]. rewrite (set_ok_true s Hv).
      split; [exact HI|].
      unfold settled. cbn [valid node_obj node_valid at_ node_at atT node_atT]. rewrite HuA, ElA. auto.
  Qed.

  (* Seek after a Next: stop if that exhausted the node, otherwise loop *)
  Lemma seek_from_next : forall fuel t x,
    nInv x -> (length (nfut x) <= fuel)%nat ->
    let x' := node_next false cfg A x in
    let y := if node_valid A x' then node_seek_loop false cfg A fuel t x' else x' in
    nInv y /\ settled N nfut y (drop_lt t (nfut x)).
  Proof.
    induction fuel as [|f IH]; intros t x HI Hlen; cbv zeta;
      destruct (node_next_spec x HI) as [HIn Hsn];
      destruct (nfut x) as [|c r]; try (cbn in Hlen; lia).
    1, 2: destruct Hsn as [Hvn Hfn]; cbn in Hvn; rewrite Hvn; cbn; auto.
    pose proof Hsn as (Hvn & Hatn & _ & Hfn). cbn in Hvn, Hatn. rewrite Hvn.
    destruct (node_next false cfg A x) as [[a b] s] eqn:Ex. cbn [node_seek_loop].
    destruct (node_reseek a b s HIn Hvn) as [HIr Hsr]. cbv zeta in HIr, Hsr.
    destruct (nInv_cur a b s HIn Hvn) as (c' & Hat & HatT & _). rewrite Hatn in Hat. subst c'.
    rewrite Hatn, Hfn in Hsr. rewrite HatT in *.
    destruct (ts c >=? t) eqn:Ecmp.
    - rewrite drop_lt_keep by (apply Z.geb_le in Ecmp; lia).
      destruct (useA s); split; assumption.
    - rewrite drop_lt_skip by (rewrite Z.geb_leb in Ecmp; apply Z.leb_gt in Ecmp; lia).
      rewrite <- Hfn. apply IH; [exact HIn|rewrite Hfn; cbn in Hlen; lia].
  Qed.

  Lemma wf_valid a : coherent A (fut CA) a -> valid A a = true ->
    strA a = at_ A a :: fut CA a /\ atT A a = ts (at_ A a).
  Proof.
    unfold coherent, str. intros H Hv. rewrite Hv in *. split; [reflexivity|].
    simpl in H. destruct H as (_ & _ & H & _). exact H.
  Qed.

  Lemma node_seek_loop_spec : forall fuel t x,
    nInv x -> node_valid A x = true -> (length (nfut x) < fuel)%nat ->
    nInv (node_seek_loop false cfg A fuel t x) /\
    settled N nfut (node_seek_loop false cfg A fuel t x) (drop_lt t (node_at A x :: nfut x)).
  Proof.
    intros [|f] t [[a b] s] HI Hv Hlen; [lia|]. cbn in Hv. cbn [node_seek_loop].
    destruct (nInv_cur a b s HI Hv) as (c & Hat & HatT & _). rewrite HatT, Hat.
    destruct (ts c >=? t) eqn:Ecmp.
    - rewrite drop_lt_keep by (apply Z.geb_le in Ecmp; lia).
      destruct (node_reseek a b s HI Hv) as [HIr Hsr]. cbv zeta in HIr, Hsr. rewrite HatT, Hat in *.
      destruct (useA s); split; assumption.
    - rewrite drop_lt_skip by (rewrite Z.geb_leb in Ecmp; apply Z.leb_gt in Ecmp; lia).
      apply seek_from_next; [exact HI|lia].
  Qed.

  Lemma node_size_spec x : nInv x -> (length (str N nfut x) <= node_size A x)%nat.
  Proof.
    destruct x as [[a b] s]. intro HI. pose proof (c_size CA a (proj1 HI)) as Hsz.
    pose proof (pm_length cfg (S (length (strA a) + length (l_list b))) (lastT s) (penA s) (penB s) (strA a) (l_list b)) as Hpl.
    fold (nfut (a, b, s)) in Hpl.
    unfold str. cbn [valid node_obj node_valid at_ node_size].
    destruct (n_ok s) eqn:Ev; cbn [length].
    - destruct (nInv_cur a b s HI Ev) as (c & _ & _ & HlT & _ & Hp).
      apply picked_mu in Hp. rewrite HlT in Hpl. lia.
    - pose proof (mu_le (lastT s) (penA s) (penB s) (strA a) (l_list b)). lia.
  Qed.

  Lemma node_seek_spec t x :
    nInv x -> (node_valid A x = true \/ nFresh x) ->
    nInv (node_seek false cfg A t x) /\
    settled N nfut (node_seek false cfg A t x) (drop_lt t (str N nfut x)).
  Proof.
    intros HI Hc. pose proof (node_size_spec x HI) as Hsz.
    destruct x as [[a b] s]. unfold node_seek, str in *. cbn [valid node_obj node_valid] in *.
    destruct Hc as [Hv|[HlT Hnv]].
    - cbn in Hv. destruct (nInv_cur a b s HI Hv) as (c & _ & _ & HlT & _).
      rewrite HlT, Hv in *. apply node_seek_loop_spec; [exact HI|exact Hv|]. cbn [length] in Hsz. lia.
    - rewrite HlT, Hnv in *.
      (* the fuel is taken after the Next and covers what is left then *)
      destruct (node_next_spec _ HI) as [HIn Hsn].
      pose proof (node_size_spec _ HIn) as Hsz0. rewrite (settled_str _ _ _ _ Hsn) in Hsz0.
      apply seek_from_next; [exact HI|lia].
  Qed.

  Definition node_contract : contract N :=
    mkContract N nInv nFresh nfut
      (fun x => match x with (_, _, s) => fun H => proj2 H end)
      node_next_spec node_seek_spec node_size_spec node_adjust_id.

  Lemma node_contract_init a0 b :
    Inv CA a0 ->
    nInv (node_init A a0 b) /\ nFresh (node_init A a0 b) /\
    nfut (node_init A a0 b) = pmerge cfg (fut CA a0) b.
  Proof.
    intro Hi. destruct (c_next CA a0 Hi) as [Hi' Hs'].
    unfold node_init. split; [|split].
    - unfold nInv. split; [exact Hi'|]. split; [eapply settled_self; exact Hs'|].
      repeat split. cbn. discriminate.
    - split; reflexivity.
    - unfold nfut, pmerge. rewrite (settled_str _ _ _ _ Hs'). reflexivity.
  Qed.
End NodeC.

Lemma tower_contract_gen cfg : forall rest (i : iter) (C : contract (io i)),
  Inv C (ist i) -> Fresh C (ist i) ->
  exists C' : contract (io (fold_left (iter_node false cfg) rest i)),
    Inv C' (ist (fold_left (iter_node false cfg) rest i)) /\
    Fresh C' (ist (fold_left (iter_node false cfg) rest i)) /\
    fut C' (ist (fold_left (iter_node false cfg) rest i)) = pmerge_all cfg (fut C (ist i)) rest.
Proof.
  induction rest as [|b rest IH]; intros i C Hi Hf.
  - exists C. repeat split; assumption.
  - cbn [fold_left pmerge_all].
    destruct (node_contract_init cfg (io i) C (ist i) b Hi) as (H1 & H2 & H3).
    destruct (IH (iter_node false cfg i b) (node_contract cfg (io i) C) H1 H2) as (C' & Hi' & Hf' & Hfut).
    exists C'. repeat split; try assumption.
    rewrite Hfut. cbn [fut node_contract iter_node ist]. rewrite H3. reflexivity.
Qed.

Lemma tower_contract cfg first rest :
  exists C : contract (io (tower false cfg first rest)),
    Inv C (ist (tower false cfg first rest)) /\ Fresh C (ist (tower false cfg first rest)) /\
    fut C (ist (tower false cfg first rest)) = pmerge_all cfg first rest.
Proof.
  unfold tower.
  destruct (leaf_contract_init first) as (H1 & H2 & H3).
  destruct (tower_contract_gen cfg rest (iter_leaf false first) leaf_contract H1 H2) as (C & Hi & Hf & Hfut).
  exists C. split; [exact Hi|]. split; [exact Hf|]. rewrite Hfut. reflexivity.
Qed.

Section Readers.
  Variable o : iobj.
  Variable C : contract o.

  Lemma drain_loop_spec : forall fuel x,
    Inv C x -> (length (fut C x) < fuel)%nat -> drain_loop o fuel x = Some (fut C x).
  Proof.
    induction fuel as [|f IH]; intros x Hi Hlen; [lia|].
    cbn [drain_loop]. destruct (c_next C x Hi) as [Hi' Hs'].
    destruct (fut C x) as [|s r] eqn:E.
    - simpl in Hs'. destruct Hs' as [Hv _]. rewrite Hv. reflexivity.
    - simpl in Hs'. destruct Hs' as (Hv & Hat & _ & Hf). rewrite Hv.
      rewrite (IH _ Hi'); [|rewrite Hf; simpl in Hlen; lia].
      rewrite Hat, Hf. reflexivity.
  Qed.

  Lemma drain_fresh x : Inv C x -> Fresh C x ->
    drain_loop o (S (S (size o x))) x = Some (fut C x).
  Proof.
    intros Hi Hf. apply drain_loop_spec; [exact Hi|].
    pose proof (c_size C x Hi) as Hsz. unfold str in Hsz. rewrite (c_fresh C x Hf) in Hsz. lia.
  Qed.

  (* relation between an iterator state and the state of a reader of a plain list *)
  Definition rel (x : X o) (started : bool) (cur : option sample) (futl : list sample) : Prop :=
    match cur with
    | Some c => valid o x = true /\ at_ o x = c /\ fut C x = futl
    | None => valid o x = false /\ fut C x = futl /\ (started = false -> Fresh C x) /\ (started = true -> futl = [])
    end.

  Lemma rel_str x st cur futl : rel x st cur futl -> str o (fut C) x = lstream cur futl.
  Proof.
    unfold rel, str. destruct cur as [c|].
    - intros (-> & -> & ->). reflexivity.
    - intros (-> & -> & _). reflexivity.
  Qed.

  Lemma rel_of_settled x l :
    settled o (fut C) x l ->
    match l with [] => rel x true None [] | s :: r => rel x true (Some s) r end.
  Proof.
    destruct l as [|s r]; simpl.
    - intros [Hv Hf]. repeat split; try assumption. discriminate.
    - intros (Hv & Hat & _ & Hf). repeat split; assumption.
  Qed.

  Lemma observe_settled x l : settled o (fut C) x l ->
    observe o x = match l with [] => None | s :: _ => Some s end.
  Proof.
    unfold observe. destruct l as [|s r]; simpl.
    - intros [-> _]. reflexivity.
    - intros (-> & -> & _). reflexivity.
  Qed.

  Lemma rel_fut x st cur futl : rel x st cur futl -> fut C x = futl.
  Proof. destruct cur; [intros (_ & _ & H)|intros (_ & H & _)]; exact H. Qed.

  (* the reader protocol allows Seek exactly where the contract covers it *)
  Lemma rel_seekable x st cur futl :
    rel x st cur futl -> negb st || nonempty (lstream cur futl) = true -> valid o x = true \/ Fresh C x.
  Proof.
    destruct cur as [c|]; [intros [H _] _; left; exact H|].
    intros (_ & _ & Hfr & Hex) Hp. destruct st; [|right; apply Hfr; reflexivity].
    rewrite (Hex eq_refl) in Hp. discriminate.
  Qed.

  Lemma step_settled p x st cur futl :
    Inv C x -> rel x st cur futl ->
    match p with ONext => true | OSeek _ => negb st || nonempty (lstream cur futl) end = true ->
    Inv C (step o p x) /\
    settled o (fut C) (step o p x) (match p with ONext => futl | OSeek t => drop_lt t (lstream cur futl) end).
  Proof.
    intros Hi Hr Hp. destruct p as [|t]; cbn [step].
    - rewrite <- (rel_fut _ _ _ _ Hr). exact (c_next C x Hi).
    - rewrite <- (rel_str _ _ _ _ Hr). apply (c_seek C); [exact Hi|]. eapply rel_seekable; eassumption.
  Qed.

  Lemma run_ops_spec : forall ops x st cur futl,
    Inv C x -> rel x st cur futl -> proto_ok st cur futl ops = true ->
    run_ops o x ops = spec_run cur futl ops.
  Proof.
    induction ops as [|p ops IH]; intros x st cur futl Hi Hr Hp; [reflexivity|].
    cbn [run_ops spec_run proto_ok] in *.
    apply andb_true_iff in Hp as [Hp1 Hp2].
    destruct (step_settled p x st cur futl Hi Hr Hp1) as [Hi' Hs'].
    rewrite (observe_settled _ _ Hs').
    pose proof (rel_of_settled _ _ Hs') as Hr'.
    destruct (match p with ONext => futl | OSeek t => drop_lt t (lstream cur futl) end) as [|s r];
      f_equal; eapply IH; eassumption.
  Qed.

  Lemma run_ops_fresh ops x :
    Inv C x -> Fresh C x -> proto_ok false None (fut C x) ops = true ->
    run_ops o x ops = spec_run None (fut C x) ops.
  Proof.
    intros Hi Hf Hp. eapply run_ops_spec; [exact Hi| |exact Hp].
    unfold rel. repeat split; auto. exact (c_fresh C x Hf). discriminate.
  Qed.
End Readers.

Theorem tower_drain cfg first rest :
  drain (tower false cfg first rest) = Some (pmerge_all cfg first rest).
Proof.
  destruct (tower_contract cfg first rest) as (C & Hi & Hf & Hfut).
  unfold drain. rewrite (drain_fresh _ C _ Hi Hf). rewrite Hfut. reflexivity.
Qed.

Theorem tower_reader cfg first rest ops :
  proto_ok false None (pmerge_all cfg first rest) ops = true ->
  run_prog (tower false cfg first rest) ops = spec_run None (pmerge_all cfg first rest) ops.
Proof.
  destruct (tower_contract cfg first rest) as (C & Hi & Hf & Hfut).
  intro Hp. unfold run_prog. rewrite <- Hfut in *. apply (run_ops_fresh _ C); assumption.
Qed.

(* Shared lemmas about downsampleBatch (Lib/Downsample_Core.v) for C36 / C37 / C38:
   what one batch emits, for time-ordered non-negative samples. *)
From Coq Require Import ZArith List Bool Lia Sorted.
Import ListNotations.
From Verif Require Import Lib.ListFacts Lib.Downsample_Core.
Open Scope Z_scope.

Lemma sorted_le_last (b : list sample) :
  StronglySorted Z.le (map fst b) -> Forall (fun s => fst s <= last_t b) b.
Proof.
  unfold last_t. induction b as [|s r IH]; intros Hs; [constructor|].
  cbn [map] in Hs. apply StronglySorted_inv in Hs as [Hs Hle].
  destruct r as [|s' r'].
  - constructor; [cbn; lia|constructor].
  - change (last (s :: s' :: r') (0, 0)) with (last (s' :: r') (0, 0)).
    constructor; [|apply IH; exact Hs].
    rewrite Forall_forall in Hle. apply Hle. apply in_map. apply last_in. discriminate.
Qed.

Lemma db_loop_total cw res lastT : forall data nextT a,
  a_total (snd (snd (db_loop cw res lastT data nextT a))) = a_total a + Z.of_nat (length data).
Proof.
  induction data as [|[t v] r IH]; intros nextT a; cbn [db_loop].
  - cbn. lia.
  - destruct (t >? nextT).
    + specialize (IH (Z.min (cw t res) lastT) (a_add (a_reset a) v)).
      destruct (db_loop cw res lastT r (Z.min (cw t res) lastT) (a_add (a_reset a) v)) as [out fin].
      cbn [snd] in *. rewrite IH. cbn [a_add a_reset a_total length]. lia.
    + rewrite IH. cbn [a_add a_total length]. lia.
Qed.

(* consecutive groups whose labels are pairwise distinct and are the key of their
   members are the key-filters of the whole *)
Lemma windows_filter (key : sample -> Z) (lab : Z * list sample -> Z) : forall wins,
  Forall (fun p => Forall (fun s => key s = lab p) (snd p)) wins ->
  NoDup (map lab wins) ->
  Forall (fun p => filter (fun s => key s =? lab p) (concat (map snd wins)) = snd p) wins.
Proof.
  induction wins as [|q rest IH]; intros Hk Hnd; [constructor|].
  apply Forall_cons_iff in Hk as [Hq Hk]. cbn [map] in Hnd. apply NoDup_cons_iff in Hnd as [Hnin Hnd].
  assert (Hoth : forall p, In p rest ->
            (forall s, In s (snd p) -> (key s =? lab q) = false) /\
            (forall s, In s (snd q) -> (key s =? lab p) = false)).
  { intros p Hin. rewrite Forall_forall in Hk, Hq. specialize (Hk p Hin). rewrite Forall_forall in Hk.
    assert (lab p <> lab q) by (intro E; apply Hnin; rewrite <- E; apply in_map, Hin).
    split; intros s Hs; apply Z.eqb_neq; [rewrite (Hk s Hs)|rewrite (Hq s Hs)]; congruence. }
  cbn [map concat]. constructor.
  - rewrite filter_app, filter_all, filter_none; [apply app_nil_r| |].
    + intros s Hs. apply in_concat in Hs as (c & Hc & Hs). apply in_map_iff in Hc as (p & <- & Hin).
      apply (Hoth p Hin), Hs.
    + intros s Hs. apply Z.eqb_eq. rewrite Forall_forall in Hq. apply Hq, Hs.
  - specialize (IH Hk Hnd). rewrite Forall_forall in IH |- *. intros p Hin.
    rewrite filter_app, filter_none; [apply (IH p Hin)|apply (Hoth p Hin)].
Qed.

Definition snap_ok (o : Z * fagg) (g : Z * list sample) : Prop :=
  fst o = fst g /\ win_ok (snd o) (map snd (snd g)).

Lemma snap_ok_labels outs wins : Forall2 snap_ok outs wins -> map fst outs = map fst wins.
Proof. induction 1 as [|o g outs wins [H _] _ IH]; [reflexivity|]. cbn [map]. rewrite H, IH. reflexivity. Qed.

Lemma min_list_some l : l <> [] -> exists m, min_list l = Some m.
Proof. destruct l as [|x l]; [congruence|]. intros _. cbn. destruct (min_list l); eexists; reflexivity. Qed.

Lemma max_list_some l : l <> [] -> exists m, max_list l = Some m.
Proof. destruct l as [|x l]; [congruence|]. intros _. cbn. destruct (max_list l); eexists; reflexivity. Qed.

Lemma snap_totals : forall outs wins,
  Forall2 snap_ok outs wins -> Forall (fun g : Z * list sample => snd g <> []) wins ->
  let vs := map snd (concat (map snd wins)) in
  sumZ (map (fun o => a_count (snd o)) outs) = Z.of_nat (length vs) /\
  sumZ (map (fun o => a_sum (snd o)) outs) = sumZ vs /\
  min_list (map (fun o => oz (a_min (snd o))) outs) = min_list vs /\
  max_list (map (fun o => oz (a_max (snd o))) outs) = max_list vs.
Proof.
  induction 1 as [|o g outs wins [_ (Hc & Hs & Hmn & Hmx)] _ IH]; intros Hne; cbv zeta.
  - repeat split.
  - apply Forall_cons_iff in Hne as [Hg Hne]. specialize (IH Hne). cbv zeta in IH.
    destruct IH as (IHc & IHs & IHmn & IHmx).
    cbn [map concat sumZ min_list max_list].
    rewrite map_app, app_length, sumZ_app, min_list_app, max_list_app.
    rewrite IHc, IHs, IHmn, IHmx, Hc, Hs, Hmn, Hmx.
    assert (Hv : map snd (snd g) <> []) by (destruct (snd g); [congruence|discriminate]).
    split; [rewrite Nat2Z.inj_add; reflexivity|]. split; [reflexivity|].
    destruct (min_list_some _ Hv) as [m Em]. destruct (max_list_some _ Hv) as [m' Em'].
    rewrite Em, Em'. cbn [oz]. split.
    + destruct (min_list (map snd (concat (map snd wins)))); reflexivity.
    + destruct (max_list (map snd (concat (map snd wins)))); reflexivity.
Qed.

Lemma fold_mint_sorted : forall ts init,
  StronglySorted Z.lt ts -> ts <> [] -> hd 0 ts <= init -> fold_mint ts init = hd 0 ts.
Proof.
  unfold fold_mint. intros ts init Hs Hne Hle. destruct ts as [|x ts]; [congruence|]. cbn [hd fold_left] in *.
  apply StronglySorted_inv in Hs as [_ Hx]. replace (Z.min init x) with x by lia.
  clear Hle Hne. induction ts as [|y ts IH]; [reflexivity|]. cbn [fold_left].
  apply Forall_cons_iff in Hx as [Hy Hx]. replace (Z.min x y) with x by lia. apply IH. exact Hx.
Qed.

Lemma fold_maxt_sorted : forall ts init,
  StronglySorted Z.lt ts -> ts <> [] -> init <= last ts 0 -> fold_maxt ts init = last ts 0.
Proof.
  unfold fold_maxt. induction ts as [|x ts IH]; intros init Hs Hne Hle; [congruence|].
  apply StronglySorted_inv in Hs as [Hs Hx]. cbn [fold_left].
  destruct ts as [|y ts']; [cbn in *; lia|].
  change (last (x :: y :: ts') 0) with (last (y :: ts') 0) in *.
  apply IH; [exact Hs|discriminate|].
  assert (x <= last (y :: ts') 0).
  { rewrite Forall_forall in Hx. specialize (Hx _ (last_in (y :: ts') 0 ltac:(discriminate))). lia. }
  lia.
Qed.

Section Batch.
Variable cw : Z -> Z -> Z.
Variable res : Z.
Hypothesis cw_ge : forall t, 0 <= t -> t <= cw t res.
Hypothesis cw_same : forall t t', 0 <= t -> t <= t' -> t' <= cw t res -> cw t' res = cw t res.

Lemma cw_mono t t' : 0 <= t -> t <= t' -> cw t res <= cw t' res.
Proof.
  intros H0 Hle. destruct (Z_le_gt_dec t' (cw t res)) as [H|H].
  - rewrite (cw_same t t'); lia.
  - pose proof (cw_ge t' ltac:(lia)). lia.
Qed.

Definition sorted_nonneg (b : list sample) : Prop :=
  StronglySorted Z.le (map fst b) /\ Forall (fun s => 0 <= fst s) b.

(* the windows of a batch: (emitted timestamp, samples aggregated under it) *)
Definition batch_windows (b : list sample) : list (Z * list sample) :=
  let '(gout, (gT, cur')) := gh_loop cw res (last_t b) b (-1) [] in gout ++ [(gT, cur')].

Lemma batch_spec (b : list sample) :
  b <> [] -> sorted_nonneg b ->
  let wins := batch_windows b in
  concat (map snd wins) = b /\
  Forall (win_of cw res (last_t b)) wins /\
  StronglySorted Z.lt (map fst wins) /\
  Forall2 snap_ok (fst (downsample_batch cw res b)) wins /\
  snd (downsample_batch cw res b) = last_t b /\
  fst (last wins (0, [])) = last_t b.
Proof.
  intros Hne [Hs Hnn]. unfold batch_windows, downsample_batch.
  pose proof (sorted_le_last b Hs) as Hle. set (lastT := last_t b) in *.
  (* the first sample always opens a window and resets the aggregator *)
  destruct b as [|[t v] r]; [congruence|].
  apply Forall_cons_iff in Hnn as [Ht Hnn]. apply Forall_cons_iff in Hle as [Htl Hle]. cbn [fst] in Ht, Htl.
  cbn [map] in Hs. apply StronglySorted_inv in Hs as [Hs Hge]. rewrite Forall_map in Hge.
  cbn [db_loop gh_loop]. replace (t >? -1) with true by (symmetry; apply Z.gtb_lt; lia).
  change (-1 =? -1) with true. cbv iota. cbn [app]. fold (ew cw res lastT t).
  assert (Hb : Forall (fun s => t <= fst s <= lastT) r).
  { rewrite Forall_forall in Hge, Hle |- *. intros s Hin. split; [apply Hge|apply Hle]; exact Hin. }
  assert (Hnew : win_of cw res lastT (ew cw res lastT t, [(t, v)])) by (split; [discriminate|repeat constructor]).
  pose proof (gh_loop_spec cw res lastT cw_ge cw_same r t [(t, v)] Hs Hb Ht Hnew) as G.
  assert (W : win_ok (a_add (a_reset a0) v) (map snd [(t, v)])) by apply (win_ok_add _ []), win_ok_reset.
  pose proof (db_gh_lockstep cw res lastT r (ew cw res lastT t) _ [(t, v)] W) as L.
  pose proof (db_loop_total cw res lastT r (ew cw res lastT t) (a_add (a_reset a0) v)) as T.
  destruct (db_loop cw res lastT r (ew cw res lastT t) (a_add (a_reset a0) v)) as [out [nT a']].
  destruct (gh_loop cw res lastT r (ew cw res lastT t) [(t, v)]) as [gout [gT cur']].
  destruct G as (Hcat & Hwins & Hfw & Hsort & _). destruct L as (-> & Hw' & HF).
  cbn [snd a_add a_reset a_total a0] in T.
  replace (a_total a' >? 0) with true by (symmetry; apply Z.gtb_lt; lia).
  (* the batch's last sample is the last of the last window *)
  assert (HgT : gT = lastT).
  { destruct Hfw as [Hne' Hall]. rewrite Forall_forall in Hall. specialize (Hall _ (last_in cur' (0, 0) Hne')).
    rewrite <- (last_app_ne (concat (map snd gout)) cur' (0, 0) Hne'), Hcat in Hall.
    change (ew cw res lastT lastT = gT) in Hall. unfold ew in Hall. pose proof (cw_ge lastT ltac:(lia)). lia. }
  cbn [fst snd].
  split; [rewrite map_app, concat_app; cbn [map concat]; rewrite app_nil_r; exact Hcat|].
  split; [apply Forall_app; split; [exact Hwins|constructor; [exact Hfw|constructor]]|].
  split; [rewrite map_app; exact Hsort|].
  split; [apply Forall2_app; [exact HF|constructor; [split; [reflexivity|exact Hw']|constructor]]|].
  split; [exact HgT|].
  rewrite last_app_ne by discriminate. cbn. exact HgT.
Qed.

End Batch.

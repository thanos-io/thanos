(* Counter side of the downsampling model (C37): the reset-adjusted counter [adj] and
   what floatAggregator.total / counter / last hold in every snapshot that
   downsampleBatch hands out ([run_ok], in lockstep with the ghost windows). *)
From Coq Require Import ZArith List Bool Lia Sorted.
Import ListNotations.
From Verif Require Import Lib.ListFacts Lib.Downsample_Core.
Open Scope Z_scope.

Definition step (lastv v : Z) : Z := if v >=? lastv then v - lastv else v.

Fixpoint adj_from (lastv total : Z) (vs : list Z) : Z :=
  match vs with
  | [] => total
  | v :: r => adj_from v (total + step lastv v) r
  end.

(* value of the reset-adjusted cumulative counter after the given raw values *)
Definition adj (vs : list Z) : Z :=
  match vs with
  | [] => 0
  | v :: r => adj_from v v r
  end.

Lemma adj_from_snoc : forall vs lastv total v,
  adj_from lastv total (vs ++ [v]) = adj_from lastv total vs + step (last vs lastv) v.
Proof.
  induction vs as [|x vs IH]; intros lastv total v; cbn [app adj_from]; [reflexivity|].
  rewrite IH. destruct vs as [|z vs']; [reflexivity|].
  change (last (x :: z :: vs') lastv) with (last (z :: vs') lastv).
  rewrite (last_default (z :: vs') x lastv) by discriminate. reflexivity.
Qed.

Lemma adj_snoc vs v : vs <> [] -> adj (vs ++ [v]) = adj vs + step (last vs 0) v.
Proof.
  destruct vs as [|x vs]; [congruence|]. intros _. cbn [app adj]. rewrite adj_from_snoc.
  destruct vs as [|z vs']; [reflexivity|].
  change (last (x :: z :: vs') 0) with (last (z :: vs') 0).
  rewrite (last_default (z :: vs') x 0) by discriminate. reflexivity.
Qed.

Lemma adj_from_total : forall vs lastv total, adj_from lastv total vs = total + adj_from lastv 0 vs.
Proof.
  induction vs as [|x vs IH]; intros lastv total; cbn [adj_from]; [lia|].
  rewrite IH, (IH x (0 + step lastv x)). lia.
Qed.

(* continuing after a prefix only depends on the prefix's adjusted value and last raw value *)
Lemma adj_app pre vs : pre <> [] ->
  adj (pre ++ vs) = adj pre + adj_from (last pre 0) 0 vs.
Proof.
  revert pre. induction vs as [|v vs IH]; intros pre Hne.
  - rewrite app_nil_r. cbn. lia.
  - replace (pre ++ v :: vs) with ((pre ++ [v]) ++ vs) by (rewrite <- app_assoc; reflexivity).
    rewrite IH by (destruct pre; discriminate). rewrite adj_snoc by exact Hne.
    rewrite last_last. cbn [adj_from]. rewrite (adj_from_total vs v (0 + step (last pre 0) v)). lia.
Qed.

Lemma step_nonneg lastv v : 0 <= v -> 0 <= step lastv v.
Proof. unfold step. destruct (v >=? lastv) eqn:E; [apply Z.geb_le in E|]; lia. Qed.

Lemma adj_from_nonneg : forall vs lastv, Forall (fun v => 0 <= v) vs -> 0 <= adj_from lastv 0 vs.
Proof.
  induction vs as [|v vs IH]; intros lastv H; cbn [adj_from]; [lia|].
  apply Forall_cons_iff in H as [Hv H]. rewrite adj_from_total.
  pose proof (step_nonneg lastv v Hv). pose proof (IH v H). lia.
Qed.

Definition run_ok (a : fagg) (pre : list Z) : Prop :=
  a_total a = Z.of_nat (length pre) /\
  (pre <> [] -> a_counter a = adj pre /\ a_last a = last pre 0).

Lemma run_ok_reset a pre : run_ok a pre -> run_ok (a_reset a) pre.
Proof. intros H. exact H. Qed.

Lemma run_ok_add a pre v : run_ok a pre -> run_ok (a_add a v) (pre ++ [v]).
Proof.
  intros [Ht Hc]. split.
  - cbn [a_add a_total]. rewrite app_length. cbn [length]. lia.
  - intros _. cbn [a_add a_counter a_last]. rewrite last_last. split; [|reflexivity].
    destruct pre as [|x pre'].
    + cbn in Ht. rewrite Ht. reflexivity.
    + destruct (Hc ltac:(discriminate)) as [Ec El].
      replace (a_total a >? 0) with true by (symmetry; apply Z.gtb_lt; rewrite Ht; cbn [length]; lia).
      rewrite adj_snoc by discriminate. rewrite Ec, El. unfold step.
      destruct (v <? last (x :: pre') 0) eqn:E1; destruct (v >=? last (x :: pre') 0) eqn:E2;
        try reflexivity; [apply Z.ltb_lt in E1; apply Z.geb_le in E2; lia|
                          apply Z.ltb_ge in E1; rewrite Z.geb_leb in E2; apply Z.leb_gt in E2; lia].
Qed.

(* snapshots against ghost windows, with the prefix consumed before each window *)
Fixpoint run_list (pre : list Z) (out : list (Z * fagg)) (gout : list (Z * list (Z * Z))) : Prop :=
  match out, gout with
  | [], [] => True
  | o :: out', g :: gout' =>
      run_ok (snd o) (pre ++ map snd (snd g)) /\ run_list (pre ++ map snd (snd g)) out' gout'
  | _, _ => False
  end.

Lemma run_list_app pre o1 g1 o2 g2 :
  run_list pre o1 g1 -> run_list (pre ++ map snd (concat (map snd g1))) o2 g2 ->
  run_list pre (o1 ++ o2) (g1 ++ g2).
Proof.
  revert pre g1. induction o1 as [|o o1 IH]; intros pre g1 H1 H2; destruct g1 as [|g g1]; cbn in H1; try contradiction.
  - cbn in H2. rewrite app_nil_r in H2. exact H2.
  - destruct H1 as [Ho H1]. cbn [app run_list]. split; [exact Ho|]. apply IH; [exact H1|].
    cbn [map concat] in H2. rewrite map_app, app_assoc in H2. exact H2.
Qed.

Section Loop.
Variable cw : Z -> Z -> Z.

Lemma db_run_lockstep res lastT : forall data nextT a cur pre,
  run_ok a (pre ++ map snd cur) -> (nextT = -1 -> cur = []) ->
  Forall (fun s : Z * Z => 0 <= fst s) data -> 0 <= lastT -> (forall t, 0 <= t -> 0 <= cw t res) ->
  let '(out, (nT, a')) := db_loop cw res lastT data nextT a in
  let '(gout, (gT, cur')) := gh_loop cw res lastT data nextT cur in
  run_list pre out gout /\
  run_ok a' (pre ++ map snd (concat (map snd gout)) ++ map snd cur').
Proof.
  induction data as [|[t v] r IH]; intros nextT a cur pre Hr Hm1 Hnn HL Hcw; cbn [db_loop gh_loop].
  - cbn. split; [exact I|exact Hr].
  - apply Forall_cons_iff in Hnn as [Ht Hnn]. cbn [fst] in Ht.
    destruct (t >? nextT) eqn:E.
    + assert (Hn' : Z.min (cw t res) lastT = -1 -> [(t, v)] = []).
      { intros Habs. pose proof (Hcw t Ht). lia. }
      assert (R : run_ok (a_add (a_reset a) v) ((pre ++ map snd cur) ++ map snd [(t, v)]))
        by (apply run_ok_add; exact Hr).
      specialize (IH (Z.min (cw t res) lastT) (a_add (a_reset a) v) [(t, v)] (pre ++ map snd cur) R Hn' Hnn HL Hcw).
      destruct (db_loop cw res lastT r (Z.min (cw t res) lastT) (a_add (a_reset a) v)) as [out [nT a']].
      destruct (gh_loop cw res lastT r (Z.min (cw t res) lastT) [(t, v)]) as [gout [gT cur']].
      destruct IH as [IH1 IH2]. destruct (nextT =? -1) eqn:En; cbn [app].
      * (* no window was open: cur = [], nothing is emitted *)
        apply Z.eqb_eq in En. rewrite (Hm1 En) in IH1, IH2. cbn [map] in IH1, IH2.
        rewrite app_nil_r in IH1, IH2. split; assumption.
      * cbn [run_list snd map concat]. split; [split; [exact Hr|exact IH1]|].
        rewrite map_app, <- !app_assoc in *. exact IH2.
    + assert (R : run_ok (a_add a v) (pre ++ map snd (cur ++ [(t, v)]))).
      { rewrite map_app, app_assoc. apply run_ok_add. exact Hr. }
      assert (Hn' : nextT = -1 -> cur ++ [(t, v)] = []).
      { intros ->. rewrite Z.gtb_ltb in E. apply Z.ltb_ge in E. lia. }
      exact (IH nextT (a_add a v) (cur ++ [(t, v)]) pre R Hn' Hnn HL Hcw).
Qed.

End Loop.

(* Lemmas about the shared ketama model (Lib/Hashring_Ketama.v): the replica walk
   (its iteration budget, the repaired loop against the original one, invariants),
   the outer loop, the ring sections and zone set, the constructor's outcomes,
   azSpread maps, and the zone-balance invariant of the walk ([bal_inv], over the
   per-zone counts of Lib/Hashring_Answers.v). Used by every other Hashring_* file
   and by Proofs/C18 to C21. *)
From Coq Require Import ZArith List Bool Lia Arith PeanoNat Permutation Sorting.Sorted.
Import ListNotations.
From Verif Require Import Lib.ListFacts Lib.Hashring_Ketama Lib.Hashring_Answers.

Lemma mod_cover n j p : p < n -> exists t, t < n /\ (j + t) mod n = p.
Proof.
  intro Hp. pose proof (Nat.mod_upper_bound j n ltac:(lia)) as Hr.
  destruct (le_lt_dec (j mod n) p) as [L|L].
  - exists (p - j mod n). split; [lia|]. rewrite <- Nat.add_mod_idemp_l by lia.
    replace (j mod n + (p - j mod n)) with p by lia. apply Nat.mod_small, Hp.
  - exists (n - j mod n + p). split; [lia|]. rewrite <- Nat.add_mod_idemp_l by lia.
    replace (j mod n + (n - j mod n + p)) with (p + 1 * n) by lia. rewrite Nat.mod_add by lia. apply Nat.mod_small, Hp.
Qed.

Lemma existsb_nat_In x l : existsb (Nat.eqb x) l = true <-> In x l.
Proof.
  rewrite existsb_exists. split.
  - intros [y [Hy E]]. apply Nat.eqb_eq in E. subst. exact Hy.
  - intro H. exists x. split; [exact H|apply Nat.eqb_refl].
Qed.

Lemma existsb_congr x l l' : (In x l <-> In x l') -> existsb (Nat.eqb x) l = existsb (Nat.eqb x) l'.
Proof. intro H. apply eq_true_iff_eq. rewrite !existsb_nat_In. exact H. Qed.

Lemma existsb_map_inj (f : nat -> nat) x l :
  (forall y, In y l -> f x = f y -> x = y) ->
  existsb (Nat.eqb (f x)) (map f l) = existsb (Nat.eqb x) l.
Proof.
  intro Hinj. apply eq_true_iff_eq. rewrite !existsb_nat_In, in_map_iff. split.
  - intros [y [E Hy]]. rewrite (Hinj y Hy (eq_sym E)). exact Hy.
  - intro H. exists x. split; [reflexivity|exact H].
Qed.

Lemma nodup_nat_spec l : nodup_nat l = true <-> NoDup l.
Proof.
  induction l as [|x l IH]; simpl.
  - split; [constructor|reflexivity].
  - rewrite andb_true_iff, negb_true_iff, IH, <- not_true_iff_false, existsb_nat_In. split.
    + intros [H1 H2]. constructor; assumption.
    + intro H. inversion H; subst. split; assumption.
Qed.

Lemma rejects_false_notin reps sp s : rejects reps sp s = false -> ~ In (s_ep s) reps.
Proof.
  unfold rejects. intros H Hin. apply orb_false_iff in H as [H _].
  apply existsb_nat_In in Hin. congruence.
Qed.

Lemma nth_mod_In ring jn : ring <> [] -> In (nth (jn mod length ring) ring dummy_section) ring.
Proof. intro H. apply nth_In, Nat.mod_upper_bound. destruct ring; [congruence|discriminate]. Qed.

(* the measure: a lap of at most |ring|+1 steps for each replica still missing,
   less the steps of the current lap *)
Lemma walk_fuel_enough ring rf : forall fuel jn since reps sp,
  (rf - length reps) * (length ring + 1) + (length ring + 1 - since) <= fuel ->
  walk true fuel ring rf jn since reps sp <> OutOfFuel.
Proof.
  induction fuel as [|f IH]; intros jn since reps sp Hm; simpl.
  - destruct (rf <=? length reps) eqn:E; [discriminate|]. apply Nat.leb_gt in E.
    pose proof (Nat.mul_le_mono_r 1 (rf - length reps) (length ring + 1) ltac:(lia)). lia.
  - destruct (rf <=? length reps) eqn:E; [discriminate|]. apply Nat.leb_gt in E.
    destruct (length ring <=? since) eqn:E2; simpl; [discriminate|]. apply Nat.leb_gt in E2.
    destruct (rejects reps sp _).
    + apply IH. lia.
    + apply IH. rewrite app_length. simpl.
      pose proof (Nat.mul_le_mono_r 1 (rf - length reps) (length ring + 1) ltac:(lia)).
      replace (rf - (length reps + 1)) with (rf - length reps - 1) by lia.
      rewrite Nat.mul_sub_distr_r. lia.
Qed.

Lemma walk_fuel_suffices ring rf jn sp :
  walk true (walk_fuel ring rf) ring rf jn 0 [] sp <> OutOfFuel.
Proof. apply walk_fuel_enough. unfold walk_fuel. simpl. rewrite Nat.sub_0_r. lia. Qed.

Lemma walk_fuel_mono check ring rf : forall fuel fuel' jn since reps sp,
  fuel <= fuel' ->
  walk check fuel ring rf jn since reps sp <> OutOfFuel ->
  walk check fuel' ring rf jn since reps sp = walk check fuel ring rf jn since reps sp.
Proof.
  induction fuel as [|f IH]; intros fuel' jn since reps sp Hle Hne.
  - simpl in *. destruct fuel'; simpl; destruct (rf <=? length reps); try reflexivity; congruence.
  - destruct fuel' as [|f']; [lia|]. simpl in *.
    destruct (rf <=? length reps); [reflexivity|].
    destruct (check && (length ring <=? since)); [reflexivity|].
    destruct (rejects reps sp _); apply IH; try lia; exact Hne.
Qed.

Lemma walk_all_reject_forever ring rf reps sp :
  ring <> [] -> length reps < rf ->
  (forall s, In s ring -> rejects reps sp s = true) ->
  forall fuel jn since, walk false fuel ring rf jn since reps sp = OutOfFuel.
Proof.
  intros Hne Hlt Hall. apply Nat.leb_gt in Hlt.
  induction fuel as [|f IH]; intros jn since; simpl; rewrite Hlt; [reflexivity|].
  rewrite Hall; [apply IH|apply nth_mod_In, Hne].
Qed.

(* the last [since] positions visited, j0, j0+1, ... (cyclically) up to the one before
   the current position, all reject in the current state *)
Definition lap_inv (ring : list section) (jn since : nat) (reps : list nat) (sp : spread) : Prop :=
  exists j0, jn mod length ring = (j0 + since) mod length ring /\
    forall t, t < since -> rejects reps sp (nth ((j0 + t) mod length ring) ring dummy_section) = true.

Lemma lap_inv_zero ring jn reps sp : lap_inv ring jn 0 reps sp.
Proof. exists jn. split; [rewrite Nat.add_0_r; reflexivity|]. intros t Ht. lia. Qed.

Lemma lap_inv_step ring jn since reps sp :
  ring <> [] ->
  lap_inv ring jn since reps sp ->
  rejects reps sp (nth (jn mod length ring) ring dummy_section) = true ->
  lap_inv ring (S (jn mod length ring)) (S since) reps sp.
Proof.
  intros Hne [j0 [E I]] R.
  assert (Hn : length ring <> 0) by (destruct ring; [congruence|discriminate]).
  exists j0. split.
  - rewrite E, <- (Nat.add_1_r (_ mod _)), Nat.add_mod_idemp_l by exact Hn. f_equal. lia.
  - intros t Ht. destruct (Nat.eq_dec t since) as [->|Hne']; [rewrite <- E; exact R|apply I; lia].
Qed.

Lemma lap_inv_full ring jn since reps sp :
  length ring <= since -> lap_inv ring jn since reps sp ->
  forall s, In s ring -> rejects reps sp s = true.
Proof.
  intros Hle [j0 [_ I]] s Hin.
  destruct (In_nth _ _ dummy_section Hin) as [p [Hp <-]].
  destruct (mod_cover (length ring) j0 p Hp) as [t [Ht <-]]. apply I. lia.
Qed.

Lemma walk_stuck_diverges ring rf : ring <> [] ->
  forall fuel0 jn since reps sp,
  lap_inv ring jn since reps sp ->
  walk true fuel0 ring rf jn since reps sp = Stuck ->
  forall fuel, walk false fuel ring rf jn since reps sp = OutOfFuel.
Proof.
  intros Hne. induction fuel0 as [|f0 IH]; intros jn since reps sp I H fuel; simpl in H.
  - destruct (rf <=? length reps); discriminate.
  - destruct (rf <=? length reps) eqn:E; [discriminate|].
    destruct (length ring <=? since) eqn:E2; simpl in H.
    + apply Nat.leb_le in E2. apply Nat.leb_gt in E. apply walk_all_reject_forever; [exact Hne|exact E|].
      exact (lap_inv_full _ _ _ _ _ E2 I).
    + destruct fuel as [|f]; simpl; rewrite E; [reflexivity|].
      destruct (rejects reps sp _) eqn:R.
      * eapply IH; [|exact H]. apply lap_inv_step; assumption.
      * eapply IH; [|exact H]. apply lap_inv_zero.
Qed.

Lemma walk_done_agree ring rf : forall fuel0 fuel jn since reps sp out,
  walk true fuel0 ring rf jn since reps sp = Done out ->
  walk false fuel ring rf jn since reps sp = Done out \/
  walk false fuel ring rf jn since reps sp = OutOfFuel.
Proof.
  induction fuel0 as [|f0 IH]; intros fuel jn since reps sp out H; simpl in H.
  - destruct (rf <=? length reps) eqn:E; [|discriminate]. left. destruct fuel; simpl; rewrite E; exact H.
  - destruct (rf <=? length reps) eqn:E.
    + left. destruct fuel; simpl; rewrite E; exact H.
    + destruct (length ring <=? since) eqn:E2; simpl in H; [discriminate|].
      destruct fuel as [|f]; simpl; rewrite E; [now right|].
      destruct (rejects reps sp _); eapply IH; exact H.
Qed.

Section WalkInv.
  Variable ring : list section.
  Variable rf : nat.
  Variable P : list nat -> spread -> Prop.
  Hypothesis P_step : forall reps sp s,
    P reps sp -> length reps < rf -> In s ring -> rejects reps sp s = false ->
    P (reps ++ [s_ep s]) (sincr sp (s_az s)).

  Lemma walk_done_inv check : forall fuel jn since reps sp out,
    ring <> [] \/ check = true ->
    P reps sp ->
    walk check fuel ring rf jn since reps sp = Done out ->
    rf <= length out /\ exists sp', P out sp'.
  Proof.
    induction fuel as [|f IH]; intros jn since reps sp out Hne HP H; simpl in H.
    - destruct (rf <=? length reps) eqn:E; [|discriminate]. apply Nat.leb_le in E. inversion H; subst. eauto.
    - destruct (rf <=? length reps) eqn:E; [apply Nat.leb_le in E; inversion H; subst; eauto|].
      apply Nat.leb_gt in E.
      destruct (check && (length ring <=? since)) eqn:C; [discriminate|].
      assert (Hring : ring <> []).
      { destruct Hne as [Hn| ->]; [exact Hn|]. intros ->. simpl in C. discriminate. }
      pose proof (nth_mod_In ring jn Hring) as Hin.
      destruct (rejects reps sp _) eqn:R.
      + eapply IH; eauto.
      + eapply IH; [exact Hne| |exact H]. apply P_step; assumption.
  Qed.

  Hypothesis P_progress : forall reps sp,
    P reps sp -> length reps < rf -> exists s, In s ring /\ rejects reps sp s = false.

  Lemma walk_not_stuck : forall fuel jn since reps sp,
    lap_inv ring jn since reps sp -> P reps sp ->
    walk true fuel ring rf jn since reps sp <> Stuck.
  Proof.
    induction fuel as [|f IH]; intros jn since reps sp I HP; simpl.
    - destruct (rf <=? length reps); discriminate.
    - destruct (rf <=? length reps) eqn:E; [discriminate|]. apply Nat.leb_gt in E.
      destruct (P_progress _ _ HP E) as [s0 [Hin0 R0]].
      assert (Hne : ring <> []) by (intros ->; contradiction).
      destruct (length ring <=? since) eqn:E2; simpl.
      + apply Nat.leb_le in E2. rewrite (lap_inv_full ring jn since reps sp E2 I s0 Hin0) in R0. discriminate.
      + pose proof (nth_mod_In ring jn Hne) as Hin.
        destruct (rejects reps sp (nth (jn mod length ring) ring dummy_section)) eqn:R.
        * apply IH; [apply lap_inv_step; assumption|exact HP].
        * apply IH; [apply lap_inv_zero|]. apply P_step; assumption.
  Qed.
End WalkInv.

Lemma walk_done_wf check ring rf fuel jn since out sp :
  ring <> [] \/ check = true ->
  walk check fuel ring rf jn since [] sp = Done out ->
  length out = rf /\ NoDup out /\ incl out (map s_ep ring).
Proof.
  intros Hne H.
  apply (walk_done_inv ring rf (fun reps _ => length reps <= rf /\ NoDup reps /\ incl reps (map s_ep ring))) in H
    as [Hge [_ [Hle HP]]].
  - split; [lia|exact HP].
  - intros reps sp0 s [Hle [Hnd Hall]] Hlt Hin R. split; [rewrite app_length; simpl; lia|]. split.
    + apply NoDup_snoc; [exact Hnd|]. apply (rejects_false_notin _ _ _ R).
    + apply incl_app; [exact Hall|]. intros e [<-|[]]. apply in_map, Hin.
  - exact Hne.
  - split; [simpl; lia|]. split; [constructor|intros e []].
Qed.

Lemma calc_from_COk check fuel ring rf azs : forall is out,
  calc_from check fuel ring rf azs is = COk out ->
  length out = length is /\
  forall k, k < length is ->
    walk check fuel ring rf (nth k is 0) 0 [] (spread_init azs) = Done (nth k out []).
Proof.
  induction is as [|i r IH]; intros out H; simpl in H.
  - inversion H; subst. split; [reflexivity|]. simpl. lia.
  - destruct (walk check fuel ring rf i 0 [] (spread_init azs)) eqn:W; try discriminate.
    destruct (calc_from check fuel ring rf azs r) eqn:C; try discriminate.
    inversion H; subst. destruct (IH _ eq_refl) as [L N]. split; [simpl; lia|].
    intros [|k] Hk; [exact W|]. apply N. simpl in Hk. lia.
Qed.

Lemma calc_from_In check fuel ring rf azs is out r :
  calc_from check fuel ring rf azs is = COk out -> In r out ->
  exists i, walk check fuel ring rf i 0 [] (spread_init azs) = Done r.
Proof.
  intros H Hin. destruct (calc_from_COk _ _ _ _ _ _ _ H) as [L N].
  destruct (In_nth _ _ [] Hin) as [k [Hk <-]]. rewrite L in Hk. eauto.
Qed.

Lemma calc_from_ok check ring rf azs fuel is out :
  ring <> [] \/ check = true ->
  calc_from check fuel ring rf azs is = COk out ->
  length out = length is /\
  Forall (fun reps => length reps = rf /\ NoDup reps /\ incl reps (map s_ep ring)) out.
Proof.
  intros Hne H. split; [apply (calc_from_COk _ _ _ _ _ _ _ H)|].
  apply Forall_forall. intros r Hin. destruct (calc_from_In _ _ _ _ _ _ _ _ H Hin) as [i W].
  exact (walk_done_wf _ _ _ _ _ _ _ _ Hne W).
Qed.

Lemma calc_err_stuck ring rf azs fuel : forall is,
  calc_from true fuel ring rf azs is = CErr ->
  exists i, In i is /\ walk true fuel ring rf i 0 [] (spread_init azs) = Stuck.
Proof.
  induction is as [|i r IH]; simpl; intro H; [discriminate|].
  destruct (walk true fuel ring rf i 0 [] (spread_init azs)) eqn:W.
  - destruct (calc_from true fuel ring rf azs r) eqn:C; try discriminate.
    destruct (IH eq_refl) as [i' [Hin W']]. exists i'. split; [now right|exact W'].
  - exists i. split; [now left|exact W].
  - discriminate.
Qed.

Lemma calc_err_diverges ring rf azs : ring <> [] ->
  forall is fuel0, calc_from true fuel0 ring rf azs is = CErr ->
  forall fuel, calc_from false fuel ring rf azs is = CFuel.
Proof.
  intros Hne. induction is as [|i r IH]; intros fuel0 H fuel; simpl in H; [discriminate|].
  simpl. destruct (walk true fuel0 ring rf i 0 [] (spread_init azs)) eqn:W.
  - destruct (calc_from true fuel0 ring rf azs r) eqn:C; try discriminate.
    destruct (walk_done_agree _ _ _ fuel _ _ _ _ _ W) as [-> | ->]; [|reflexivity].
    rewrite (IH fuel0 C fuel). reflexivity.
  - rewrite (walk_stuck_diverges ring rf Hne _ _ _ _ _ (lap_inv_zero _ _ _ _) W fuel). reflexivity.
  - discriminate.
Qed.

Lemma calc_from_total ring rf azs fuel : walk_fuel ring rf <= fuel ->
  forall is, calc_from true fuel ring rf azs is <> CFuel.
Proof.
  intros Hf. induction is as [|i r IH]; simpl; [discriminate|].
  destruct (walk true fuel ring rf i 0 [] (spread_init azs)) eqn:W.
  - destruct (calc_from true fuel ring rf azs r); congruence.
  - discriminate.
  - exfalso. rewrite (walk_fuel_mono true ring rf (walk_fuel ring rf) fuel) in W; [|exact Hf|apply walk_fuel_suffices].
    eapply walk_fuel_suffices; eauto.
Qed.

Lemma sort_sections_perm l : Permutation l (sort_sections l).
Proof. apply SecSort.Permuted_sort. Qed.

Lemma sort_sections_length l : length (sort_sections l) = length l.
Proof. symmetry. apply Permutation_length, sort_sections_perm. Qed.

Lemma sort_sections_In l s : In s (sort_sections l) <-> In s l.
Proof.
  split; apply Permutation_in; [apply Permutation_sym|]; apply sort_sections_perm.
Qed.

Lemma sort_sections_nonempty l : l <> [] -> sort_sections l <> [].
Proof. intros H E. apply H, length_zero_iff_nil. rewrite <- sort_sections_length, E. reflexivity. Qed.

Lemma sorted_hash_of_Sorted l :
  Sorted (fun x y => is_true (s_hash x <=? s_hash y)%Z) l -> sorted_hash l = true.
Proof.
  induction 1 as [|a l Hs IH Hd]; [reflexivity|].
  destruct Hd as [|b r Hab]; [reflexivity|].
  change ((s_hash a <=? s_hash b)%Z && sorted_hash (b :: r) = true). rewrite Hab. exact IH.
Qed.

Lemma sort_sections_sorted l : sorted_hash (sort_sections l) = true.
Proof. apply sorted_hash_of_Sorted, SecSort.Sorted_sort. Qed.

Lemma sections_of_In eps : forall idx s,
  In s (sections_of idx eps) ->
  idx <= s_ep s < idx + length eps /\
  exists hs, nth_error eps (s_ep s - idx) = Some (s_az s, hs) /\ In (s_hash s) hs.
Proof.
  induction eps as [|[az hs] r IH]; intros idx s H; simpl in H; [contradiction|].
  apply in_app_or in H as [H|H].
  - apply in_map_iff in H as [h [<- Hh]]. simpl. split; [lia|].
    exists hs. rewrite Nat.sub_diag. simpl. auto.
  - destruct (IH _ _ H) as [B [hs' [E Hh]]]. simpl. split; [lia|].
    exists hs'. replace (s_ep s - idx) with (S (s_ep s - S idx)) by lia. simpl. auto.
Qed.

Lemma sections_of_length eps : forall idx,
  length (sections_of idx eps) = fold_right (fun e n => length (snd e) + n) 0 eps.
Proof.
  induction eps as [|[az hs] r IH]; intro idx; simpl; [reflexivity|].
  rewrite app_length, map_length, IH. reflexivity.
Qed.

Lemma sections_of_has eps : forall idx k az hs,
  nth_error eps k = Some (az, hs) -> hs <> [] ->
  exists s, In s (sections_of idx eps) /\ s_ep s = idx + k /\ s_az s = az.
Proof.
  induction eps as [|[az0 hs0] r IH]; intros idx k az hs E Hne; [destruct k; discriminate|].
  destruct k as [|k]; simpl in E.
  - inversion E; subst. destruct hs as [|h hs]; [congruence|].
    exists (mkS h idx az). split; [simpl; now left|]. simpl. split; [lia|reflexivity].
  - destruct (IH (S idx) k az hs E Hne) as [s [Hin [He Ha]]].
    exists s. split; [simpl; apply in_or_app; now right|]. split; [lia|exact Ha].
Qed.

Lemma ring_ep_lt eps s : In s (sort_sections (sections_of 0 eps)) -> s_ep s < length eps.
Proof. intro H. apply sort_sections_In, sections_of_In in H. lia. Qed.

Lemma ring_has_endpoint eps k :
  Forall (fun e => snd e <> []) eps -> k < length eps ->
  exists s, In s (sort_sections (sections_of 0 eps)) /\ s_ep s = k.
Proof.
  intros Hsec Hk. destruct (nth_error eps k) as [[az hs]|] eqn:N; [|apply nth_error_None in N; lia].
  destruct (sections_of_has eps 0 k az hs N) as [s [Hin [He _]]].
  - apply (proj1 (Forall_forall _ _) Hsec (az, hs)), (nth_error_In _ _ N).
  - exists s. split; [apply sort_sections_In, Hin|exact He].
Qed.

Lemma existsb_Z_In x l : existsb (Z.eqb x) l = true <-> In x l.
Proof.
  rewrite existsb_exists. split.
  - intros [y [Hy E]]. apply Z.eqb_eq in E. subst. exact Hy.
  - intro H. exists x. split; [exact H|apply Z.eqb_refl].
Qed.

Lemma az_set_spec eps : forall seen a,
  In a (az_set seen eps) <-> In a seen \/ exists hs, In (a, hs) eps.
Proof.
  induction eps as [|[az hs] r IH]; intros seen a; simpl.
  - rewrite <- in_rev. split; [now left|]. intros [H|[hs []]]. exact H.
  - destruct (existsb (Z.eqb az) seen) eqn:E; rewrite IH; simpl.
    + apply existsb_Z_In in E. split.
      * intros [H|[hs' H]]; eauto.
      * intros [H|[hs' [H|H]]]; eauto. inversion H; subst. now left.
    + split.
      * intros [[H|H]|[hs' H]]; subst; eauto.
      * intros [H|[hs' [H|H]]]; eauto. inversion H; subst. left. now left.
Qed.

Lemma az_set_NoDup eps : forall seen, NoDup seen -> NoDup (az_set seen eps).
Proof.
  induction eps as [|[az hs] r IH]; intros seen Hnd; simpl.
  - apply NoDup_rev. exact Hnd.
  - destruct (existsb (Z.eqb az) seen) eqn:E; apply IH; [exact Hnd|].
    constructor; [|exact Hnd]. rewrite <- existsb_Z_In, E. discriminate.
Qed.

Lemma ring_az_In eps s : In s (sort_sections (sections_of 0 eps)) -> In (s_az s) (az_set [] eps).
Proof.
  intro H. apply sort_sections_In, sections_of_In in H as [_ [hs [Hn _]]].
  apply az_set_spec. right. exists hs. exact (nth_error_In _ _ Hn).
Qed.

Lemma ketama_new_fuel_KOk check fuel eps rf ring reps :
  ketama_new_fuel check fuel eps rf = KOk ring reps ->
  rf <= length eps /\ ring = sort_sections (sections_of 0 eps) /\
  calc_from check fuel ring rf (az_set [] eps) (seq 0 (length ring)) = COk reps.
Proof.
  unfold ketama_new_fuel, calc_replicas. destruct (length eps <? rf) eqn:E; [discriminate|]. apply Nat.ltb_ge in E.
  destruct (calc_from _ _ _ _ _ _) eqn:C; try discriminate.
  intro H. inversion H; subst. auto.
Qed.

Lemma ketama_new_fuel_enough check fuel eps rf : rf <= length eps ->
  ketama_new_fuel check fuel eps rf =
  let ring := sort_sections (sections_of 0 eps) in
  match calc_from check fuel ring rf (az_set [] eps) (seq 0 (length ring)) with
  | COk reps => KOk ring reps
  | CErr => KErr
  | CFuel => KFuel
  end.
Proof. intro H. apply Nat.ltb_ge in H. unfold ketama_new_fuel. rewrite H. reflexivity. Qed.

Lemma sget_sincr sp z z' : In z (map fst sp) ->
  sget (sincr sp z) z' = if (z =? z')%Z then (sget sp z' + 1)%Z else sget sp z'.
Proof.
  induction sp as [|[a c] r IH]; simpl; intro Hin; [contradiction|].
  destruct (a =? z)%Z eqn:E.
  - apply Z.eqb_eq in E. subst a. simpl. destruct (z =? z')%Z; reflexivity.
  - simpl. destruct Hin as [Hin|Hin]; [apply Z.eqb_neq in E; congruence|].
    destruct (a =? z')%Z eqn:E'.
    + apply Z.eqb_eq in E'. subst a. rewrite (Z.eqb_sym z z'), E. reflexivity.
    + apply IH. exact Hin.
Qed.

Lemma sincr_keys sp z : In z (map fst sp) -> map fst (sincr sp z) = map fst sp.
Proof.
  induction sp as [|[a c] r IH]; simpl; intro Hin; [contradiction|].
  destruct (a =? z)%Z eqn:E; simpl; [reflexivity|]. f_equal. apply IH.
  destruct Hin as [Hin|Hin]; [apply Z.eqb_neq in E; congruence|exact Hin].
Qed.

Lemma smin_le sp z : In z (map fst sp) -> (smin sp <= sget sp z)%Z.
Proof.
  unfold smin. induction sp as [|[a c] r IH]; simpl; intro Hin; [contradiction|].
  destruct (a =? z)%Z eqn:E; [lia|].
  destruct Hin as [Hin|Hin]; [apply Z.eqb_neq in E; congruence|]. specialize (IH Hin). lia.
Qed.

Lemma sget_init azs z : sget (spread_init azs) z = 0%Z.
Proof. induction azs as [|a r IH]; simpl; [reflexivity|]. destruct (a =? z)%Z; [reflexivity|exact IH]. Qed.

Lemma spread_init_keys azs : map fst (spread_init azs) = azs.
Proof. unfold spread_init. rewrite map_map. simpl. apply map_id. Qed.

Lemma zone_count_snoc eps reps e az :
  zone_count eps (reps ++ [e]) az = zone_count eps reps az + (if (az_of eps e =? az)%Z then 1 else 0).
Proof.
  unfold zone_count. rewrite filter_app, app_length. simpl.
  destruct (az_of eps e =? az)%Z; reflexivity.
Qed.

Lemma ring_consistent eps s :
  In s (sort_sections (sections_of 0 eps)) ->
  s_az s = az_of eps (s_ep s) /\ In (s_az s) (az_set [] eps).
Proof.
  intro Hs. split; [|exact (ring_az_In _ _ Hs)].
  apply sort_sections_In, sections_of_In in Hs as [_ [hs [Hn _]]]. rewrite Nat.sub_0_r in Hn.
  unfold az_of. rewrite (nth_error_nth _ _ _ Hn). reflexivity.
Qed.

(* the invariant of the walk over the ring of [eps]: azSpread has the configured zones
   as keys and counts the replicas per zone, and the counts differ by at most one *)
Definition bal_inv (eps : list (Z * list Z)) (reps : list nat) (sp : spread) : Prop :=
  map fst sp = az_set [] eps /\
  (forall az, sget sp az = Z.of_nat (zone_count eps reps az)) /\
  (forall a b, In a (az_set [] eps) -> In b (az_set [] eps) -> (sget sp a <= sget sp b + 1)%Z).

Lemma bal_inv_init eps : bal_inv eps [] (spread_init (az_set [] eps)).
Proof.
  split; [apply spread_init_keys|]. split.
  - intro az. rewrite sget_init. reflexivity.
  - intros a b _ _. rewrite !sget_init. lia.
Qed.

Lemma bal_inv_step eps reps sp s :
  bal_inv eps reps sp -> In s (sort_sections (sections_of 0 eps)) -> rejects reps sp s = false ->
  bal_inv eps (reps ++ [s_ep s]) (sincr sp (s_az s)).
Proof.
  intros [K [Hc Hb]] Hin R. destruct (ring_consistent eps s Hin) as [Haz Hz].
  set (azs := az_set [] eps) in *.
  assert (Hk : In (s_az s) (map fst sp)) by (rewrite K; exact Hz).
  split; [rewrite sincr_keys; assumption|]. split.
  - intro az. rewrite sget_sincr by exact Hk. rewrite zone_count_snoc, <- Haz, Hc.
    destruct (s_az s =? az)%Z; lia.
  - intros a b Ha Hb'. rewrite !sget_sincr by exact Hk.
    unfold rejects in R. apply orb_false_iff in R as [_ R].
    (* an accepted section lies in a least occupied zone *)
    assert (Hmin : forall b, In b azs -> (sget sp (s_az s) <= sget sp b)%Z).
    { intros b0 Hb0.
      destruct (1 <? length sp) eqn:E1.
      - simpl in R.
        assert (Hnn : (0 <= sget sp b0)%Z) by (rewrite Hc; lia).
        destruct (0 <? sget sp (s_az s))%Z eqn:E2.
        + simpl in R. apply Z.ltb_ge in R.
          pose proof (smin_le sp b0 ltac:(rewrite K; exact Hb0)). lia.
        + apply Z.ltb_ge in E2. lia.
      - (* a single zone *)
        apply Nat.ltb_ge in E1. rewrite <- K in Hb0, Hz. rewrite <- (map_length fst) in E1.
        destruct (map fst sp) as [|k [|k' r]]; simpl in *; try contradiction; try lia.
        destruct Hb0 as [<-|[]]. destruct Hz as [<-|[]]. lia. }
    pose proof (Hmin a Ha). pose proof (Hmin b Hb'). pose proof (Hb a (s_az s) Ha Hz). pose proof (Hb (s_az s) b Hz Hb').
    destruct (s_az s =? a)%Z eqn:Ea; destruct (s_az s =? b)%Z eqn:Eb;
      try (apply Z.eqb_eq in Ea; subst a); try (apply Z.eqb_eq in Eb; subst b); lia.
Qed.

Lemma ketama_new_balanced eps rf ring reps a :
  ketama_new eps rf = KOk ring reps -> In a reps ->
  forall z1 z2, In z1 (az_set [] eps) -> In z2 (az_set [] eps) ->
    zone_count eps a z1 <= zone_count eps a z2 + 1.
Proof.
  intros K Hin z1 z2 H1 H2.
  apply ketama_new_fuel_KOk in K as [_ [-> C]].
  destruct (calc_from_In _ _ _ _ _ _ _ _ C Hin) as [i W].
  apply (walk_done_inv _ rf (bal_inv eps)) in W as [_ [sp' [_ [Hc Hb]]]].
  - specialize (Hb z1 z2 H1 H2). rewrite !Hc in Hb. lia.
  - intros reps0 sp0 s HP _. apply bal_inv_step, HP.
  - now right.
  - apply bal_inv_init.
Qed.

(* Shared executable model of the ketama hashring of pkg/receive/hashring.go
   (group "hashring": properties C18, C19, C20, C21). Definitions only; the
   lemmas are in Lib/Hashring_KetamaFacts.v.

   Hash values (xxhash of "<address>:<i>", xxhash of tenant+labels) are NOT
   computed here: every definition takes them as data. *)
From Coq Require Import ZArith List Bool Lia Arith PeanoNat Sorting.Mergesort Orders.
Import ListNotations.

(* type section struct { az string; endpointIndex uint64; hash uint64; replicas []uint64 }
   az strings are represented by integer ids (only equality is used). *)
Record section := mkS { s_hash : Z; s_ep : nat; s_az : Z }.

Definition dummy_section : section := mkS 0 0 0.

(* sort.Sort(ringSections) with Less = hash <. The Go sort is not stable; for
   collision-free hashes the sorted list is unique (Lib/Hashring_RingFacts.v, sorted_unique). *)
Module SecOrder <: TotalLeBool.
  Definition t := section.
  Definition leb (a b : section) : bool := (s_hash a <=? s_hash b)%Z.
  Theorem leb_total : forall a b, leb a b = true \/ leb b a = true.
  Proof. intros a b. unfold leb. destruct (Z.leb_spec (s_hash a) (s_hash b)); [now left|right]. apply Z.leb_le. lia. Qed.
End SecOrder.
Module SecSort := Sort SecOrder.

Definition sort_sections (l : list section) : list section := SecSort.sort l.

(* the double loop of newKetamaHashring: endpoint [idx] with zone [az] gets one
   section per supplied hash (the harness supplies xxhash(addr ":" i), i = 1..sectionsPerNode) *)
Fixpoint sections_of (idx : nat) (eps : list (Z * list Z)) : list section :=
  match eps with
  | [] => []
  | (az, hs) :: r => map (fun h => mkS h idx az) hs ++ sections_of (S idx) r
  end.

(* availabilityZones: the set of zones of the endpoints (first occurrences, in order) *)
Fixpoint az_set (seen : list Z) (eps : list (Z * list Z)) : list Z :=
  match eps with
  | [] => rev seen
  | (az, _) :: r => if existsb (Z.eqb az) seen then az_set seen r else az_set (az :: seen) r
  end.

(* azSpread map[string]int64 *)
Definition spread := list (Z * Z).

Fixpoint sget (sp : spread) (az : Z) : Z :=
  match sp with
  | [] => 0%Z
  | (a, c) :: r => if (a =? az)%Z then c else sget r az
  end.

Fixpoint sincr (sp : spread) (az : Z) : spread :=
  match sp with
  | [] => [(az, 1%Z)]
  | (a, c) :: r => if (a =? az)%Z then (a, (c + 1)%Z) :: r else (a, c) :: sincr r az
  end.

Definition MaxInt64 : Z := 9223372036854775807%Z.

(* sizeOfLeastOccupiedAZ *)
Definition smin (sp : spread) : Z := fold_right (fun p m => Z.min (snd p) m) MaxInt64 sp.

Definition spread_init (azs : list Z) : spread := map (fun a => (a, 0%Z)) azs.

(* the two `continue` tests of the inner loop of calculateSectionReplicas *)
Definition rejects (reps : list nat) (sp : spread) (rep : section) : bool :=
  existsb (Nat.eqb (s_ep rep)) reps
  || ((1 <? length sp) && (0 <? sget sp (s_az rep))%Z && (smin sp <? sget sp (s_az rep))%Z).

Inductive outcome :=
| Done (reps : list nat)
| Stuck          (* the repaired code returns an error: a full lap without a new replica *)
| OutOfFuel.     (* the model's iteration budget ran out *)

(* inner loop `for uint64(len(replicas)) < replicationFactor { ... }`.
   [jn] is Go's j+1 (so that it is a natural number: j starts at i-1),
   [since] is the `visited` counter of the repaired code; [check = false] is the
   loop as it was before the repair (no lap detection). *)
Fixpoint walk (check : bool) (fuel : nat) (ring : list section) (rf : nat)
         (jn since : nat) (reps : list nat) (sp : spread) : outcome :=
  if rf <=? length reps then Done reps else
  match fuel with
  | O => OutOfFuel
  | S f =>
    if check && (length ring <=? since) then Stuck else
    let j := jn mod length ring in
    let rep := nth j ring dummy_section in
    if rejects reps sp rep
    then walk check f ring rf (S j) (S since) reps sp
    else walk check f ring rf (S j) 0 (reps ++ [s_ep rep]) (sincr sp (s_az rep))
  end.

(* iterations that always suffice for the repaired loop (lemma walk_fuel_suffices) *)
Definition walk_fuel (ring : list section) (rf : nat) : nat :=
  (rf + 1) * (length ring + 1) + 1.

Inductive calc_result :=
| COk (replicas : list (list nat))   (* replicas of section 0, 1, ... *)
| CErr
| CFuel.

(* outer loop `for i, s := range ringSections`, returning at the first error *)
Fixpoint calc_from (check : bool) (fuel : nat) (ring : list section) (rf : nat) (azs : list Z)
         (is : list nat) : calc_result :=
  match is with
  | [] => COk []
  | i :: r =>
    match walk check fuel ring rf i 0 [] (spread_init azs) with
    | Done reps =>
      match calc_from check fuel ring rf azs r with
      | COk l => COk (reps :: l)
      | e => e
      end
    | Stuck => CErr
    | OutOfFuel => CFuel
    end
  end.

Definition calc_replicas (check : bool) (fuel : nat) (ring : list section) (rf : nat) (azs : list Z) : calc_result :=
  calc_from check fuel ring rf azs (seq 0 (length ring)).

Inductive ketama_result :=
| KOk (ring : list section) (replicas : list (list nat))
| KErr
| KFuel.

(* newKetamaHashring; [eps] = per endpoint (zone id, hashes of its sections) *)
Definition ketama_new_fuel (check : bool) (fuel : nat) (eps : list (Z * list Z)) (rf : nat) : ketama_result :=
  if length eps <? rf then KErr else
  let ring := sort_sections (sections_of 0 eps) in
  match calc_replicas check fuel ring rf (az_set [] eps) with
  | COk reps => KOk ring reps
  | CErr => KErr
  | CFuel => KFuel
  end.

Definition ketama_new (eps : list (Z * list Z)) (rf : nat) : ketama_result :=
  ketama_new_fuel true (walk_fuel (sections_of 0 eps) rf) eps rf.

(* ---- lookups ---- *)

(* sort.Search(len, func(i) sections[i].hash >= v), then wrap to 0 *)
Fixpoint search_ge (ring : list section) (v : Z) : nat :=
  match ring with
  | [] => 0
  | s :: r => if (v <=? s_hash s)%Z then 0 else S (search_ge r v)
  end.

Definition ring_index (ring : list section) (v : Z) : nat :=
  let i := search_ge ring v in if i =? length ring then 0 else i.

(* ketamaHashring.GetN: endpoint index of the n-th replica, None = insufficientNodesError *)
Definition ketama_getn (numEndpoints : nat) (ring : list section) (replicas : list (list nat)) (v : Z) (n : nat) : option nat :=
  if numEndpoints <=? n then None
  else Some (nth n (nth (ring_index ring v) replicas []) 0).

(* deciders used by pred_ok definitions *)
Fixpoint nodup_nat (l : list nat) : bool :=
  match l with
  | [] => true
  | x :: r => negb (existsb (Nat.eqb x) r) && nodup_nat r
  end.

Fixpoint sorted_hash (l : list section) : bool :=
  match l with
  | a :: ((b :: _) as r) => (s_hash a <=? s_hash b)%Z && sorted_hash r
  | _ => true
  end.

Definition section_eqb (a b : section) : bool :=
  (s_hash a =? s_hash b)%Z && (s_ep a =? s_ep b) && (s_az a =? s_az b)%Z.

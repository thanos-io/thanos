(* Lemmas about ketama lookups (Lib/Hashring_Answers.v): a returned ring holds well-formed
   replica lists; the answers of a lookup are one of them, hence distinct valid nodes,
   balanced over the zones. Used by Lib/Hashring_Order.v and Proofs/C18, C19, C20, C21. *)
From Coq Require Import ZArith NArith List Bool Lia Arith Permutation Sorting.Sorted.
Import ListNotations.
From Verif Require Import Lib.ListFacts Lib.Hashring_Ketama Lib.Hashring_KetamaFacts Lib.Hashring_Answers.

Lemma search_ge_le ring v : search_ge ring v <= length ring.
Proof. induction ring as [|s r IH]; simpl; [lia|]. destruct (v <=? s_hash s)%Z; lia. Qed.

Lemma ring_index_lt ring v : ring <> [] -> ring_index ring v < length ring.
Proof.
  intro Hne. unfold ring_index. pose proof (search_ge_le ring v).
  destruct (search_ge ring v =? length ring) eqn:E.
  - destruct ring; [congruence|simpl; lia].
  - apply Nat.eqb_neq in E. lia.
Qed.

Definition replicas_wf (n rf : nat) (reps : list nat) : Prop :=
  length reps = rf /\ NoDup reps /\ forall e, In e reps -> e < n.

Lemma replicas_wf_bool n rf reps : replicas_wf n rf reps ->
  (length reps =? rf) && nodup_nat reps && forallb (fun e => e <? n) reps = true.
Proof.
  intros [H1 [H2 H3]]. rewrite (proj2 (Nat.eqb_eq _ _) H1), (proj2 (nodup_nat_spec _) H2). simpl.
  apply forallb_forall. intros e He. apply Nat.ltb_lt. auto.
Qed.

Lemma ketama_new_fuel_ok check fuel eps rf ring reps :
  ketama_new_fuel check fuel eps rf = KOk ring reps ->
  ring = sort_sections (sections_of 0 eps) /\ rf <= length eps /\
  length reps = length ring /\ Forall (replicas_wf (length eps) rf) reps.
Proof.
  intro H. apply ketama_new_fuel_KOk in H as [Hrf [Hr C]].
  split; [exact Hr|]. split; [exact Hrf|].
  destruct ring as [|s0 r0].
  - inversion C. split; [reflexivity|constructor].
  - assert (Hne : s0 :: r0 <> []) by discriminate.
    destruct (calc_from_ok _ _ _ _ _ _ _ (or_introl Hne) C) as [L F].
    rewrite seq_length in L. split; [exact L|].
    eapply Forall_impl; [|exact F]. intros a [H1 [H2 H3]]. split; [exact H1|]. split; [exact H2|].
    intros e He. apply H3, in_map_iff in He as [s [<- Hs]]. rewrite Hr in Hs. exact (ring_ep_lt _ _ Hs).
Qed.

Lemma ketama_answers_KOk eps rf v ring reps :
  sections_of 0 eps <> [] -> ketama_new eps rf = KOk ring reps ->
  ketama_answers eps rf v = Some (nth (ring_index ring v) reps []) /\
  In (nth (ring_index ring v) reps []) reps.
Proof.
  intros Hne K. unfold ketama_answers. rewrite K.
  destruct (ketama_new_fuel_ok _ _ _ _ _ _ K) as [Hr [Hrf [L F]]].
  assert (Hi : ring_index ring v < length ring).
  { apply ring_index_lt. rewrite Hr. apply sort_sections_nonempty, Hne. }
  set (r := nth (ring_index ring v) reps []).
  assert (Hin : In r reps) by (apply nth_In; lia).
  split; [f_equal|exact Hin].
  assert (Hlen : length r = rf) by (apply (proj1 (Forall_forall _ _) F r Hin)).
  rewrite <- Hlen at 1. rewrite <- (map_nth_seq 0 r) at 2. apply map_ext_in.
  intros n Hn. apply in_seq in Hn. unfold ketama_getn.
  destruct (length eps <=? n) eqn:E; [apply Nat.leb_le in E; lia|]. reflexivity.
Qed.

Lemma ketama_answers_Some eps rf v a :
  sections_of 0 eps <> [] -> ketama_answers eps rf v = Some a ->
  exists ring reps, ketama_new eps rf = KOk ring reps /\ In a reps.
Proof.
  intros Hne H. destruct (ketama_new eps rf) as [ring reps| |] eqn:K.
  - destruct (ketama_answers_KOk eps rf v ring reps Hne K) as [E Hin].
    rewrite E in H. inversion H; subst a. eauto.
  - unfold ketama_answers in H. rewrite K in H. discriminate.
  - unfold ketama_answers in H. rewrite K in H. discriminate.
Qed.

Lemma ketama_answers_distinct eps rf v a :
  sections_of 0 eps <> [] ->
  ketama_answers eps rf v = Some a ->
  length a = rf /\ NoDup a /\ forall e, In e a -> e < length eps.
Proof.
  intros Hne H. destruct (ketama_answers_Some _ _ _ _ Hne H) as [ring [reps [K Hin]]].
  destruct (ketama_new_fuel_ok _ _ _ _ _ _ K) as [_ [_ [_ F]]].
  exact (proj1 (Forall_forall _ _) F a Hin).
Qed.

Lemma ketama_answers_balanced eps rf v a :
  sections_of 0 eps <> [] ->
  ketama_answers eps rf v = Some a ->
  forall z1 z2, In z1 (az_set [] eps) -> In z2 (az_set [] eps) ->
    zone_count eps a z1 <= zone_count eps a z2 + 1.
Proof.
  intros Hne H. destruct (ketama_answers_Some _ _ _ _ Hne H) as [ring [reps [K Hin]]].
  exact (ketama_new_balanced eps rf ring reps a K Hin).
Qed.

Lemma balanced_true eps a :
  (forall z1 z2, In z1 (az_set [] eps) -> In z2 (az_set [] eps) -> zone_count eps a z1 <= zone_count eps a z2 + 1) ->
  balanced eps a = true.
Proof.
  intro H. unfold balanced. apply forallb_forall. intros x Hx. apply forallb_forall. intros y Hy.
  apply Nat.leb_le. auto.
Qed.

(* Shared helpers for the correspondence check (tie C): the harness writes a
   list of (index, case) pairs observed on the real implementation; a property's
   Model file supplies [corr_ok] (model output = implementation observable) and
   [pred_ok] (the property's boolean predicate on the implementation's own
   observable). [find_bad] returns the indices where a check fails. *)
From Coq Require Import NArith List Bool.
Import ListNotations.

Definition find_bad {A : Type} (f : A -> bool) (l : list (N * A)) : list N :=
  map fst (filter (fun p => negb (f (snd p))) l).

Lemma find_bad_nil_all {A} (f : A -> bool) l :
  find_bad f l = [] -> forall i c, In (i, c) l -> f c = true.
Proof.
  unfold find_bad. induction l as [|[j d] l IH]; simpl; intros H i c Hin; [contradiction|].
  destruct (f d) eqn:E; simpl in H.
  - destruct Hin as [Heq|Hin]; [inversion Heq; subst; exact E | eapply IH; eauto].
  - discriminate.
Qed.

(* list equality deciders used by corr_ok definitions *)
Fixpoint list_eqb {A} (eqb : A -> A -> bool) (l1 l2 : list A) : bool :=
  match l1, l2 with
  | [], [] => true
  | x :: l1', y :: l2' => eqb x y && list_eqb eqb l1' l2'
  | _, _ => false
  end.

Lemma list_eqb_spec {A} (eqb : A -> A -> bool) :
  (forall x y, eqb x y = true <-> x = y) ->
  forall l1 l2, list_eqb eqb l1 l2 = true <-> l1 = l2.
Proof.
  intros H l1; induction l1 as [|x l1 IH]; intros [|y l2]; simpl; split; intro E;
    try reflexivity; try discriminate.
  - apply andb_true_iff in E as [E1 E2]. apply H in E1. apply IH in E2. subst. reflexivity.
  - inversion E; subst. apply andb_true_iff; split; [apply H; reflexivity | apply IH; reflexivity].
Qed.

(* The models' byte strings are [list N] compared by [list_eqb N.eqb]. *)
Lemma bytes_eqb_eq (a b : list N) : list_eqb N.eqb a b = true <-> a = b.
Proof. apply list_eqb_spec, N.eqb_eq. Qed.

Lemma bytes_eqb_refl (a : list N) : list_eqb N.eqb a a = true.
Proof. now apply bytes_eqb_eq. Qed.

Definition option_eqb {A} (eqb : A -> A -> bool) (a b : option A) : bool :=
  match a, b with
  | Some x, Some y => eqb x y
  | None, None => true
  | _, _ => false
  end.

Definition pair_eqb {A B} (ea : A -> A -> bool) (eb : B -> B -> bool) (p q : A * B) : bool :=
  ea (fst p) (fst q) && eb (snd p) (snd q).

Lemma option_eqb_spec {A} (eqb : A -> A -> bool) :
  (forall x y, eqb x y = true <-> x = y) ->
  forall a b, option_eqb eqb a b = true <-> a = b.
Proof.
  intros H [x|] [y|]; simpl; try (split; discriminate); [|tauto].
  rewrite H. split; [intros ->; reflexivity|intro E; inversion E; reflexivity].
Qed.

Lemma pair_eqb_spec {A B} (ea : A -> A -> bool) (eb : B -> B -> bool) :
  (forall x y, ea x y = true <-> x = y) -> (forall x y, eb x y = true <-> x = y) ->
  forall p q, pair_eqb ea eb p q = true <-> p = q.
Proof.
  intros Ha Hb [a b] [a' b']. unfold pair_eqb. simpl. rewrite andb_true_iff, Ha, Hb.
  split; [intros [-> ->]; reflexivity|intros H; inversion H; auto].
Qed.

(* List notions of the compaction planner's model (Model/C30.v, which uses
   [first_some]) and of the statements and proofs about it (Proofs/C30*.v):
   subsequences, contiguous segments, pairwise relations, and what is needed
   about removelast / last. *)
From Coq Require Import List Bool Arith Lia Permutation Sorted.
Import ListNotations.
From Verif Require Import Lib.ListFacts.

Inductive sublist {A} : list A -> list A -> Prop :=
| sl_nil l : sublist [] l
| sl_skip a l1 l2 : sublist l1 l2 -> sublist l1 (a :: l2)
| sl_cons a l1 l2 : sublist l1 l2 -> sublist (a :: l1) (a :: l2).
#[export] Hint Constructors sublist : core.

Lemma sublist_refl {A} (l : list A) : sublist l l.
Proof. induction l; auto. Qed.

Lemma sublist_trans {A} (a b c : list A) : sublist a b -> sublist b c -> sublist a c.
Proof.
  intros H1 H2. revert a H1. induction H2; intros x H1.
  - inversion H1; auto.
  - auto.
  - inversion H1; subst; auto.
Qed.

Lemma sublist_app_l {A} (p l : list A) : sublist l (p ++ l).
Proof. induction p; simpl; auto using sublist_refl. Qed.

Lemma sublist_app_r {A} (l s : list A) : sublist l (l ++ s).
Proof. induction l; simpl; auto. Qed.

Lemma sublist_app {A} (a b c d : list A) : sublist a b -> sublist c d -> sublist (a ++ c) (b ++ d).
Proof.
  intros Hab. induction Hab; intros Hcd; simpl; auto.
  eapply sublist_trans; [exact Hcd | apply sublist_app_l].
Qed.

Lemma sublist_In {A} (a b : list A) x : sublist a b -> In x a -> In x b.
Proof. induction 1; simpl; intros Hin; auto; try contradiction. destruct Hin; auto. Qed.

Lemma sublist_Forall {A} (P : A -> Prop) (a b : list A) : sublist a b -> Forall P b -> Forall P a.
Proof. intros Hs Hf. apply Forall_forall. intros x Hx. rewrite Forall_forall in Hf. eauto using sublist_In. Qed.

Lemma sublist_NoDup {A} (a b : list A) : sublist a b -> NoDup b -> NoDup a.
Proof.
  induction 1; intros Hn; [constructor | inversion Hn; auto |].
  inversion Hn; subst. constructor; eauto using sublist_In.
Qed.

Lemma sublist_length {A} (a b : list A) : sublist a b -> length a <= length b.
Proof. induction 1; simpl; lia. Qed.

Lemma sublist_single {A} (x : A) l : In x l -> sublist [x] l.
Proof. induction l; simpl; intros H; [contradiction|]. destruct H; subst; auto. Qed.

Lemma sublist_map {A B} (f : A -> B) a b : sublist a b -> sublist (map f a) (map f b).
Proof. induction 1; simpl; auto. Qed.

Lemma sublist_filter {A} (f : A -> bool) l : sublist (filter f l) l.
Proof. induction l; simpl; auto. destruct (f a); auto. Qed.

Lemma sublist_filter_mono {A} (f : A -> bool) a b : sublist a b -> sublist (filter f a) (filter f b).
Proof. induction 1; simpl; auto; destruct (f a); auto. Qed.

(* removing by a predicate that rejects every element of a subsequence p
   shortens the list by at least |p| *)
Lemma filter_sublist_length {A} (f : A -> bool) (p l : list A) :
  sublist p l -> (forall x, In x p -> f x = false) ->
  length (filter f l) + length p <= length l.
Proof.
  induction 1; intros Hf; simpl.
  - pose proof (filter_length_le f l). lia.
  - assert (IH := IHsublist Hf). destruct (f a); simpl; lia.
  - rewrite (Hf a (or_introl eq_refl)). simpl.
    assert (IH := IHsublist (fun x Hx => Hf x (or_intror Hx))). lia.
Qed.

Lemma filter_length_mono {A} (f g : A -> bool) l :
  (forall x, f x = true -> g x = true) -> length (filter f l) <= length (filter g l).
Proof.
  intros Hfg. induction l as [|a l IH]; simpl; auto.
  destruct (f a) eqn:Fa; [rewrite (Hfg a Fa); simpl; lia | destruct (g a); simpl; lia].
Qed.

(* a smaller predicate that loses an element keeps strictly fewer *)
Lemma filter_length_lt {A} (f g : A -> bool) l m :
  (forall x, f x = true -> g x = true) -> In m l -> g m = true -> f m = false ->
  length (filter f l) < length (filter g l).
Proof.
  intros Hfg Hin Hg Hf. induction l as [|a l IH]; simpl; [contradiction|].
  pose proof (filter_length_mono f g l Hfg). destruct Hin as [->|Hin].
  - rewrite Hg, Hf. simpl. lia.
  - specialize (IH Hin). destruct (f a) eqn:Fa; [rewrite (Hfg a Fa); simpl; lia | destruct (g a); simpl; lia].
Qed.

Lemma sublist_removelast {A} (l : list A) : sublist (removelast l) l.
Proof. induction l as [|a [|b r] IH]; simpl; auto. Qed.

Lemma removelast_app_single {A} (l : list A) x : removelast (l ++ [x]) = l.
Proof. apply removelast_last. Qed.

Lemma last_In {A} (l : list A) d : l <> [] -> In (last l d) l.
Proof.
  induction l as [|a [|b r] IH]; intros H; [congruence| simpl; auto |].
  right. apply IH. discriminate.
Qed.

Definition segment {A} (s l : list A) : Prop := exists a b, l = a ++ s ++ b.

Lemma segment_refl {A} (l : list A) : segment l l.
Proof. exists [], []. simpl. now rewrite app_nil_r. Qed.

Lemma segment_trans {A} (a b c : list A) : segment a b -> segment b c -> segment a c.
Proof.
  intros (x & y & ->) (u & v & ->). exists (u ++ x), (y ++ v).
  now rewrite !app_assoc.
Qed.

Lemma segment_sublist {A} (s l : list A) : segment s l -> sublist s l.
Proof.
  intros (a & b & ->). eapply sublist_trans; [|apply sublist_app_l]. apply sublist_app_r.
Qed.

Lemma segment_cons {A} (x : A) s l : segment s l -> segment s (x :: l).
Proof. intros (a & b & ->). exists (x :: a), b. reflexivity. Qed.

Lemma segment_prefix {A} (s r : list A) : segment s (s ++ r).
Proof. exists [], r. reflexivity. Qed.

Lemma segment_suffix {A} (p s : list A) : segment s (p ++ s).
Proof. exists p, []. now rewrite app_nil_r. Qed.

Lemma segment_filter {A} (f : A -> bool) s l :
  segment s l -> (forall x, In x s -> f x = true) -> segment s (filter f l).
Proof.
  intros (a & b & ->) Hs. exists (filter f a), (filter f b).
  now rewrite !filter_app, (filter_all f s Hs).
Qed.

Lemma segment_removelast {A} (l : list A) : segment (removelast l) l.
Proof.
  destruct l as [|a l]; [apply segment_refl|].
  exists [], [last (a :: l) a]. apply app_removelast_last. discriminate.
Qed.

(* every earlier element is related to every later one.  This is StronglySorted
   (below); the Fixpoint form is the one the statements use, because on a concrete
   list it computes to a conjunction that [simpl] and [lia] finish *)
Fixpoint pairwise {A} (R : A -> A -> Prop) (l : list A) : Prop :=
  match l with
  | [] => True
  | a :: r => Forall (R a) r /\ pairwise R r
  end.

Lemma pairwise_StronglySorted {A} (R : A -> A -> Prop) l : pairwise R l <-> StronglySorted R l.
Proof.
  induction l as [|a l IH]; simpl.
  - split; constructor.
  - rewrite IH. split; [intros [H1 H2]; now constructor | intros H; inversion H; auto].
Qed.

Lemma pairwise_sublist {A} (R : A -> A -> Prop) a b : sublist a b -> pairwise R b -> pairwise R a.
Proof.
  induction 1; simpl; intros Hp; auto.
  - apply IHsublist, Hp.
  - destruct Hp as [Hf Hp]. split; [eapply sublist_Forall; eauto | auto].
Qed.

Lemma pairwise_app {A} (R : A -> A -> Prop) a b :
  pairwise R (a ++ b) <-> pairwise R a /\ pairwise R b /\ (forall x y, In x a -> In y b -> R x y).
Proof.
  rewrite !pairwise_StronglySorted. split; [apply StronglySorted_app_inv|].
  intros (Ha & Hb & Hc). now apply StronglySorted_app.
Qed.

(* a segment of a pairwise-related list has the rest of the list before it or after it *)
Lemma pairwise_segment {A} (R : A -> A -> Prop) s l q :
  segment s l -> pairwise R l -> In q l ->
  In q s \/ (forall x, In x s -> R q x) \/ (forall x, In x s -> R x q).
Proof.
  intros (a & b & ->) Hp Hq. apply pairwise_app in Hp. destruct Hp as (_ & Hp & Ha).
  apply pairwise_app in Hp. destruct Hp as (_ & _ & Hb).
  apply in_app_or in Hq. destruct Hq as [Hq|Hq]; [|apply in_app_or in Hq; destruct Hq as [Hq|Hq]]; auto.
  right; left. intros x Hx. apply Ha; auto using in_or_app.
Qed.

(* two pairwise relations combine elementwise, for elements satisfying [P] *)
Lemma pairwise_Forall2 {A} (R S T : A -> A -> Prop) (P : A -> Prop) l :
  (forall a b, P a -> P b -> R a b -> S a b -> T a b) ->
  Forall P l -> pairwise R l -> pairwise S l -> pairwise T l.
Proof.
  intros H. induction l as [|a r IH]; simpl; auto.
  intros HP [HR HRr] [HS HSr]. inversion HP; subst. split; auto.
  rewrite Forall_forall in *. intros x Hx. apply H; auto.
Qed.

(* for a symmetric relation the order of the list does not matter *)
Lemma pairwise_perm {A} (R : A -> A -> Prop) (Hsym : forall a b, R a b -> R b a) l l' :
  Permutation l l' -> pairwise R l -> pairwise R l'.
Proof.
  induction 1; simpl; intros Hp; auto.
  - destruct Hp as [Hf Hp]. split; auto. eapply Permutation_Forall; eauto.
  - destruct Hp as [Hy [Hx Hp]]. inversion Hy; subst. repeat split; auto.
Qed.

Lemma pairwise_In_distinct {A} (R : A -> A -> Prop) (Hsym : forall a b, R a b -> R b a) l a b :
  pairwise R l -> In a l -> In b l -> a <> b -> R a b.
Proof.
  induction l as [|x r IH]; simpl; intros Hp Ha Hb Hne; [contradiction|].
  destruct Hp as [Hf Hp]. rewrite Forall_forall in Hf.
  destruct Ha as [->|Ha], Hb as [->|Hb]; auto; try congruence.
Qed.

Fixpoint first_some {A B} (f : A -> option B) (l : list A) : option B :=
  match l with
  | [] => None
  | x :: r => match f x with Some y => Some y | None => first_some f r end
  end.

Lemma first_some_Some {A B} (f : A -> option B) l y :
  first_some f l = Some y -> exists x, In x l /\ f x = Some y.
Proof.
  induction l as [|x r IH]; simpl; [discriminate|].
  destruct (f x) eqn:E; intros H.
  - inversion H; subst. eauto.
  - destruct (IH H) as (z & Hz & Hf). eauto.
Qed.

(* Crash group (C28, C35): lemmas about Lib/Crash_Block.v.
   The invariant [binv U b] (every data object agrees with the universe, every
   meta.json present is the universe's file list and all listed files are
   present) is kept by every bucket operation that satisfies [op_guard]; each
   modelled function issues only guarded operations (Lib/Crash_BlockProgs.v),
   so the invariant holds after every prefix of its op log (= at every crash
   point). Since the universe fixes the content of every data file, a data
   file that is present in a bucket satisfying [agree] has the right content:
   completeness of a block is a matter of presence only ([all_present]). *)
From Coq Require Import ZArith NArith List Bool Arith.
Import ListNotations.
From Verif Require Import Lib.Corr Lib.Crash_Store Lib.Crash_Block.

Lemma file_eqb_spec a b : file_eqb a b = true <-> a = b.
Proof.
  destruct a, b; simpl; split; intros H; try discriminate; try reflexivity;
    try (apply N.eqb_eq in H; subst; reflexivity);
    try (inversion H; subst; apply N.eqb_refl).
Qed.

Lemma key_eqb_spec a b : key_eqb a b = true <-> a = b.
Proof. apply (pair_eqb_spec N.eqb file_eqb N.eqb_eq file_eqb_spec). Qed.

Lemma fz_eqb_spec a b : fz_eqb a b = true <-> a = b.
Proof. apply (pair_eqb_spec file_eqb Z.eqb file_eqb_spec Z.eqb_eq). Qed.

Lemma obj_eqb_spec a b : obj_eqb a b = true <-> a = b.
Proof.
  destruct a as [x|c f l], b as [y|c' f' l']; simpl; split; intros H; try discriminate.
  - apply Z.eqb_eq in H. subst; reflexivity.
  - inversion H. apply Z.eqb_refl.
  - apply andb_true_iff in H as [H H3]. apply andb_true_iff in H as [H1 H2].
    apply N.eqb_eq in H1, H3. apply (list_eqb_spec fz_eqb fz_eqb_spec) in H2. subst; reflexivity.
  - inversion H; subst. rewrite !N.eqb_refl. simpl.
    rewrite (proj2 (list_eqb_spec fz_eqb fz_eqb_spec f' f') eq_refl). reflexivity.
Qed.

Lemma bop_eqb_spec a b : bop_eqb a b = true <-> a = b.
Proof.
  destruct a as [k v|k], b as [k' v'|k']; simpl; split; intros H; try discriminate.
  - apply andb_true_iff in H as [H1 H2]. apply key_eqb_spec in H1. apply obj_eqb_spec in H2. subst; reflexivity.
  - inversion H; subst. apply andb_true_iff; split; [apply key_eqb_spec|apply obj_eqb_spec]; reflexivity.
  - apply key_eqb_spec in H. subst; reflexivity.
  - inversion H; subst. apply key_eqb_spec; reflexivity.
Qed.

Lemma kv_eqb_spec a b : kv_eqb a b = true <-> a = b.
Proof. apply (pair_eqb_spec key_eqb obj_eqb key_eqb_spec obj_eqb_spec). Qed.

Lemma bucket_eqb_spec a b : bucket_eqb a b = true <-> a = b.
Proof. apply list_eqb_spec, kv_eqb_spec. Qed.

Lemma ops_eqb_spec a b : list_eqb bop_eqb a b = true <-> a = b.
Proof. apply list_eqb_spec, bop_eqb_spec. Qed.

Lemma buckets_eqb_spec a b : list_eqb bucket_eqb a b = true <-> a = b.
Proof. apply list_eqb_spec, bucket_eqb_spec. Qed.

Lemma bget_put_same b k v : bget (bput b k v) k = Some v.
Proof. apply get_put_same, key_eqb_spec. Qed.
Lemma bget_put_other b k v k2 : k2 <> k -> bget (bput b k v) k2 = bget b k2.
Proof. apply get_put_other, key_eqb_spec. Qed.
Lemma bget_del_same b k : bget (bdel b k) k = None.
Proof. apply get_del_same. Qed.
Lemma bget_del_other b k k2 : k2 <> k -> bget (bdel b k) k2 = bget b k2.
Proof. apply get_del_other, key_eqb_spec. Qed.

Lemma bhas_true b k : bhas b k = true <-> bget b k <> None.
Proof. unfold bhas, has, bget. destruct (get key obj key_eqb b k); split; congruence. Qed.
Lemma bhas_false b k : bhas b k = false <-> bget b k = None.
Proof. unfold bhas, has, bget. destruct (get key obj key_eqb b k); split; congruence. Qed.

Lemma bapply_ops_app b l1 l2 : bapply_ops b (l1 ++ l2) = bapply_ops (bapply_ops b l1) l2.
Proof. apply apply_ops_app. Qed.

Lemma blast_states b l : last (tl (bstates b l)) b = bapply_ops b l.
Proof. apply last_states. Qed.

Lemma bhas_mono b l k :
  forallb (is_up key obj) l = true -> bhas b k = true -> bhas (bapply_ops b l) k = true.
Proof.
  intros Hl Hk. apply bhas_true, (has_after_ups key obj key_eqb key_ltb key_eqb_spec); [exact Hl|].
  left. apply bhas_true, Hk.
Qed.

Lemma key_dec (a b : key) : {a = b} + {a <> b}.
Proof.
  destruct (key_eqb a b) eqn:E; [left; apply key_eqb_spec; exact E|right].
  intros H. apply key_eqb_spec in H. congruence.
Qed.

Lemma bget_put_mono b k v k2 : bget b k2 <> None -> bget (bput b k v) k2 <> None.
Proof.
  intros H. destruct (key_dec k2 k) as [->|E]; [rewrite bget_put_same; discriminate|].
  rewrite bget_put_other by exact E. exact H.
Qed.

Lemma bget_del_some b k k2 o : bget (bdel b k) k2 = Some o -> bget b k2 = Some o.
Proof.
  intros H. destruct (key_dec k2 k) as [->|E]; [rewrite bget_del_same in H; discriminate|].
  rewrite bget_del_other in H by exact E. exact H.
Qed.

Lemma bget_keys b k : bget b k <> None <-> In k (map fst b).
Proof.
  split.
  - destruct (bget b k) as [v|] eqn:H; [intros _|congruence].
    exact (get_some_keys key obj key_eqb key_eqb_spec _ _ _ H).
  - intros H. apply (keys_get key obj key_eqb key_ltb key_eqb_spec) in H as [v Hv].
    unfold bget. congruence.
Qed.

Lemma memN_In n l : memN n l = true <-> In n l.
Proof.
  induction l as [|m r IH]; simpl; [split; [discriminate|tauto]|].
  rewrite orb_true_iff, N.eqb_eq, IH. split; intros [H|H]; auto.
Qed.

Lemma nodupN_NoDup l : nodupN l = true -> NoDup l.
Proof.
  induction l as [|n r IH]; simpl; intros H; [constructor|].
  apply andb_true_iff in H as [H1 H2]. constructor; [|apply IH; exact H2].
  intros Hin. apply memN_In in Hin. rewrite Hin in H1. discriminate.
Qed.

Lemma memF_In f l : memF f l = true <-> In f l.
Proof.
  induction l as [|m r IH]; simpl; [split; [discriminate|tauto]|].
  rewrite orb_true_iff, file_eqb_spec, IH. split; intros [H|H]; auto.
Qed.

Lemma nodupF_NoDup l : nodupF l = true -> NoDup l.
Proof.
  induction l as [|n r IH]; simpl; intros H; [constructor|].
  apply andb_true_iff in H as [H1 H2]. constructor; [|apply IH; exact H2].
  intros Hin. apply memF_In in Hin. rewrite Hin in H1. discriminate.
Qed.

Lemma NoDup_incl_same_length {A} (l l' : list A) :
  NoDup l -> length l = length l' -> incl l l' -> forall x, In x l <-> In x l'.
Proof.
  intros Hnd Hlen Hincl x. split; [apply Hincl|].
  apply (NoDup_length_incl Hnd); [rewrite Hlen; apply le_n|exact Hincl].
Qed.

Lemma perm_b_spec order segs :
  perm_b order segs = true -> (forall n, In n order <-> In n segs).
Proof.
  unfold perm_b. rewrite !andb_true_iff, Nat.eqb_eq, forallb_forall. intros [[H1 H2] H3].
  apply NoDup_incl_same_length; [apply nodupN_NoDup, H2|exact H1|].
  intros n Hn. apply memN_In, H3, Hn.
Qed.

Lemma perm_files_spec order expected :
  perm_files order expected = true -> (forall f, In f order <-> In f expected).
Proof.
  unfold perm_files. rewrite !andb_true_iff, Nat.eqb_eq, forallb_forall. intros [[H1 H2] H3].
  apply NoDup_incl_same_length; [apply nodupF_NoDup, H2|exact H1|].
  intros n Hn. apply memF_In, H3, Hn.
Qed.

Definition wf_blk (b : blk) : Prop := NoDup (map fst (b_chunks b)).
Definition wf_univ (U : univ) : Prop := forall id b, ublock U id = Some b -> wf_blk b.

Lemma ublock_In U id b : ublock U id = Some b -> In (id, b) U.
Proof.
  induction U as [|[i x] r IH]; simpl; [discriminate|].
  destruct (N.eqb id i) eqn:E.
  - intros H. inversion H; subst. apply N.eqb_eq in E. subst. left; reflexivity.
  - intros H. right. apply IH. exact H.
Qed.

Lemma wf_univ_b_spec U : wf_univ_b U = true -> wf_univ U.
Proof.
  unfold wf_univ_b, wf_univ, wf_blk. rewrite forallb_forall. intros H id b Hb.
  apply ublock_In in Hb. apply H in Hb. simpl in Hb. apply nodupN_NoDup. exact Hb.
Qed.

Lemma assocN_In l n z : NoDup (map fst l) -> In (n, z) l -> assocN l n = z.
Proof.
  induction l as [|[m y] r IH]; simpl; intros Hnd Hin; [contradiction|].
  inversion Hnd as [|? ? Hnotin Hnd']; subst.
  destruct Hin as [H|H].
  - inversion H; subst. rewrite N.eqb_refl. reflexivity.
  - destruct (N.eqb n m) eqn:E.
    + apply N.eqb_eq in E. subst. exfalso. apply Hnotin. apply (in_map fst) in H. exact H.
    + apply IH; assumption.
Qed.

Lemma In_assocN l n : In n (map fst l) -> In (n, assocN l n) l.
Proof.
  induction l as [|[m y] r IH]; simpl; intros H; [contradiction|].
  destruct (N.eqb n m) eqn:E.
  - apply N.eqb_eq in E. subst. left; reflexivity.
  - destruct H as [H|H]; [subst; rewrite N.eqb_refl in E; discriminate|]. right. apply IH. exact H.
Qed.

Definition data_file_of (b : blk) (f : file) : Prop :=
  f = FIndex \/ exists n, f = FChunk n /\ In n (map fst (b_chunks b)).

Lemma files_of_data b f sz :
  wf_blk b -> In (f, sz) (files_of b) -> is_data f = true ->
  Blob sz = data_val b f /\ data_file_of b f.
Proof.
  intros Hwf Hin Hd. unfold files_of in Hin. apply in_app_or in Hin as [Hin|Hin].
  - apply in_map_iff in Hin as [[n z] [Heq Hin]]. simpl in Heq. inversion Heq; subst.
    split.
    + simpl. unfold chunk_size. rewrite (assocN_In _ _ _ Hwf Hin). reflexivity.
    + right. exists n. split; [reflexivity|]. apply (in_map fst) in Hin. exact Hin.
  - simpl in Hin. destruct Hin as [H|[H|[]]]; inversion H; subst; [|discriminate].
    split; [reflexivity|left; reflexivity].
Qed.

Lemma data_file_listed b f :
  data_file_of b f -> is_data f = true /\ exists sz, In (f, sz) (files_of b) /\ data_val b f = Blob sz.
Proof.
  unfold files_of. intros [->|[n [-> Hn]]]; (split; [reflexivity|]).
  - exists (b_index b). split; [|reflexivity]. apply in_or_app. right. left. reflexivity.
  - exists (chunk_size b n). split; [|reflexivity]. apply in_or_app. left.
    apply in_map_iff. exists (n, chunk_size b n). split; [reflexivity|]. apply In_assocN. exact Hn.
Qed.

Lemma files_of_kind b f sz : In (f, sz) (files_of b) -> is_data f = true \/ f = FMeta.
Proof.
  unfold files_of. intros Hin. apply in_app_or in Hin as [Hin|[H|[H|[]]]].
  - apply in_map_iff in Hin as [[n z] [Heq _]]. inversion Heq. left; reflexivity.
  - inversion H. left; reflexivity.
  - inversion H. right; reflexivity.
Qed.

(* [v] is what the universe prescribes for the data file [f] of block [id] *)
Definition data_ok (U : univ) (id : N) (f : file) (v : obj) : Prop :=
  exists bl sz, ublock U id = Some bl /\ In (f, sz) (files_of bl) /\ v = Blob sz.

Definition agree (U : univ) (b : bucket) : Prop :=
  forall id f o, is_data f = true -> bget b (id, f) = Some o ->
    exists bl sz, ublock U id = Some bl /\ In (f, sz) (files_of bl) /\ o = Blob sz.

Definition all_data_present (b : bucket) (id : N) (bl : blk) : Prop :=
  forall f sz, In (f, sz) (files_of bl) -> is_data f = true -> bget b (id, f) = Some (Blob sz).

(* [o] is a meta.json of block [id] that may be in [b] *)
Definition meta_ok (U : univ) (b : bucket) (id : N) (o : obj) : Prop :=
  exists bl cid lbl, ublock U id = Some bl /\ o = MetaO cid (files_of bl) lbl /\ all_data_present b id bl.

Definition complete (U : univ) (b : bucket) : Prop :=
  forall id o, bget b (id, FMeta) = Some o ->
    exists bl cid lbl, ublock U id = Some bl /\ o = MetaO cid (files_of bl) lbl /\ all_data_present b id bl.

Definition binv (U : univ) (b : bucket) : Prop := agree U b /\ complete U b.

(* [agree] is [data_ok] of every data object, [complete] is [meta_ok] of every meta.json *)
Lemma agree_data_ok U b :
  agree U b <-> forall id f o, is_data f = true -> bget b (id, f) = Some o -> data_ok U id f o.
Proof. reflexivity. Qed.

Lemma complete_meta_ok U b :
  complete U b <-> forall id o, bget b (id, FMeta) = Some o -> meta_ok U b id o.
Proof. reflexivity. Qed.

Lemma binv_empty U : binv U [].
Proof. split; intros id; intros; discriminate. Qed.

Lemma data_ok_fun U id f v v' :
  wf_univ U -> is_data f = true -> data_ok U id f v -> data_ok U id f v' -> v = v'.
Proof.
  intros Hwf Hd [bl [sz [Hu [Hin ->]]]] [bl' [sz' [Hu' [Hin' ->]]]].
  rewrite Hu in Hu'. inversion Hu'; subst bl'.
  destruct (files_of_data _ _ _ (Hwf _ _ Hu) Hin Hd) as [-> _].
  destruct (files_of_data _ _ _ (Hwf _ _ Hu) Hin' Hd) as [-> _]. reflexivity.
Qed.

Lemma all_present U b id bl :
  wf_univ U -> agree U b -> ublock U id = Some bl ->
  (forall f sz, In (f, sz) (files_of bl) -> is_data f = true -> bget b (id, f) <> None) ->
  all_data_present b id bl.
Proof.
  intros Hwf Hag%agree_data_ok Hu Hp f sz Hin Hd.
  destruct (bget b (id, f)) as [o|] eqn:Hg; [|destruct (Hp f sz Hin Hd Hg)].
  f_equal. apply (data_ok_fun U id f); [exact Hwf|exact Hd|exact (Hag _ _ _ Hd Hg)|].
  exists bl, sz. auto.
Qed.

Lemma meta_ok_mono U b b' id o :
  wf_univ U -> agree U b' -> meta_ok U b id o ->
  (forall f, is_data f = true -> bget b (id, f) <> None -> bget b' (id, f) <> None) ->
  meta_ok U b' id o.
Proof.
  intros Hwf Hag [bl [cid [lbl [Hu [Ho Hall]]]]] Hp. exists bl, cid, lbl.
  split; [exact Hu|]. split; [exact Ho|]. apply (all_present U); try assumption.
  intros f sz Hin Hd. apply Hp; [exact Hd|]. rewrite (Hall f sz Hin Hd). discriminate.
Qed.

Definition op_guard (U : univ) (b : bucket) (o : bop) : Prop :=
  match o with
  | Up (id, f) v => (is_data f = true -> data_ok U id f v) /\ (f = FMeta -> meta_ok U b id v)
  | Del (id, f) => is_data f = true -> bget b (id, FMeta) = None
  end.

Notation bguarded U := (guarded key obj key_eqb key_ltb (op_guard U)).

Lemma data_not_meta f : is_data f = true -> f <> FMeta.
Proof. intros H E. subst. discriminate. Qed.

Lemma binv_step U b o : wf_univ U -> binv U b -> op_guard U b o -> binv U (bapply b o).
Proof.
  intros Hwf [Hag%agree_data_ok Hco%complete_meta_ok] Hg. destruct o as [[id f] v|[id f]]; simpl in Hg.
  - change (bapply b (Up (id, f) v)) with (bput b (id, f) v). destruct Hg as [Hgd Hgm].
    assert (Hag' : agree U (bput b (id, f) v)).
    { apply agree_data_ok. intros id' f' o Hd Hget. destruct (key_dec (id', f') (id, f)) as [E|E].
      - inversion E; subst. rewrite bget_put_same in Hget. inversion Hget; subst. exact (Hgd Hd).
      - rewrite bget_put_other in Hget by exact E. exact (Hag _ _ _ Hd Hget). }
    split; [exact Hag'|]. apply complete_meta_ok. intros id' o Hget. apply (meta_ok_mono U b); try assumption.
    + destruct (key_dec (id', FMeta) (id, f)) as [E|E].
      * inversion E; subst. rewrite bget_put_same in Hget. inversion Hget; subst. exact (Hgm eq_refl).
      * rewrite bget_put_other in Hget by exact E. exact (Hco _ _ Hget).
    + intros f' _. apply bget_put_mono.
  - change (bapply b (Del (id, f))) with (bdel b (id, f)).
    assert (Hag' : agree U (bdel b (id, f))).
    { apply agree_data_ok. intros id' f' o Hd Hget. exact (Hag _ _ _ Hd (bget_del_some _ _ _ _ Hget)). }
    split; [exact Hag'|]. apply complete_meta_ok. intros id' o Hget. apply bget_del_some in Hget.
    apply (meta_ok_mono U b); try assumption; [exact (Hco _ _ Hget)|].
    (* a data file of a block that has its meta.json is not the one deleted *)
    intros f' Hd' Hp. rewrite bget_del_other; [exact Hp|].
    intros E. inversion E; subst. rewrite (Hg Hd') in Hget. discriminate.
Qed.

Theorem binv_states U b l :
  wf_univ U -> binv U b -> bguarded U b l -> forall b', In b' (bstates b l) -> binv U b'.
Proof.
  intros Hwf Hb Hg. apply (states_invariant key obj key_eqb key_ltb (binv U) (op_guard U)); auto.
  intros s o Hs Ho. apply binv_step; assumption.
Qed.

Lemma binv_prefix U b l k :
  wf_univ U -> binv U b -> bguarded U b l -> binv U (bapply_ops b (firstn k l)).
Proof. intros Hwf Hb Hg. apply (binv_states U b l Hwf Hb Hg), states_prefix. Qed.

Lemma binv_run U b l : wf_univ U -> binv U b -> bguarded U b l -> binv U (bapply_ops b l).
Proof. intros Hwf Hb Hg. apply (binv_states U b l Hwf Hb Hg), states_last. Qed.

Lemma binv_visible_complete U b : binv U b -> visible_complete_b b = true.
Proof.
  intros [Hag Hco]. unfold visible_complete_b. apply forallb_forall. intros [id f] Hk. simpl.
  destruct f; try reflexivity.
  destruct (bget b (id, FMeta)) as [o|] eqn:Hget; [|reflexivity].
  destruct (Hco _ _ Hget) as [bl [cid [lbl [Hu [Ho Hall]]]]]. subst o. simpl.
  apply forallb_forall. intros [f sz] Hin. simpl.
  destruct (files_of_kind _ _ _ Hin) as [Hd| ->]; [|reflexivity].
  destruct f; try discriminate; rewrite (Hall _ _ Hin Hd); apply Z.eqb_refl.
Qed.

(* the property clause as a proposition *)
Definition visible_complete (b : bucket) : Prop :=
  forall id cid files lbl, bget b (id, FMeta) = Some (MetaO cid files lbl) ->
    forall f sz, In (f, sz) files -> f <> FMeta -> bget b (id, f) = Some (Blob sz).

Lemma binv_visible U b : binv U b -> visible_complete b.
Proof.
  intros [_ Hco] id cid files lbl Hm f sz Hin Hf.
  destruct (Hco _ _ Hm) as [bl [cid' [lbl' [Hu [Ho Hall]]]]]. inversion Ho; subst.
  apply Hall; [exact Hin|]. destruct (files_of_kind _ _ _ Hin); [assumption|contradiction].
Qed.

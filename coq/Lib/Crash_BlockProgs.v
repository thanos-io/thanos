(* Crash group (C28, C35): the modelled functions issue only guarded operations
   (so the invariant of Crash_BlockFacts holds at every crash point), and what
   they have achieved when they return. All lemmas are stated for the phase
   orders [std_*]; the property files prove that the orders computed from the
   source (Gen) are these.
   block.upload, ensureBlockIsReplicated and ensureBlockIsReplicated racing
   with block.Delete of the origin block have one shape: data files that agree
   with the universe are uploaded, then meta.json, at a point where every data
   file of the block is in the bucket ([publish_guarded]). *)
From Coq Require Import ZArith NArith List Bool.
Import ListNotations.
From Verif Require Import Lib.Corr Lib.ListFacts Lib.Crash_Store Lib.Crash_Block Lib.Crash_BlockFacts.

Definition std_upload : list uphase := [PChunks; PIndex; PMeta].
Definition std_delete : list dphase := [DMeta; DRest; DMark; DDirs].
Definition std_replicate : list rphase := [RChunks; RIndex; RMeta].

Lemma data_ups_guarded U id ops :
  (forall o, In o ops -> exists f v, o = Up (id, f) v /\ is_data f = true /\ data_ok U id f v) ->
  forall s, bguarded U s ops.
Proof.
  intros Hops. apply guarded_stateless. intros o Ho s. destruct (Hops o Ho) as [f [v [-> [Hd Hv]]]].
  split; [intros _; exact Hv|intros ->; discriminate].
Qed.

Lemma publish_guarded U b id bl cid lbl ops :
  wf_univ U -> binv U b -> ublock U id = Some bl ->
  (forall o, In o ops -> exists f v, o = Up (id, f) v /\ is_data f = true /\ data_ok U id f v) ->
  (forall f, data_file_of bl f -> bhas b (id, f) = true \/ exists v, In (Up (id, f) v) ops) ->
  bguarded U b (ops ++ [Up (id, FMeta) (MetaO cid (files_of bl) lbl)]).
Proof.
  intros Hwf Hb Hu Hops Hcov.
  assert (Hup : forallb (is_up key obj) ops = true).
  { apply forallb_forall. intros o Ho. destruct (Hops o Ho) as [f [v [-> _]]]. reflexivity. }
  pose proof (data_ups_guarded U id ops Hops b) as G.
  apply guarded_app. split; [exact G|]. split; [|exact I]. split; [discriminate|intros _].
  exists bl, cid, lbl. split; [exact Hu|]. split; [reflexivity|].
  (* presence is enough: the contents are right by [agree] *)
  apply (all_present U); [exact Hwf|exact (proj1 (binv_run U b ops Hwf Hb G))|exact Hu|].
  intros f sz Hin Hd. destruct (files_of_data _ _ _ (Hwf _ _ Hu) Hin Hd) as [_ Hf].
  apply (has_after_ups key obj key_eqb key_ltb key_eqb_spec); [exact Hup|].
  destruct (Hcov f Hf) as [Hh|Hv]; [left; apply bhas_true, Hh|right; exact Hv].
Qed.

Definition data_files (order : list N) : list file := map FChunk order ++ [FIndex].

Lemma upload_ops_inv U id order cid lbl l :
  upload_ops std_upload U id order cid lbl = Some l ->
  match ublock U id with
  | None => l = []
  | Some bl =>
      perm_b order (map fst (b_chunks bl)) = true /\
      l = map (fun f => Up (id, f) (data_val bl f)) (data_files order)
          ++ [Up (id, FMeta) (MetaO cid (files_of bl) lbl)]
  end.
Proof.
  unfold upload_ops. destruct (ublock U id) as [bl|]; [|intros H; inversion H; reflexivity].
  destruct (perm_b order _); [|discriminate]. intros H. inversion H. split; [reflexivity|].
  unfold data_files. simpl. rewrite map_app, map_map, <- app_assoc. reflexivity.
Qed.

Lemma data_files_spec order bl f :
  perm_b order (map fst (b_chunks bl)) = true -> In f (data_files order) <-> data_file_of bl f.
Proof.
  intros Hp. unfold data_files, data_file_of. rewrite in_app_iff, in_map_iff. split.
  - intros [[n [<- Hn]]|[<-|[]]]; [right|left; reflexivity].
    exists n. split; [reflexivity|apply (perm_b_spec _ _ Hp), Hn].
  - intros [->|[n [-> Hn]]]; [right; left; reflexivity|left].
    exists n. split; [reflexivity|apply (perm_b_spec _ _ Hp), Hn].
Qed.

Lemma upload_ops_ups U id order cid lbl l o :
  upload_ops std_upload U id order cid lbl = Some l -> In o l ->
  exists f v, o = Up (id, f) v /\ (f = FMeta -> exists files, v = MetaO cid files lbl).
Proof.
  intros Hl Ho. apply upload_ops_inv in Hl. destruct (ublock U id) as [bl|]; [|subst; contradiction].
  destruct Hl as [_ ->]. apply in_app_or in Ho as [Ho|[<-|[]]]; [|eauto].
  apply in_map_iff in Ho as [f [<- Hf]]. exists f, (data_val bl f). split; [reflexivity|]. intros ->.
  apply in_app_or in Hf as [Hf|[Hf|[]]]; [apply in_map_iff in Hf as [n [Hf _]]|]; discriminate.
Qed.

Lemma upload_guarded U b id order cid lbl l :
  wf_univ U -> binv U b -> upload_ops std_upload U id order cid lbl = Some l -> bguarded U b l.
Proof.
  intros Hwf Hb Hl. apply upload_ops_inv in Hl.
  destruct (ublock U id) as [bl|] eqn:Hu; [|subst; exact I].
  destruct Hl as [Hp ->]. apply publish_guarded; try assumption.
  - intros o Ho. apply in_map_iff in Ho as [f [<- Hf]].
    apply (data_files_spec _ _ _ Hp), data_file_listed in Hf as [Hd [sz [Hin Hv]]].
    exists f, (data_val bl f). split; [reflexivity|]. split; [exact Hd|]. exists bl, sz. auto.
  - intros f Hf. right. exists (data_val bl f). apply in_map_iff. exists f.
    split; [reflexivity|]. apply (data_files_spec _ _ _ Hp), Hf.
Qed.

Lemma upload_final U b id order cid lbl l bl :
  ublock U id = Some bl -> upload_ops std_upload U id order cid lbl = Some l ->
  bget (bapply_ops b l) (id, FMeta) = Some (MetaO cid (files_of bl) lbl).
Proof.
  intros Hu Hl. apply upload_ops_inv in Hl. rewrite Hu in Hl. destruct Hl as [_ ->].
  rewrite bapply_ops_app. apply bget_put_same.
Qed.

Definition del_if (b : bucket) (k : key) : list bop := if bhas b k then [Del k] else [].

Lemma in_del_if b k o : In o (del_if b k) <-> o = Del k /\ bhas b k = true.
Proof.
  unfold del_if. destruct (bhas b k); simpl; [|intuition discriminate].
  split; [intros [<-|[]]; auto|intros [-> _]; auto].
Qed.

Lemma delete_ops_std b id order l :
  delete_ops std_delete b id order = Some l ->
  perm_files order (rest_files b id) = true /\
  l = del_if b (id, FMeta) ++ map (fun f => Del (id, f)) order ++ del_if b (id, FDelMark)
      ++ [Del (id, FDirChunks); Del (id, FDirBlock)].
Proof.
  unfold delete_ops. destruct (perm_files order (rest_files b id)); [|discriminate].
  intros H. inversion H. split; reflexivity.
Qed.

Lemma delete_ops_dels b id order l :
  delete_ops std_delete b id order = Some l -> forall o, In o l -> exists f, o = Del (id, f).
Proof.
  intros H o Ho. apply delete_ops_std in H as [_ ->]. repeat (apply in_app_or in Ho as [Ho|Ho]).
  - apply in_del_if in Ho as [-> _]. eauto.
  - apply in_map_iff in Ho as [f [<- _]]. eauto.
  - apply in_del_if in Ho as [-> _]. eauto.
  - destruct Ho as [<-|[<-|[]]]; eauto.
Qed.

Lemma dels_forallb id (l : list bop) :
  (forall o, In o l -> exists f, o = Del (id, f)) -> forallb (is_del key obj) l = true.
Proof. intros H. apply forallb_forall. intros o Ho. destruct (H o Ho) as [f ->]. reflexivity. Qed.

Lemma guarded_dels_nometa U id l : forall s,
  (forall o, In o l -> exists f, o = Del (id, f)) -> bget s (id, FMeta) = None -> bguarded U s l.
Proof.
  induction l as [|o r IH]; intros s Hk Hm; simpl; [exact I|].
  destruct (Hk o (or_introl eq_refl)) as [f ->]. split; [intros _; exact Hm|].
  apply IH; [intros o' Ho'; apply Hk; right; exact Ho'|].
  change (bget (bdel s (id, f)) (id, FMeta) = None).
  destruct (bget (bdel s (id, f)) (id, FMeta)) eqn:E; [|reflexivity].
  apply bget_del_some in E. congruence.
Qed.

Lemma delete_guarded U b id order l :
  delete_ops std_delete b id order = Some l -> bguarded U b l.
Proof.
  intros H. pose proof (delete_ops_dels _ _ _ _ H) as Hk. apply delete_ops_std in H as [_ ->].
  revert Hk. unfold del_if at 1 3. destruct (bhas b (id, FMeta)) eqn:Hh; intros Hk.
  - split; [discriminate|]. apply (guarded_dels_nometa U id); [|apply bget_del_same].
    intros o Ho. apply Hk. right. exact Ho.
  - apply (guarded_dels_nometa U id); [exact Hk|apply bhas_false, Hh].
Qed.

Lemma rest_files_spec b id f :
  In f (rest_files b id) <-> In (id, f) (map fst b) /\ kept_by_rest f = false.
Proof.
  unfold rest_files, block_keys. rewrite filter_In, in_map_iff. split.
  - intros [[[i g] [Hg Hin]] Hk]. simpl in Hg. subst g. apply filter_In in Hin as [Hin Hi].
    simpl in Hi. apply N.eqb_eq in Hi. subst i. split; [exact Hin|]. destruct (kept_by_rest f); [discriminate|reflexivity].
  - intros [Hin Hk]. split.
    + exists (id, f). split; [reflexivity|]. apply filter_In. split; [exact Hin|]. simpl. apply N.eqb_refl.
    + rewrite Hk. reflexivity.
Qed.

Lemma gone_spec s id :
  block_gone_b s id = true <-> forall f, is_dirmarker f = false -> bget s (id, f) = None.
Proof.
  unfold block_gone_b. rewrite forallb_forall. split.
  - intros H f Hd. destruct (bget s (id, f)) eqn:Hg; [|reflexivity].
    assert (Hk : In (id, f) (map fst s)) by (apply bget_keys; congruence).
    apply H in Hk. simpl in Hk. rewrite N.eqb_refl, Hd in Hk. discriminate.
  - intros H [i f] Hk. simpl. destruct (N.eqb i id) eqn:E; [|reflexivity]. apply N.eqb_eq in E. subst i.
    destruct (is_dirmarker f) eqn:Hd; [reflexivity|]. apply bget_keys in Hk. destruct (Hk (H f Hd)).
Qed.

Lemma delete_covers b id order f :
  perm_files order (rest_files b id) = true -> is_dirmarker f = false -> bget b (id, f) <> None ->
  In (Del (id, f)) (del_if b (id, FMeta) ++ map (fun f => Del (id, f)) order ++ del_if b (id, FDelMark)).
Proof.
  intros Hp Hd Hg. rewrite !in_app_iff, !in_del_if, in_map_iff. destruct (kept_by_rest f) eqn:Hk.
  - destruct f; try discriminate; [left|right; right]; (split; [reflexivity|apply bhas_true, Hg]).
  - right. left. exists f. split; [reflexivity|].
    apply (perm_files_spec _ _ Hp), rest_files_spec. split; [apply bget_keys, Hg|exact Hk].
Qed.

Lemma delete_gone b id order l f :
  forallb (is_del key obj) l = true ->
  perm_files order (rest_files b id) = true -> is_dirmarker f = false ->
  bget (bapply_ops (bapply_ops b (del_if b (id, FMeta) ++ map (fun f => Del (id, f)) order
                                  ++ del_if b (id, FDelMark))) l) (id, f) = None.
Proof.
  intros Hl Hp Hd. rewrite <- bapply_ops_app.
  apply (get_none_after_dels key obj key_eqb key_ltb key_eqb_spec).
  - rewrite forallb_app. apply andb_true_iff. split; [|exact Hl]. apply (dels_forallb id). intros o Ho.
    repeat (apply in_app_or in Ho as [Ho|Ho]);
      [apply in_del_if in Ho as [-> _]|apply in_map_iff in Ho as [g [<- _]]|apply in_del_if in Ho as [-> _]]; eauto.
  - destruct (bget b (id, f)) eqn:Hg; [right|left; exact Hg].
    apply in_or_app. left. apply delete_covers; [exact Hp|exact Hd|]. rewrite Hg. discriminate.
Qed.

Lemma delete_final b id order l :
  delete_ops std_delete b id order = Some l -> block_gone_b (bapply_ops b l) id = true.
Proof.
  intros H. apply delete_ops_std in H as [Hp ->]. apply gone_spec. intros f Hd.
  rewrite !app_assoc, <- (app_assoc (del_if _ _)), bapply_ops_app.
  apply delete_gone; [reflexivity|exact Hp|exact Hd].
Qed.

(* at every crash point of a Delete of a block that carried a deletion mark: the mark
   is still there, or nothing else is *)
Lemma delete_mark_kept b id order l :
  delete_ops std_delete b id order = Some l ->
  bhas b (id, FDelMark) = true ->
  forall b', In b' (bstates b l) -> mark_or_gone_b b' id = true.
Proof.
  intros H Hm b' Hin. apply delete_ops_std in H as [Hp ->]. unfold mark_or_gone_b. apply orb_true_iff.
  set (A := del_if b (id, FMeta) ++ map (fun f => Del (id, f)) order).
  set (D := [Del (id, FDirChunks); Del (id, FDirBlock)]) in *.
  assert (HK : del_if b (id, FDelMark) = [Del (id, FDelMark)]) by (unfold del_if; rewrite Hm; reflexivity).
  (* the meta and rest phases do not touch the mark *)
  assert (HA : forall s, In s (bstates b A) -> bhas s (id, FDelMark) = true).
  { intros s Hs. apply (states_firstn key obj key_eqb key_ltb) in Hs as [k [_ ->]].
    apply bhas_true. unfold bget. rewrite (get_apply_ops_other key obj key_eqb key_ltb key_eqb_spec).
    - apply bhas_true, Hm.
    - intros o Ho. apply firstn_In, in_app_or in Ho as [Ho|Ho].
      + apply in_del_if in Ho as [-> _]. discriminate.
      + apply in_map_iff in Ho as [f [<- Hf]]. intros E. inversion E; subst f.
        apply (perm_files_spec _ _ Hp), rest_files_spec in Hf as [_ Hf]. discriminate. }
  rewrite HK, app_assoc in Hin. fold A in Hin.
  apply (states_app key obj key_eqb key_ltb) in Hin as [Hin|[<-|Hin]].
  - left. exact (HA _ Hin).
  - left. apply HA, states_last.
  - right. apply (states_firstn key obj key_eqb key_ltb) in Hin as [k [_ ->]].
    apply gone_spec. intros f Hd.
    pose proof (delete_gone b id order (firstn k D) f (forallb_firstn (is_del key obj) D k eq_refl) Hp Hd) as G.
    rewrite HK, app_assoc, bapply_ops_app in G. exact G.
Qed.

Lemma mark_guarded U b id sz : bguarded U b (mark_ops b id sz).
Proof.
  unfold mark_ops. destruct (bhas b (id, FDelMark)); [exact I|]. repeat split; discriminate.
Qed.

Lemma mark_final b id sz : bhas (bapply_ops b (mark_ops b id sz)) (id, FDelMark) = true.
Proof.
  unfold mark_ops. destruct (bhas b (id, FDelMark)) eqn:E; [exact E|].
  apply bhas_true. unfold bapply_ops, apply_ops. simpl. fold bput. rewrite bget_put_same. discriminate.
Qed.

(* the listing of chunks/ that [replicate_phase] and [repdel_ops] (Lib/Crash_Block.v) write inline *)
Definition chunk_keys (src : bucket) (id : N) : list key :=
  filter (fun k => is_chunk (snd k)) (block_keys src id).

(* the names handed to ensureObjectReplicated: that listing, then the index ([repdel_ops]
   writes it so; [replicate_ops] in two phases) *)
Definition copy_names (src : bucket) (id : N) : list key := chunk_keys src id ++ [(id, FIndex)].

Lemma chunk_keys_spec src id k :
  In k (chunk_keys src id) <-> In k (map fst src) /\ fst k = id /\ is_chunk (snd k) = true.
Proof.
  unfold chunk_keys, block_keys. rewrite !filter_In, N.eqb_eq. tauto.
Qed.

Lemma copy_names_data src id k : In k (copy_names src id) -> exists f, k = (id, f) /\ is_data f = true.
Proof.
  unfold copy_names. rewrite in_app_iff, chunk_keys_spec. intros [[_ [Hi Hc]]|[<-|[]]]; [|exists FIndex; auto].
  destruct k as [i f]. simpl in *. subst i. exists f. split; [reflexivity|].
  destruct f; try discriminate; reflexivity.
Qed.

Lemma copy_names_cover src id f :
  is_data f = true -> bget src (id, f) <> None -> In (id, f) (copy_names src id).
Proof.
  intros Hd Hg. apply in_or_app. destruct f; try discriminate; [right; left; reflexivity|left].
  apply chunk_keys_spec. split; [apply bget_keys, Hg|split; reflexivity].
Qed.

Definition src_val (src : bucket) (k : key) : obj :=
  match bget src k with Some o => o | None => Blob 0 end.

Definition copy_list (src dst : bucket) (ks : list key) : list bop :=
  map (fun k => Up k (src_val src k)) (filter (fun k => negb (bhas dst k)) ks).

Lemma copy_ops_present src dst k :
  bget src k <> None -> copy_ops src dst k = Some (copy_list src dst [k]).
Proof.
  intros H. unfold copy_ops, copy_list, src_val. simpl. destruct (bhas dst k); [reflexivity|].
  simpl. destruct (bget src k); [reflexivity|congruence].
Qed.

Lemma seq_opt_copy src dst ks :
  (forall k, In k ks -> bget src k <> None) ->
  seq_opt (map (copy_ops src dst) ks) = Some (copy_list src dst ks).
Proof.
  induction ks as [|k r IH]; intros H; simpl; [reflexivity|].
  rewrite IH by (intros k' Hk'; apply H; right; exact Hk').
  rewrite copy_ops_present by (apply H; left; reflexivity).
  unfold copy_list. simpl. destruct (bhas dst k); reflexivity.
Qed.

Lemma copy_names_present U src id k :
  complete U src -> bget src (id, FMeta) <> None -> In k (copy_names src id) -> bget src k <> None.
Proof.
  intros Hco Hm Hk. apply in_app_or in Hk as [Hk|[<-|[]]].
  - apply chunk_keys_spec in Hk as [Hk _]. apply bget_keys, Hk.
  - destruct (bget src (id, FMeta)) as [om|] eqn:E; [|congruence].
    destruct (Hco _ _ E) as [bl [cid [lbl [_ [_ Hall]]]]].
    destruct (data_file_listed bl FIndex (or_introl eq_refl)) as [Hd [sz [Hin _]]].
    rewrite (Hall _ _ Hin Hd). discriminate.
Qed.

Lemma replicate_ops_std U src dst id om :
  binv U src -> bget src (id, FMeta) = Some om ->
  same_content om (bget dst (id, FMeta)) = false ->
  replicate_ops std_replicate src dst id = copy_list src dst (copy_names src id) ++ [Up (id, FMeta) om].
Proof.
  intros [_ Hco] Hm Hs.
  assert (Hp : forall k, In k (copy_names src id) -> bget src k <> None)
    by (intros k; apply (copy_names_present U); [exact Hco|congruence]).
  unfold replicate_ops. rewrite Hm, Hs. unfold std_replicate. simpl. fold (chunk_keys src id).
  rewrite seq_opt_copy by (intros k Hk; apply Hp, in_or_app; left; exact Hk).
  rewrite copy_ops_present by (apply Hp, in_or_app; right; left; reflexivity).
  unfold copy_names, copy_list. rewrite filter_app, map_app, <- app_assoc. reflexivity.
Qed.

Lemma replicate_guarded U src dst id :
  wf_univ U -> binv U src -> binv U dst ->
  bguarded U dst (replicate_ops std_replicate src dst id).
Proof.
  intros Hwf Hsrc Hdst.
  destruct (bget src (id, FMeta)) as [om|] eqn:Hm; [|unfold replicate_ops; rewrite Hm; exact I].
  destruct (same_content om (bget dst (id, FMeta))) eqn:Hs; [unfold replicate_ops; rewrite Hm, Hs; exact I|].
  rewrite (replicate_ops_std U src dst id om Hsrc Hm Hs). destruct Hsrc as [Hag Hco].
  destruct (Hco _ _ Hm) as [bl [cid [lbl [Hu [-> Hall]]]]]. apply publish_guarded; try assumption.
  - intros o Ho. apply in_map_iff in Ho as [k [<- Hk]]. apply filter_In in Hk as [Hk _].
    assert (Hp : bget src k <> None) by (apply (copy_names_present U src id); [exact Hco|congruence|exact Hk]).
    apply copy_names_data in Hk as [f [-> Hd]]. exists f, (src_val src (id, f)).
    split; [reflexivity|]. split; [exact Hd|]. unfold src_val.
    destruct (bget src (id, f)) eqn:Hg; [exact (proj1 (agree_data_ok U src) Hag _ _ _ Hd Hg)|congruence].
  - intros f Hf. apply data_file_listed in Hf as [Hd [sz [Hin _]]]. specialize (Hall f sz Hin Hd).
    destruct (bhas dst (id, f)) eqn:Hh; [left; reflexivity|right].
    exists (src_val src (id, f)). apply in_map_iff. exists (id, f). split; [reflexivity|].
    apply filter_In. split; [|rewrite Hh; reflexivity].
    apply copy_names_cover; [exact Hd|rewrite Hall; discriminate].
Qed.

Lemma replicate_final U src dst id om :
  binv U src -> bget src (id, FMeta) = Some om ->
  same_content om (bget (bapply_ops dst (replicate_ops std_replicate src dst id)) (id, FMeta)) = true.
Proof.
  intros Hsrc Hm.
  destruct (same_content om (bget dst (id, FMeta))) eqn:Hs.
  - unfold replicate_ops. rewrite Hm, Hs. exact Hs.
  - rewrite (replicate_ops_std U src dst id om Hsrc Hm Hs), bapply_ops_app.
    simpl. fold bput. rewrite bget_put_same.
    destruct Hsrc as [_ Hco]. destruct (Hco _ _ Hm) as [bl [cid [lbl [_ [-> _]]]]].
    simpl. apply N.eqb_refl.
Qed.

(* ensureBlockIsReplicated racing with block.Delete of the origin block.
   [repdel_ops] (Lib/Crash_Block.v) lets the deleter's operations take effect before any of the
   replicator's origin operations. The target stays safe for EVERY schedule when the deleter
   removes the index before any chunk file and the target does not hold the index yet: the
   replicator then copies the index itself, so the index was alive when it was read, hence when
   chunks/ was listed, hence so was every chunk file. *)
Lemma adv_spec : forall pend src n src' pend',
  adv src pend n = (src', pend') ->
  exists d, pend = d ++ pend' /\ src' = bapply_ops src (map snd d).
Proof.
  induction pend as [|[k o] r IH]; intros src n src' pend' H; simpl in H.
  - inversion H; subst. exists []. split; reflexivity.
  - destruct (Nat.leb k n).
    + apply IH in H as [d [H1 H2]]. exists ((k, o) :: d). split; [simpl; rewrite H1; reflexivity|exact H2].
    + inversion H; subst. exists []. split; reflexivity.
Qed.

(* rd_copy: what it emits (values as they were in the origin when it started: in between there
   are only deletions) and what it has achieved when it comes through *)
Lemma rd_copy_spec dst : forall ks cur (pend : pending) n acc acc' res,
  forallb (is_del key obj) (map snd pend) = true ->
  rd_copy cur dst pend n ks acc = (acc', res) ->
  exists new, acc' = acc ++ new
    /\ (forall o, In o new -> exists k v, o = Up k v /\ In k ks /\ bget cur k = Some v)
    /\ (res <> None -> forall k, In k ks -> bhas dst k = true \/ exists v, In (Up k v) new).
Proof.
  induction ks as [|k r IH]; intros cur pend n acc acc' res Hd H; simpl in H.
  - inversion H; subst. exists []. rewrite app_nil_r. split; [reflexivity|]. split; [intros o []|intros _ k []].
  - destruct (bhas dst k) eqn:Hh.
    + destruct (IH _ _ _ _ _ _ Hd H) as [new [H1 [H2 H3]]]. exists new. split; [exact H1|]. split.
      * intros o Ho. destruct (H2 o Ho) as [k' [v [A [B C]]]]. exists k', v.
        split; [exact A|]. split; [right; exact B|exact C].
      * intros Hr k' [<-|Hk]; [left; exact Hh|apply H3; assumption].
    + destruct (adv cur pend n) as [cur' pend'] eqn:Ha. destruct (adv_spec _ _ _ _ _ Ha) as [d [-> ->]].
      rewrite map_app, forallb_app in Hd. apply andb_true_iff in Hd as [Hd1 Hd2].
      assert (Hback : forall k v, bget (bapply_ops cur (map snd d)) k = Some v -> bget cur k = Some v)
        by (intros k0 v0; apply (get_some_after_dels key obj key_eqb key_ltb key_eqb_spec); exact Hd1).
      destruct (bget (bapply_ops cur (map snd d)) k) as [o|] eqn:Hg.
      * destruct (IH _ _ _ _ _ _ Hd2 H) as [new [H1 [H2 H3]]].
        exists (Up k o :: new). split; [rewrite H1, <- app_assoc; reflexivity|]. split.
        -- intros o' [<-|Ho'].
           ++ exists k, o. split; [reflexivity|]. split; [left; reflexivity|apply Hback, Hg].
           ++ destruct (H2 o' Ho') as [k' [v [A [B C]]]]. exists k', v.
              split; [exact A|]. split; [right; exact B|apply Hback, C].
        -- intros Hr k' [<-|Hk]; [right; exists o; left; reflexivity|].
           destruct (H3 Hr k' Hk) as [Hl|[v Hv]]; [left; exact Hl|right; exists v; right; exact Hv].
      * inversion H; subst. exists []. rewrite app_nil_r. split; [reflexivity|].
        split; [intros o []|intros Hr; destruct (Hr eq_refl)].
Qed.

(* in [l], the first deletion of the index or of a chunk file of block [id], if any, is of the index *)
Fixpoint index_goes_first (id : N) (l : list bop) : bool :=
  match l with
  | [] => true
  | Del (i, FIndex) :: r => if N.eqb i id then true else index_goes_first id r
  | Del (i, FChunk _) :: r => if N.eqb i id then false else index_goes_first id r
  | _ :: r => index_goes_first id r
  end.

Lemma index_goes_first_app id E rest :
  index_goes_first id (E ++ rest) = true -> index_goes_first id E = true.
Proof.
  induction E as [|o E IH]; simpl; [reflexivity|]. destruct o as [k v|[i f]]; [exact IH|].
  destruct f; try exact IH; destruct (N.eqb i id); auto.
Qed.

Lemma index_goes_first_In id n : forall E,
  index_goes_first id E = true -> In (Del (id, FChunk n)) E -> In (Del (id, FIndex)) E.
Proof.
  induction E as [|o E IH]; intros Hs Hin; [contradiction|]. destruct Hin as [->|Hin].
  - simpl in Hs. rewrite N.eqb_refl in Hs. discriminate.
  - destruct o as [k v|[i f]]; simpl in Hs; [right; apply IH; assumption|].
    destruct f; try (right; apply IH; assumption);
      (destruct (N.eqb i id) eqn:E'; [|right; apply IH; assumption]).
    + apply N.eqb_eq in E'. subst. left; reflexivity.
    + discriminate.
Qed.

Lemma index_goes_first_order id order tail :
  index_first order = true -> index_goes_first id tail = true ->
  index_goes_first id (map (fun f => Del (id, f)) order ++ tail) = true.
Proof.
  induction order as [|f r IH]; intros Hi Ht; simpl; [exact Ht|].
  destruct f; simpl in *; try (apply IH; assumption); try discriminate.
  rewrite N.eqb_refl. reflexivity.
Qed.

Lemma index_goes_first_delete b id order dels :
  delete_ops std_delete b id order = Some dels -> index_first order = true ->
  index_goes_first id dels = true.
Proof.
  intros H Hi. apply delete_ops_std in H as [_ ->]. unfold del_if.
  destruct (bhas b (id, FMeta)); simpl; apply index_goes_first_order; try exact Hi;
    destruct (bhas b (id, FDelMark)); reflexivity.
Qed.

Theorem repdel_guarded U src dst id (pend : pending) ops ok :
  wf_univ U -> binv U src -> binv U dst ->
  forallb (is_del key obj) (map snd pend) = true -> index_goes_first id (map snd pend) = true ->
  bhas dst (id, FIndex) = false ->
  repdel_ops src dst id pend = (ops, ok) ->
  bguarded U dst ops /\ (ok = true -> bhas (bapply_ops dst ops) (id, FMeta) = true).
Proof.
  intros Hwf [Hag Hco] Hdst Hdel Hfirst Hnoidx H. unfold repdel_ops in H.
  destruct (adv src pend 0) as [s0 p0] eqn:A0. apply adv_spec in A0 as [d0 [-> ->]].
  destruct (adv _ p0 1) as [s1 p1] eqn:A1. apply adv_spec in A1 as [d1 [-> ->]].
  rewrite <- bapply_ops_app in H. rewrite !map_app, app_assoc in Hdel, Hfirst.
  remember (map snd d0 ++ map snd d1) as E eqn:HE0.
  rewrite forallb_app in Hdel. apply andb_true_iff in Hdel as [HdE Hdp]. apply index_goes_first_app in Hfirst.
  (* what the origin shows after the deletions [E], or a part of them, it showed at the start *)
  assert (Hback : forall E' k v, (exists r, E = E' ++ r) -> bget (bapply_ops src E') k = Some v -> bget src k = Some v).
  { intros E' k v [r Hr]. apply (get_some_after_dels key obj key_eqb key_ltb key_eqb_spec).
    rewrite Hr, forallb_app in HdE. apply andb_true_iff in HdE. tauto. }
  destruct (bget (bapply_ops src (map snd d0)) (id, FMeta)) as [om|] eqn:Hm;
    [|inversion H; split; [exact I|discriminate]].
  apply (Hback _ _ _ (ex_intro _ (map snd d1) HE0)) in Hm.
  destruct (Hco _ _ Hm) as [bl [cid [lbl [Hu [-> Hall]]]]].
  destruct (same_content _ (bget dst (id, FMeta))) eqn:Hs.
  { inversion H; subst ops ok. split; [exact I|]. intros _. simpl. apply bhas_true. simpl in Hs.
    destruct (bget dst (id, FMeta)); discriminate. }
  fold (chunk_keys (bapply_ops src E) id) in H. fold (copy_names (bapply_ops src E) id) in H.
  destruct (rd_copy _ dst p1 2 _ []) as [acc res] eqn:Hrd.
  destruct (rd_copy_spec dst _ _ _ _ _ _ _ Hdp Hrd) as [new [-> [Hnew Hdone]]]. simpl in H.
  assert (Hnew' : forall o, In o new -> exists f v, o = Up (id, f) v /\ is_data f = true /\ data_ok U id f v).
  { intros o Ho. destruct (Hnew o Ho) as [k [v [-> [Hk Hg]]]]. apply copy_names_data in Hk as [f [-> Hd]].
    exists f, v. split; [reflexivity|]. split; [exact Hd|].
    apply (proj1 (agree_data_ok U src) Hag _ _ _ Hd), (Hback E); [exists []; symmetry; apply app_nil_r|exact Hg]. }
  destruct res as [r|]; [|inversion H; subst; split; [apply (data_ups_guarded U id), Hnew'|discriminate]].
  inversion H; subst ops ok. clear H. split.
  2:{ intros _. rewrite bapply_ops_app. apply bhas_true. simpl. fold bput. rewrite bget_put_same. discriminate. }
  specialize (Hdone ltac:(discriminate)).
  apply publish_guarded; try assumption. intros f Hf. apply data_file_listed in Hf as [Hd [sz [Hin _]]].
  destruct (Hdone (id, f)) as [Hl|[v Hv]]; [|left; exact Hl|right; exists v; exact Hv].
  (* the origin still showed the file when chunks/ was listed *)
  apply copy_names_cover; [exact Hd|]. specialize (Hall f sz Hin Hd).
  destruct (Hdone (id, FIndex)) as [Hl|[v Hv]];
    [apply in_or_app; right; left; reflexivity|rewrite Hnoidx in Hl; discriminate|].
  destruct (Hnew _ Hv) as [k [v' [Ek [_ Hgi]]]]. inversion Ek; subst k v'. clear Ek.
  assert (Hidx : ~ In (Del (id, FIndex)) E).
  { intros Hin'. unfold bget, bapply_ops in Hgi.
    rewrite (get_none_after_dels key obj key_eqb key_ltb key_eqb_spec E src _ HdE (or_intror Hin')) in Hgi.
    discriminate. }
  unfold bget, bapply_ops. rewrite (get_apply_ops_other key obj key_eqb key_ltb key_eqb_spec).
  - fold (bget src (id, f)). rewrite Hall. discriminate.
  - intros o Ho Ek. rewrite forallb_forall in HdE. specialize (HdE o Ho).
    destruct o as [k' v'|k']; [discriminate|]. simpl in Ek. subst k'.
    destruct f; try discriminate; [exact (Hidx Ho)|]. exact (Hidx (index_goes_first_In id _ E Hfirst Ho)).
Qed.

Lemma combine_prefix {A B} (a : list A) : forall (l : list B), exists rest, l = map snd (combine a l) ++ rest.
Proof.
  induction a as [|x a IH]; intros l; simpl; [exists l; reflexivity|].
  destruct l as [|y l]; [exists []; reflexivity|]. destruct (IH l) as [rest H]. exists rest. simpl. rewrite <- H. reflexivity.
Qed.

Theorem repdel_safe U src dst id sched order dels ops ok :
  wf_univ U -> binv U src -> binv U dst ->
  delete_ops std_delete src id order = Some dels ->
  index_first order = true -> bhas dst (id, FIndex) = false ->
  repdel_ops src dst id (combine sched dels) = (ops, ok) ->
  bguarded U dst ops /\ (ok = true -> bhas (bapply_ops dst ops) (id, FMeta) = true).
Proof.
  intros Hwf Hs Hd Hdel Hi Hn. destruct (combine_prefix sched dels) as [rest Hpre].
  pose proof (dels_forallb id dels (delete_ops_dels _ _ _ _ Hdel)) as Hall.
  pose proof (index_goes_first_delete _ _ _ _ Hdel Hi) as Hfirst. rewrite Hpre in Hall, Hfirst.
  rewrite forallb_app in Hall. apply andb_true_iff in Hall as [Hall _]. apply index_goes_first_app in Hfirst.
  apply repdel_guarded; assumption.
Qed.

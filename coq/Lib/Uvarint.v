(* encoding/binary's unsigned varints, as the models that use them need them:
   the encoder PutUvarint in arithmetic form, and the law that any decoder
   which treats a last byte and a continuation byte the way Uvarint does
   reads back what PutUvarint wrote. The models write the decoder once with
   arithmetic (C12) and once with the bit operations of the Go text (C39);
   each shows its two step equations and takes the law from here. *)
From Coq Require Import PeanoNat NArith List Lia.
Import ListNotations.
Open Scope N_scope.

(* for x >= 0x80 { buf[i] = byte(x)|0x80; x >>= 7; i++ }; buf[i] = byte(x).
   With no fuel left the rest of x is written as it is; for a uint64 that is a
   byte as soon as the fuel is 9 (MaxVarintLen64 - 1). *)
Fixpoint put (fuel : nat) (x : N) : list N :=
  match fuel with
  | O => [x]
  | S f => if x <? 128 then [x] else (x mod 128 + 128) :: put f (x / 128)
  end.

Lemma put_cons fuel x : exists b t, put fuel x = b :: t.
Proof. destruct fuel; cbn [put]; [eauto|]. destruct (x <? 128); eauto. Qed.

Lemma put_length fuel : forall n x,
  x < 2 ^ (7 * N.of_nat (S n)) -> (length (put fuel x) <= S n)%nat.
Proof.
  induction fuel as [|f IH]; intros n x H; cbn [put]; [cbn; lia|].
  destruct (N.ltb_spec x 128) as [_|E]; [cbn; lia|].
  destruct n as [|n]; [change (2 ^ (7 * N.of_nat 1)) with 128 in H; lia|].
  cbn [length]. apply le_n_S, IH.
  replace (7 * N.of_nat (S (S n))) with (7 + 7 * N.of_nat (S n)) in H by lia.
  rewrite N.pow_add_r in H. apply N.div_lt_upper_bound; [discriminate|exact H].
Qed.

(* v * 2^s < 2^64 leaves v fewer than 64 - s bits *)
Lemma bits_left v s k : v * 2 ^ s < 2 ^ 64 -> 2 ^ k <= v -> s + k < 64.
Proof.
  intros Hv Hk. apply (N.pow_lt_mono_r_iff 2); [reflexivity|].
  rewrite N.pow_add_r, N.mul_comm.
  eapply N.le_lt_trans; [apply N.mul_le_mono_r, Hk|exact Hv].
Qed.

Section Decoder.
  Variable R : Type.
  (* byte index, value so far, shift, buffer *)
  Variable go : nat -> N -> N -> list N -> R.
  (* a successful return: value, number of bytes read, rest of the buffer *)
  Variable ret : N -> nat -> list N -> R.

  (* if b < 0x80 { if i == MaxVarintLen64-1 && b > 1 { overflow }; return x | uint64(b)<<s, i+1 } *)
  Hypothesis go_last : forall i x s b r, (i <= 9)%nat -> b < 128 -> (i = 9%nat -> b <= 1) -> x < 2 ^ s ->
    go i x s (b :: r) = ret (x + b * 2 ^ s) (S i) r.
  (* x |= uint64(b&0x7f) << s; s += 7 *)
  Hypothesis go_cont : forall i x s b r, (i <= 9)%nat -> 128 <= b -> x < 2 ^ s ->
    go i x s (b :: r) = go (S i) (x + b mod 128 * 2 ^ s) (s + 7) r.

  (* Reading at byte index i (shift 7i) what [put] wrote for v, when v fits
     into the bits that remain of the uint64 and the fuel reaches the last
     index: the value so far grows by v * 2^s and the bytes after it are left. *)
  Lemma go_put : forall f i v x s tail,
    (i <= 9 <= i + f)%nat -> s = 7 * N.of_nat i -> v * 2 ^ s < 2 ^ 64 -> x < 2 ^ s ->
    go i x s (put f v ++ tail) = ret (x + v * 2 ^ s) (i + length (put f v)) tail.
  Proof.
    assert (Last : forall i v x s tail, (i <= 9)%nat -> s = 7 * N.of_nat i ->
              v * 2 ^ s < 2 ^ 64 -> x < 2 ^ s -> v < 128 ->
              go i x s ([v] ++ tail) = ret (x + v * 2 ^ s) (i + length [v]) tail).
    { intros i v x s tail Hi Hs Hv Hx Hlt. cbn [app length]. rewrite Nat.add_1_r.
      apply go_last; auto. intros ->.
      destruct (N.le_gt_cases v 1) as [|H2]; [assumption|].
      pose proof (bits_left v s 1 Hv ltac:(change (2 ^ 1) with 2; lia)). lia. }
    induction f as [|f IH]; intros i v x s tail Hi Hs Hv Hx; cbn [put].
    - apply Last; auto; [lia|].
      destruct (N.lt_ge_cases v 128) as [|H128]; [assumption|].
      pose proof (bits_left v s 7 Hv H128). lia.
    - destruct (N.ltb_spec v 128) as [Hlt|Hge]; [apply Last; auto; lia|].
      (* the seven bits taken off v and the rest: v = 128 q + m *)
      pose proof (bits_left v s 7 Hv Hge) as Hs7.
      pose proof (N.div_mod v 128 ltac:(discriminate)) as Hdm.
      pose proof (N.mod_lt v 128 ltac:(discriminate)) as Hm.
      set (q := v / 128) in *. set (m := v mod 128) in *.
      assert (Hp : 2 ^ (s + 7) = 128 * 2 ^ s) by (rewrite N.pow_add_r; apply N.mul_comm).
      cbn [app length].
      rewrite go_cont by (auto; lia).
      change (m + 128) with (m + 1 * 128).
      rewrite N.mod_add, (N.mod_small m) by (assumption || discriminate).
      rewrite IH; [|lia|lia| |].
      + f_equal; [|lia]. rewrite Hp, Hdm. ring.
      + rewrite Hp. eapply N.le_lt_trans; [|exact Hv]. rewrite Hdm.
        rewrite N.mul_assoc, (N.mul_comm q). apply N.mul_le_mono_r. lia.
      + rewrite Hp. apply N.lt_le_trans with ((m + 1) * 2 ^ s); [lia|].
        apply N.mul_le_mono_r. lia.
  Qed.

  Lemma get_put f v tail : (9 <= f)%nat -> v < 2 ^ 64 ->
    go 0 0 0 (put f v ++ tail) = ret v (length (put f v)) tail.
  Proof.
    intros Hf Hv. rewrite <- (N.mul_1_r v) in Hv.
    rewrite (go_put f 0 v 0 0 tail); [|lia|reflexivity|exact Hv|reflexivity].
    change (0 + v * 2 ^ 0) with (v * 1). rewrite N.mul_1_r. reflexivity.
  Qed.
End Decoder.

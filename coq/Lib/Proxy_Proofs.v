(* Proofs about the shared proxy model Lib/Proxy_Model.v (C03, C06): chunk
   de-duplication and ordering (chainSeriesAndRemIdenticalChunks), responseDeduplicator
   on a label-sorted stream, "minimal head" k-way merges (sortedness and permutation),
   batchableServer is transparent, sortWithoutLabels re-establishes the precondition of
   the merge, and the whole pipeline given that the merge emits minimal heads. *)
From Coq Require Import ZArith NArith List Bool Lia Permutation Sorted.
Import ListNotations.
From Verif Require Import Lib.ListFacts Lib.Proxy_Order Lib.Proxy_Model.

Section Proofs.
Context {L C K W : Type}
  (lcmp : L -> L -> comparison) (Hl : OrdSpec lcmp)
  (ckey : C -> K) (keqb : K -> K -> bool) (Hk : forall a b, keqb a b = true <-> a = b)
  (cleb : C -> C -> bool) (R : C -> C -> Prop)
  (HR1 : forall c d, cleb c d = true -> R c d) (HR2 : forall c d, cleb c d = false -> R d c)
  (wlen : W -> N).

Notation resp := (@resp L C W).
Notation frame := (@frame L C W).

Definition ser1 (r : resp) : list (L * list C) := match r with RSeries l cs => [(l, cs)] | RWarn _ => [] end.
Definition sers (l : list resp) : list (L * list C) := concat (map ser1 l).
Definition warn1 (r : resp) : list W := match r with RSeries _ _ => [] | RWarn w => [w] end.
Definition warns (l : list resp) : list W := concat (map warn1 l).
Definition lle (a b : L) : Prop := lcmp a b <> Gt.
Definition llt (a b : L) : Prop := lcmp a b = Lt.
(* [lle] is [cle lcmp] of Lib/Proxy_Order.v written out and [llt a b] its [lcmp a b = Lt]:
   the order lemmas there (cle_trans, lt_le_trans, ...) apply to them as they stand *)
Lemma lle_cle : lle = cle lcmp.
Proof. reflexivity. Qed.

Lemma sers_cons x l : sers (x :: l) = ser1 x ++ sers l.
Proof. reflexivity. Qed.
Lemma warns_cons x l : warns (x :: l) = warn1 x ++ warns l.
Proof. reflexivity. Qed.
Lemma sers_app a b : sers (a ++ b) = sers a ++ sers b.
Proof. unfold sers. rewrite map_app, concat_app. reflexivity. Qed.
Lemma warns_app a b : warns (a ++ b) = warns a ++ warns b.
Proof. unfold warns. rewrite map_app, concat_app. reflexivity. Qed.
Lemma sers_concat (ss : list (list resp)) : sers (concat ss) = concat (map sers ss).
Proof. induction ss as [|s r IH]; [reflexivity|]. cbn [concat map]. rewrite sers_app, IH. reflexivity. Qed.
Lemma warns_concat (ss : list (list resp)) : warns (concat ss) = concat (map warns ss).
Proof. induction ss as [|s r IH]; [reflexivity|]. cbn [concat map]. rewrite warns_app, IH. reflexivity. Qed.

Lemma sers_perm (l l' : list resp) : Permutation l l' -> Permutation (sers l) (sers l').
Proof. unfold sers. rewrite <- !flat_map_concat_map. apply Permutation_flat_map. Qed.
Lemma warns_perm (l l' : list resp) : Permutation l l' -> Permutation (warns l) (warns l').
Proof. unfold warns. rewrite <- !flat_map_concat_map. apply Permutation_flat_map. Qed.

Lemma in_sers Y cs l : In (Y, cs) (sers l) <-> In (RSeries Y cs) l.
Proof.
  unfold sers. rewrite <- flat_map_concat_map, in_flat_map. split.
  - intros [[l0 c0|w] [Hr Hin]]; cbn in Hin; [|contradiction]. destruct Hin as [E|[]]. inversion E; subst. exact Hr.
  - intros H. exists (RSeries Y cs). split; [exact H | left; reflexivity].
Qed.
Lemma in_warns w l : In w (warns l) <-> In (RWarn w) l.
Proof.
  unfold warns. rewrite <- flat_map_concat_map, in_flat_map. split.
  - intros [[l0 c0|w0] [Hr Hin]]; cbn in Hin; [contradiction|]. destruct Hin as [<-|[]]. exact Hr.
  - intros H. exists (RWarn w). split; [exact H | left; reflexivity].
Qed.

Lemma key_dec (a b : K) : a = b \/ a <> b.
Proof. destruct (keqb a b) eqn:E; [left; apply Hk; exact E | right; intros H; apply Hk in H; congruence]. Qed.

Lemma existsb_keqb k seen : existsb (keqb k) seen = true <-> In k seen.
Proof.
  rewrite existsb_exists. split.
  - intros [x [Hin Hx]]. apply Hk in Hx. subst. exact Hin.
  - intros H. exists k. split; [exact H | apply Hk; reflexivity].
Qed.

Lemma dedup_keys_spec cs : forall seen,
  NoDup (map ckey (dedup_keys ckey keqb seen cs))
  /\ (forall k, In k (map ckey (dedup_keys ckey keqb seen cs)) <-> In k (map ckey cs) /\ ~ In k seen)
  /\ incl (dedup_keys ckey keqb seen cs) cs.
Proof.
  induction cs as [|c r IH]; intros seen; cbn [dedup_keys map].
  - split; [constructor|]. split; [|apply incl_refl]. intros k. cbn. tauto.
  - destruct (existsb (keqb (ckey c)) seen) eqn:E.
    + apply existsb_keqb in E. destruct (IH seen) as (N & I & S). split; [exact N|]. split; [|apply incl_tl; exact S].
      intros k. split.
      * intros H. apply I in H as [H1 H2]. split; [right; exact H1 | exact H2].
      * intros [[<-|H] H2]; [contradiction|]. apply I. split; assumption.
    + assert (Hn : ~ In (ckey c) seen) by (rewrite <- existsb_keqb, E; discriminate).
      destruct (IH (ckey c :: seen)) as (N & I & S). split; [|split].
      * cbn [map]. constructor; [|exact N]. intros H. apply I in H as [_ H]. apply H. left. reflexivity.
      * intros k. cbn [map In]. split.
        -- intros [<-|H]; [split; [left; reflexivity | exact Hn]|]. apply I in H as [H1 H2].
           split; [right; exact H1 | intros H3; apply H2; right; exact H3].
        -- intros [[H|H] H2]; [left; exact H|]. destruct (key_dec (ckey c) k) as [D|D]; [left; exact D|].
           right. apply I. split; [exact H | intros [H3|H3]; [exact (D H3) | exact (H2 H3)]].
      * intros x [Hx|Hx]; [left; exact Hx | right; apply S; exact Hx].
Qed.

Lemma csort_isort l : csort cleb l = isort cleb l.
Proof.
  assert (Hi : forall c l', cinsert cleb c l' = ins cleb c l').
  { intros c l'. induction l' as [|d r IH]; cbn; [|rewrite IH]; reflexivity. }
  unfold csort, isort. induction l as [|c r IH]; cbn [fold_right]; [|rewrite IH, Hi]; reflexivity.
Qed.

(* the chunk list that chain produces from all chunks of a label set *)
Definition chained (cs : list C) : list C := csort cleb (dedup_keys ckey keqb [] cs).

Lemma chained_spec cs :
  Sorted R (chained cs) /\ NoDup (map ckey (chained cs))
  /\ (forall k, In k (map ckey (chained cs)) <-> In k (map ckey cs))
  /\ incl (chained cs) cs.
Proof.
  unfold chained. rewrite csort_isort. destruct (dedup_keys_spec cs []) as (N & I & S).
  pose proof (isort_perm cleb (dedup_keys ckey keqb [] cs)) as P.
  split; [apply (isort_Sorted cleb R HR1 HR2)|]. split; [|split].
  - eapply Permutation_NoDup; [apply Permutation_sym, Permutation_map, P | exact N].
  - intros k. split.
    + intros H. apply (Permutation_in _ (Permutation_map ckey P)) in H. apply I in H. tauto.
    + intros H. apply (Permutation_in _ (Permutation_sym (Permutation_map ckey P))). apply I. cbn. tauto.
  - intros x Hx. apply S. eapply Permutation_in; [exact P | exact Hx].
Qed.

Definition leqb (a b : L) : bool := match lcmp a b with Eq => true | _ => false end.
Lemma leqb_eq a b : leqb a b = true <-> a = b.
Proof. unfold leqb. rewrite <- (cmp_eq _ Hl). destruct (lcmp a b); split; congruence. Qed.
Lemma leqb_refl a : leqb a a = true.
Proof. apply leqb_eq. reflexivity. Qed.

(* all chunks that the series labelled X carry in s, in order *)
Definition chunks_of (X : L) (s : list (L * list C)) : list C :=
  concat (map (fun p => if leqb (fst p) X then snd p else []) s).

(* adjacent grouping as responseDeduplicator.Next does it (before chaining) *)
Fixpoint group (pending : option (L * list C)) (s : list (L * list C)) : list (L * list C) :=
  match s with
  | [] => match pending with Some g => [g] | None => [] end
  | (lb, cs) :: r =>
      match pending with
      | None => group (Some (lb, cs)) r
      | Some (pl, pcs) =>
          match lcmp pl lb with
          | Eq => group (Some (pl, pcs ++ cs)) r
          | _ => (pl, pcs) :: group (Some (lb, cs)) r
          end
      end
  end.
Definition chainS (g : L * list C) : L * list C := (fst g, chained (snd g)).
Definition olist (p : option (L * list C)) : list (L * list C) := match p with Some g => [g] | None => [] end.

Lemma dedup_sers l : forall p, sers (dedup lcmp ckey keqb cleb p l) = map chainS (group p (sers l)).
Proof.
  induction l as [|[lb cs|w] r IH]; intros p; cbn [dedup].
  - destruct p; reflexivity.
  - rewrite (sers_cons (RSeries lb cs)). cbn [ser1 app group]. destruct p as [[pl pcs]|]; [|apply IH].
    destruct (lcmp pl lb); try apply IH; rewrite sers_cons, IH; reflexivity.
  - rewrite !sers_cons. apply IH.
Qed.

Lemma dedup_warns l : forall p, warns (dedup lcmp ckey keqb cleb p l) = warns l.
Proof.
  induction l as [|[lb cs|w] r IH]; intros p; cbn [dedup].
  - destruct p; reflexivity.
  - rewrite (warns_cons (RSeries lb cs)). cbn [warn1 app]. destruct p as [[pl pcs]|]; [|apply IH].
    destruct (lcmp pl lb); try apply IH; rewrite warns_cons; apply IH.
  - rewrite !warns_cons, IH. reflexivity.
Qed.

Lemma chunks_of_cons X Y cs s : chunks_of X ((Y, cs) :: s) = (if leqb Y X then cs else []) ++ chunks_of X s.
Proof. reflexivity. Qed.

Lemma chunks_of_nil X s : (forall Y, In Y (map fst s) -> leqb Y X = false) -> chunks_of X s = [].
Proof.
  induction s as [|[Y cs] r IH]; intros H; [reflexivity|].
  rewrite chunks_of_cons, (H Y) by (left; reflexivity). apply IH. intros Z HZ. apply H. right. exact HZ.
Qed.

Lemma chunks_of_in X s c : In c (chunks_of X s) <-> exists cs, In (X, cs) s /\ In c cs.
Proof.
  unfold chunks_of. rewrite in_concat. split.
  - intros [l [Hl' Hc]]. apply in_map_iff in Hl' as [[Y cs] [E Hin]]. cbn [fst snd] in E.
    destruct (leqb Y X) eqn:Q; subst l; [|contradiction]. apply leqb_eq in Q. subst Y. exists cs. tauto.
  - intros [cs [Hin Hc]]. exists cs. split; [|exact Hc]. apply in_map_iff. exists (X, cs).
    cbn [fst snd]. rewrite leqb_refl. tauto.
Qed.

Lemma llt_leqb_false a b : llt a b -> leqb a b = false /\ leqb b a = false.
Proof. unfold llt, leqb. intros H. rewrite (cmp_opp _ Hl a b), H. split; reflexivity. Qed.

Lemma llt_sorted_ext (l1 l2 : list L) :
  StronglySorted llt l1 -> StronglySorted llt l2 -> (forall x, In x l1 <-> In x l2) -> l1 = l2.
Proof.
  assert (Irr : forall a, ~ llt a a) by (intros a; unfold llt; rewrite (ord_refl _ Hl); discriminate).
  pose proof (fun l => StronglySorted_NoDup llt l Irr) as Nd.
  intros H1 H2 Hin. apply (StronglySorted_perm_eq llt); [|apply NoDup_Permutation; auto|exact H1|exact H2].
  intros x y _ _ A B. exfalso. exact (Irr x (cmp_lt_trans _ Hl _ _ _ A B)).
Qed.

(* on a label-sorted stream equal label sets are adjacent, so a group holds all chunks of
   its label set and the groups come out strictly sorted *)
Lemma group_spec s : forall p,
  StronglySorted lle (map fst (olist p ++ s)) ->
  StronglySorted llt (map fst (group p s))
  /\ (forall X cs, In (X, cs) (group p s) -> cs = chunks_of X (olist p ++ s))
  /\ (forall X, In X (map fst (group p s)) <-> In X (map fst (olist p ++ s))).
Proof.
  induction s as [|[lb cs] r IH]; intros p Hs.
  - destruct p as [[pl pcs]|]; cbn [group olist app map fst].
    + split; [repeat constructor|]. split; [|reflexivity].
      intros X cs' [H|[]]. inversion H; subst. rewrite chunks_of_cons, leqb_refl. symmetry. apply app_nil_r.
    + split; [constructor|]. split; [intros X cs' []|reflexivity].
  - destruct p as [[pl pcs]|]; [|exact (IH (Some (lb, cs)) Hs)].
    cbn [group olist app map fst] in *.
    apply StronglySorted_inv in Hs as [Hs' Hf]. rewrite Forall_forall in Hf.
    destruct (lcmp pl lb) eqn:E.
    + apply (cmp_eq _ Hl) in E. subst lb.
      destruct (IH (Some (pl, pcs ++ cs))) as (I1 & I2 & I3).
      { apply StronglySorted_inv in Hs' as [Hs' _]. constructor; [exact Hs'|].
        apply Forall_forall. intros Y HY. apply Hf. right. exact HY. }
      cbn [olist app map fst] in I2, I3. split; [exact I1|]. split.
      * intros X cs' Hin. rewrite (I2 X cs' Hin), !chunks_of_cons.
        destruct (leqb pl X); cbn [app]; [rewrite app_assoc|]; reflexivity.
      * intros X. split; [intros H; apply I3 in H as [H|H]; [left|right; right]; exact H|].
        intros [H|[H|H]]; apply I3; [left|left|right]; exact H.
    + destruct (IH (Some (lb, cs)) Hs') as (I1 & I2 & I3). cbn [olist app map fst] in I2, I3.
      assert (Hall : forall Y, In Y (lb :: map fst r) -> llt pl Y).
      { intros Y HY. apply (lt_le_trans _ Hl _ lb); [exact E|].
        destruct HY as [<-|HY]; [apply (cle_refl _ Hl)|].
        apply StronglySorted_inv in Hs' as [_ Hf2]. rewrite Forall_forall in Hf2. apply Hf2. exact HY. }
      split; [|split].
      * cbn [map fst]. constructor; [exact I1|]. apply Forall_forall. intros X HX. apply Hall, I3, HX.
      * intros X cs' [H|H].
        -- inversion H; subst X cs'. rewrite chunks_of_cons, leqb_refl, chunks_of_nil; [symmetry; apply app_nil_r|].
           intros Y HY. apply (llt_leqb_false pl Y), Hall, HY.
        -- rewrite (I2 X cs' H), (chunks_of_cons X pl).
           assert (HX : llt pl X) by (apply Hall, I3, in_map_iff; exists (X, cs'); split; [reflexivity|exact H]).
           rewrite (proj1 (llt_leqb_false _ _ HX)). reflexivity.
      * intros X. cbn [map fst In]. split; intros [H|H]; [left; exact H | right; apply I3, H | left; exact H | right; apply I3, H].
    + exfalso. apply (Hf lb); [left; reflexivity | exact E].
Qed.

(* the de-duplicator alone, on any label-sorted stream *)
Lemma dedup_spec (l : list resp) :
  StronglySorted lle (map fst (sers l)) ->
  let outs := sers (dedup lcmp ckey keqb cleb None l) in
  StronglySorted llt (map fst outs)
  /\ (forall X cs, In (X, cs) outs -> cs = chained (chunks_of X (sers l)))
  /\ (forall X, In X (map fst outs) <-> In X (map fst (sers l)))
  /\ warns (dedup lcmp ckey keqb cleb None l) = warns l.
Proof.
  intros Hs. cbv zeta. rewrite dedup_sers.
  destruct (group_spec (sers l) None Hs) as (G1 & G2 & G3). cbn [olist app] in G2, G3.
  assert (Hfst : map fst (map chainS (group None (sers l))) = map fst (group None (sers l))).
  { rewrite map_map. apply map_ext. intros [a b]. reflexivity. }
  rewrite Hfst. split; [exact G1|]. split; [|split; [exact G3 | apply dedup_warns]].
  intros X cs HX. apply in_map_iff in HX as [[X' cs0] [E HX]]. inversion E; subst.
  rewrite (G2 _ _ HX). reflexivity.
Qed.

(* the abstract k-way merge: at every step some stream whose head is not greater
   (w.r.t. the loser tree's less) than any other head is advanced *)
Inductive min_run : list (list resp) -> list resp -> Prop :=
| mr_done ss : (forall s, In s ss -> s = []) -> min_run ss []
| mr_step ss i x rest out :
    nth_error ss i = Some (x :: rest) ->
    (forall j y r, nth_error ss j = Some (y :: r) -> rless lcmp wlen y x = false) ->
    min_run (upd i rest ss) out -> min_run ss (x :: out).

Lemma in_upd {A} (v : A) l : forall i x, In x (upd i v l) -> x = v \/ In x l.
Proof.
  induction l as [|y r IH]; intros i x H; [destruct i; contradiction|].
  destruct i; cbn in H.
  - destruct H as [H|H]; [left; symmetry; exact H | right; right; exact H].
  - destruct H as [H|H]; [right; left; exact H|]. destruct (IH _ _ H); [left|right; right]; assumption.
Qed.

Lemma concat_upd_perm (ss : list (list resp)) : forall i x rest,
  nth_error ss i = Some (x :: rest) -> Permutation (concat ss) (x :: concat (upd i rest ss)).
Proof.
  induction ss as [|s r IH]; intros i x rest H; [destruct i; discriminate|].
  destruct i; cbn in H.
  - inversion H; subst. cbn. apply Permutation_refl.
  - cbn [upd concat]. eapply perm_trans; [apply Permutation_app_head; apply IH; exact H|].
    apply Permutation_sym. apply Permutation_middle.
Qed.

Lemma min_run_perm ss out : min_run ss out -> Permutation out (concat ss).
Proof.
  induction 1 as [ss Hall | ss i x rest out Hn Hmin Hr IH].
  - assert (concat ss = []) as ->; [|constructor].
    induction ss as [|s r IHs]; [reflexivity|]. cbn. rewrite (Hall s) by (left; reflexivity).
    apply IHs. intros s' Hs'. apply Hall. right. exact Hs'.
  - eapply perm_trans; [apply perm_skip; exact IH|]. apply Permutation_sym. apply concat_upd_perm. exact Hn.
Qed.

Definition streams_sorted (ss : list (list resp)) : Prop :=
  forall s, In s ss -> StronglySorted lle (map fst (sers s)).

Lemma min_run_sorted ss out : min_run ss out -> streams_sorted ss -> StronglySorted lle (map fst (sers out)).
Proof.
  induction 1 as [ss Hall | ss i x rest out Hn Hmin Hr IH]; intros Hs; [constructor|].
  pose proof (nth_error_In _ _ Hn) as Hi.
  assert (Hs' : streams_sorted (upd i rest ss)).
  { intros s Hin. apply in_upd in Hin as [->|Hin]; [|apply Hs; exact Hin].
    specialize (Hs _ Hi). rewrite sers_cons, map_app in Hs. exact (proj1 (proj2 (StronglySorted_app_inv _ _ _ Hs))). }
  specialize (IH Hs'). destruct x as [lx cx|w]; [|exact IH].
  rewrite sers_cons. cbn [ser1 app map fst]. constructor; [exact IH|]. apply Forall_forall. intros Y HY.
  apply in_map_iff in HY as [[Y' cs] [<- HY]]. apply in_sers in HY. cbn [fst].
  (* the series sits in a stream of ss (the advanced one or another), whose head is not less than x *)
  assert (exists y0 r0, In (y0 :: r0) ss /\ In (RSeries Y' cs) (y0 :: r0)) as (y0 & r0 & Hin0 & HY0).
  { apply (Permutation_in _ (min_run_perm _ _ Hr)) in HY. apply in_concat in HY as [s' [Hs'in HY]].
    apply in_upd in Hs'in as [->|Hs'in]; [exists (RSeries lx cx), rest; split; [exact Hi | right; exact HY]|].
    destruct s' as [|y0 r0]; [contradiction|]. exists y0, r0. split; assumption. }
  destruct (In_nth_error _ _ Hin0) as [j Hj]. specialize (Hmin _ _ _ Hj). specialize (Hs _ Hin0).
  destruct y0 as [l0 c0|w0]; [|cbn in Hmin; discriminate].
  cbn in Hmin. rewrite sers_cons in Hs. cbn [ser1 app map fst] in Hs. apply StronglySorted_inv in Hs as [_ Hf].
  assert (H0 : lle lx l0) by (apply (not_lt_cle _ Hl); intros E; rewrite E in Hmin; discriminate).
  destruct HY0 as [HY0|HY0]; [inversion HY0; subst; exact H0|].
  apply (cle_trans _ Hl _ l0); [exact H0|]. rewrite Forall_forall in Hf. apply Hf.
  apply in_map_iff. exists (Y', cs). split; [reflexivity|]. apply in_sers. exact HY0.
Qed.

Lemma flatten_frames_app (a b : list frame) : flatten_frames (a ++ b) = flatten_frames a ++ flatten_frames b.
Proof. unfold flatten_frames. rewrite map_app, concat_app. reflexivity. Qed.

Definition pend_resps (p : list (L * list C)) : list resp := map (fun q => RSeries (fst q) (snd q)) p.

Lemma batch_send_spec n l : forall pending fs p,
  batch_send n pending l = (fs, p) ->
  flatten_frames fs ++ pend_resps p = pend_resps pending ++ l.
Proof.
  induction l as [|x r IH]; intros pending fs p H; cbn [batch_send] in H.
  - inversion H; subst. cbn. rewrite app_nil_r. reflexivity.
  - destruct x as [lb cs|w].
    + destruct (n <=? length (pending ++ [(lb, cs)]))%nat.
      * destruct (batch_send n [] r) as [fs' p'] eqn:E. inversion H; subst.
        specialize (IH _ _ _ E). cbn [pend_resps map app] in IH.
        change (flatten_frames (FBatch (pending ++ [(lb, cs)]) :: fs'))
          with (pend_resps (pending ++ [(lb, cs)]) ++ flatten_frames fs').
        rewrite <- app_assoc, IH. unfold pend_resps. rewrite map_app, <- app_assoc. reflexivity.
      * specialize (IH _ _ _ H). rewrite IH. unfold pend_resps. rewrite map_app, <- app_assoc. reflexivity.
    + destruct (batch_send n [] r) as [fs' p'] eqn:E. inversion H; subst.
      specialize (IH _ _ _ E). cbn [pend_resps map app] in IH.
      rewrite flatten_frames_app.
      change (flatten_frames (FWarn w :: fs')) with (RWarn w :: flatten_frames fs').
      rewrite <- app_assoc. cbn [app]. rewrite IH.
      destruct pending as [|q pending']; [reflexivity|].
      change (flatten_frames [FBatch (q :: pending')]) with (pend_resps (q :: pending') ++ []).
      rewrite app_nil_r. reflexivity.
Qed.

Lemma unbatch_send_all n (l : list resp) : unbatch (send_all n true l) = l.
Proof.
  unfold unbatch, send_all. destruct (n <=? 1)%nat.
  - induction l as [|x r IH]; [reflexivity|]. cbn [map].
    change (flatten_frames (passthrough x :: map passthrough r)) with (flatten_frame (passthrough x) ++ flatten_frames (map passthrough r)).
    rewrite IH. destruct x; reflexivity.
  - destruct (batch_send n [] l) as [fs p] eqn:E. pose proof (batch_send_spec _ _ _ _ _ E) as H.
    cbn [pend_resps map app] in H. rewrite flatten_frames_app, <- H. f_equal.
    destruct p as [|q p']; [reflexivity|].
    change (flatten_frames [FBatch (q :: p')]) with (pend_resps (q :: p') ++ []). apply app_nil_r.
Qed.

Definition rleP (a b : resp) : Prop := rle lcmp a b = true.

Lemma rle_total (a b : resp) : rle lcmp a b = false -> rleP b a.
Proof.
  unfold rleP. destruct a as [la ca|wa], b as [lb cb|wb]; cbn; try congruence.
  rewrite (cmp_opp _ Hl la lb). destruct (lcmp la lb); cbn; congruence.
Qed.

Lemma rleP_trans a b c : rleP a b -> rleP b c -> rleP a c.
Proof.
  unfold rleP. destruct a as [la ca|wa], b as [lb cb|wb], c as [lc cc|wc]; cbn; try congruence.
  intros H1 H2.
  assert (lle la lb) by (intros G; rewrite G in H1; discriminate).
  assert (lle lb lc) by (intros G; rewrite G in H2; discriminate).
  pose proof (cle_trans _ Hl _ _ _ H H0) as T. unfold cle in T. destruct (lcmp la lc); congruence.
Qed.

Lemma rsort_isort (l : list resp) : rsort lcmp l = isort (rle lcmp) l.
Proof.
  assert (Hi : forall (x : resp) l', rinsert lcmp x l' = ins (rle lcmp) x l').
  { intros x l'. induction l' as [|y r IH]; cbn; [|rewrite IH]; reflexivity. }
  unfold rsort, isort. induction l as [|x r IH]; cbn [fold_right]; [|rewrite IH, Hi]; reflexivity.
Qed.

Lemma ssorted_rle_sers l : StronglySorted rleP l -> StronglySorted lle (map fst (sers l)).
Proof.
  induction 1 as [|x r Hs IH Hf]; [constructor|].
  destruct x as [lx cx|w]; [|exact IH].
  rewrite sers_cons. cbn [ser1 app map fst].
  constructor; [exact IH|]. apply Forall_forall. intros Y HY.
  apply in_map_iff in HY as [[Y' cs] [<- HY]]. apply in_sers in HY. cbn [fst].
  rewrite Forall_forall in Hf. specialize (Hf _ HY). unfold rleP in Hf. cbn in Hf.
  intros G. rewrite G in Hf. discriminate.
Qed.

Lemma sort_without_labels_sorted rm l : StronglySorted lle (map fst (sers (sort_without_labels lcmp rm l))).
Proof.
  unfold sort_without_labels. rewrite rsort_isort. apply ssorted_rle_sers.
  apply Sorted_StronglySorted; [exact rleP_trans|]. apply isort_Sorted; [trivial | exact rle_total].
Qed.

(* the function that [sort_without_labels] of Lib/Proxy_Model.v maps over its input before sorting *)
Definition rm_resp (rm : L -> L) (r : resp) : resp := match r with RSeries lb cs => RSeries (rm lb) cs | _ => r end.
Lemma sort_without_labels_perm rm l : Permutation (sort_without_labels lcmp rm l) (map (rm_resp rm) l).
Proof. unfold sort_without_labels. rewrite rsort_isort. apply isort_perm. Qed.

Lemma sers_map_rm rm (l : list resp) : sers (map (rm_resp rm) l) = map (fun p => (rm (fst p), snd p)) (sers l).
Proof.
  induction l as [|x r IH]; [reflexivity|]. cbn [map]. rewrite !sers_cons, map_app, IH. destruct x; reflexivity.
Qed.
Lemma warns_map_rm rm (l : list resp) : warns (map (rm_resp rm) l) = warns l.
Proof.
  induction l as [|x r IH]; [reflexivity|]. cbn [map]. rewrite !warns_cons, IH. destruct x; reflexivity.
Qed.

Notation script := (@script L C W).

(* what the store's stream delivers: its frames, then the warning made of a Recv error
   (the [rs] that [resp_set] of Lib/Proxy_Model.v binds) *)
Definition rsent (s : script) : list resp :=
  flatten_frames (sframes s) ++ match send s with EEof => [] | ERecvErr w => [RWarn w] end.

Lemma rsent_eof s : send s = EEof -> rsent s = flatten_frames (sframes s).
Proof. unfold rsent. intros ->. apply app_nil_r. Qed.
Lemma sers_rsent s : sers (rsent s) = sers (flatten_frames (sframes s)).
Proof. unfold rsent. rewrite sers_app. destruct (send s); apply app_nil_r. Qed.

(* lazy or eager, re-sorted or not: the merge reads what the store sent, up to order, with
   the replica labels removed where the proxy has to do that itself *)
Lemma resp_set_perm lazy wrl rm (s : script) :
  Permutation (resp_set lcmp lazy wrl rm s)
              (map (rm_resp (if negb (ssupports s) && wrl then rm else fun l => l)) (rsent s)).
Proof.
  unfold resp_set. cbv zeta. fold (rsent s).
  destruct (negb (ssupports s) && wrl); [apply sort_without_labels_perm|].
  destruct lazy; [|apply sort_without_labels_perm].
  rewrite <- (map_id (rsent s)) at 1. apply Permutation_refl'. apply map_ext. intros []; reflexivity.
Qed.

(* the series a store sent, with the labels the proxy presents them under *)
Definition presented (wrl : bool) (rm : L -> L) (s : script) : list (L * list C) :=
  map (fun p => (if negb (ssupports s) && wrl then rm (fst p) else fst p, snd p)) (sers (flatten_frames (sframes s))).

Lemma resp_set_sers lazy wrl rm (s : script) :
  Permutation (sers (resp_set lcmp lazy wrl rm s)) (presented wrl rm s).
Proof.
  eapply perm_trans; [apply sers_perm, resp_set_perm|]. rewrite sers_map_rm, sers_rsent.
  unfold presented. destruct (negb (ssupports s) && wrl); apply Permutation_refl.
Qed.

Lemma resp_set_warns lazy wrl rm (s : script) :
  Permutation (warns (resp_set lcmp lazy wrl rm s)) (warns (rsent s)).
Proof. eapply perm_trans; [apply warns_perm, resp_set_perm|]. rewrite warns_map_rm. apply Permutation_refl. Qed.

(* which streams meet the merge's precondition: re-sorted ones always, lazily forwarded
   ones when the store sent its series sorted by labels *)
Lemma resp_set_sorted lazy wrl rm (s : script) :
  (lazy = true -> negb (ssupports s) && wrl = false ->
     StronglySorted lle (map fst (sers (flatten_frames (sframes s))))) ->
  StronglySorted lle (map fst (sers (resp_set lcmp lazy wrl rm s))).
Proof.
  intros H. unfold resp_set. cbv zeta. fold (rsent s).
  destruct (negb (ssupports s) && wrl); [apply sort_without_labels_sorted|].
  destruct lazy; [|apply sort_without_labels_sorted]. rewrite sers_rsent. apply H; reflexivity.
Qed.

Lemma concat_map_perm {A B} (f g : A -> list B) l :
  (forall x, In x l -> Permutation (f x) (g x)) -> Permutation (concat (map f l)) (concat (map g l)).
Proof.
  induction l as [|x r IH]; intros H; [constructor|]. cbn [map concat].
  apply Permutation_app; [apply H; left; reflexivity | apply IH; intros y Hy; apply H; right; exact Hy].
Qed.

Lemma open_all_none (ss : list script) :
  (forall s, In s ss -> sopen_err s = None) -> open_all false ss = Some ([], ss).
Proof.
  induction ss as [|s r IH]; intros H; [reflexivity|]. cbn [open_all].
  rewrite (H s) by (left; reflexivity). rewrite IH by (intros x Hx; apply H; right; exact Hx). reflexivity.
Qed.

Lemma series_loop_all lbreak limit (l : list resp) : forall i,
  (forall j, lbreak limit j = false) -> series_loop lbreak false limit i l = (l, false).
Proof.
  induction l as [|x r IH]; intros i H; [reflexivity|]. cbn [series_loop]. rewrite H, IH by exact H.
  destruct x; reflexivity.
Qed.

Theorem pipeline_spec lbreak lazy wrl rm limit batch (scripts : list script) :
  (forall i, lbreak limit i = false) ->
  (forall s, In s scripts -> sopen_err s = None /\ send s = EEof) ->
  let streams := map (resp_set lcmp lazy wrl rm) scripts in
  streams_sorted streams ->
  min_run streams (lt_merge lcmp wlen streams) ->
  exists frames,
    proxy_series lcmp ckey keqb cleb wlen lbreak lazy wrl false false rm limit batch scripts = Some frames
    /\ let outs := sers (unbatch frames) in
       let ins := concat (map (presented wrl rm) scripts) in
       StronglySorted llt (map fst outs)
       /\ (forall X cs, In (X, cs) outs ->
             Sorted R cs /\ NoDup (map ckey cs)
             /\ forall k, In k (map ckey cs) <-> exists cs', In (X, cs') ins /\ In k (map ckey cs'))
       /\ (forall X, In X (map fst outs) <-> In X (map fst ins))
       /\ Permutation (warns (unbatch frames)) (concat (map (fun s => warns (flatten_frames (sframes s))) scripts)).
Proof.
  intros Hlim Hok streams Hsorted Hrun.
  unfold proxy_series. rewrite open_all_none by (intros s Hs; apply Hok; exact Hs).
  fold streams. set (merged := lt_merge lcmp wlen streams) in *.
  rewrite series_loop_all by exact Hlim. cbn [map app].
  eexists. split; [reflexivity|]. cbv zeta. rewrite unbatch_send_all.
  pose proof (min_run_perm _ _ Hrun) as Hperm.
  destruct (dedup_spec merged (min_run_sorted _ _ Hrun Hsorted)) as (D1 & D2 & D3 & D4).
  (* the merged stream carries the series of all stores, as presented *)
  assert (Hin : Permutation (sers merged) (concat (map (presented wrl rm) scripts))).
  { eapply perm_trans; [apply sers_perm; exact Hperm|]. rewrite sers_concat. unfold streams. rewrite map_map.
    apply concat_map_perm. intros s _. apply resp_set_sers. }
  split; [exact D1|]. split; [|split].
  - intros X cs HX. rewrite (D2 X cs HX).
    destruct (chained_spec (chunks_of X (sers merged))) as (S1 & S2 & S3 & _). split; [exact S1|]. split; [exact S2|].
    intros k. rewrite S3, in_map_iff. split.
    + intros [c [<- Hc]]. apply chunks_of_in in Hc as [cs' [Hcs' Hc]]. exists cs'.
      split; [exact (Permutation_in _ Hin Hcs') | apply in_map; exact Hc].
    + intros [cs' [Hcs' Hk']]. apply in_map_iff in Hk' as [c [Ek Hc]]. exists c. split; [exact Ek|].
      apply chunks_of_in. exists cs'. split; [exact (Permutation_in _ (Permutation_sym Hin) Hcs') | exact Hc].
  - intros X. rewrite D3. split; apply Permutation_in, Permutation_map; [|apply Permutation_sym]; exact Hin.
  - rewrite D4. eapply perm_trans; [apply warns_perm; exact Hperm|]. rewrite warns_concat. unfold streams.
    rewrite map_map. apply concat_map_perm. intros s Hs. rewrite <- (rsent_eof s) by (apply Hok; exact Hs).
    apply resp_set_warns.
Qed.

End Proofs.

(* When the constructor of the shared ketama model succeeds, independently of any
   generated source facts: it never exhausts its budget, the original loop diverges
   where the repaired one errs, and it builds a ring whenever every zone can hold
   its share ceil(rf / zones) of the replicas (in particular with a single zone).
   Used by Proofs/C19.v, Proofs/C19_Balanced.v and Proofs/C20_Loop.v. *)
From Coq Require Import ZArith List Bool Lia Arith Permutation.
Import ListNotations.
From Verif Require Import Lib.ListFacts Lib.Hashring_Ketama Lib.Hashring_KetamaFacts
  Lib.Hashring_Answers.

Lemma ketama_new_total eps rf : ketama_new eps rf <> KFuel.
Proof.
  unfold ketama_new, ketama_new_fuel, calc_replicas. destruct (length eps <? rf); [discriminate|].
  destruct (calc_from _ _ _ _ _ _) eqn:C; try discriminate.
  exfalso. revert C. apply calc_from_total.
  unfold walk_fuel. rewrite sort_sections_length. lia.
Qed.

Lemma ketama_err_original_diverges eps rf :
  rf <= length eps -> ketama_new eps rf = KErr ->
  forall fuel, ketama_new_fuel false fuel eps rf = KFuel.
Proof.
  intros Hle H fuel. unfold ketama_new in H. rewrite ketama_new_fuel_enough in * by exact Hle.
  set (ring := sort_sections (sections_of 0 eps)) in *. simpl in *.
  destruct (calc_from true _ ring rf _ _) eqn:C; try discriminate.
  assert (Hne : ring <> []) by (intros E; rewrite E in C; discriminate).
  rewrite (calc_err_diverges ring rf _ Hne _ _ C fuel). reflexivity.
Qed.

Lemma all_or_ex {A} (f : A -> bool) l :
  (forall x, In x l -> f x = true) \/ exists x, In x l /\ f x = false.
Proof.
  induction l as [|a l [IH|[x [Hx Fx]]]].
  - left. intros x [].
  - destruct (f a) eqn:E; [left|right; exists a; split; [now left|exact E]].
    intros x [<-|Hx]; auto.
  - right. exists x. split; [now right|exact Fx].
Qed.

Lemma argmin_exists {A} (f : A -> nat) l : l <> [] ->
  exists a, In a l /\ forall b, In b l -> f a <= f b.
Proof.
  induction l as [|x l IH]; intro Hne; [congruence|]. destruct l as [|y l'].
  - exists x. split; [now left|]. intros b [<-|[]]. lia.
  - destruct IH as [a [Ha Hm]]; [discriminate|].
    destruct (le_lt_dec (f x) (f a)) as [L|L].
    + exists x. split; [now left|]. intros b [<-|Hb]; [lia|]. specialize (Hm b Hb). lia.
    + exists a. split; [now right|]. intros b [<-|Hb]; [lia|auto].
Qed.

Lemma smin_ge sp m : NoDup (map fst sp) -> (m <= MaxInt64)%Z ->
  (forall a, In a (map fst sp) -> (m <= sget sp a)%Z) -> (m <= smin sp)%Z.
Proof.
  unfold smin. induction sp as [|[a c] r IH]; simpl; intros Hnd Hm H; [exact Hm|].
  inversion Hnd as [|? ? Hn Hnd']; subst.
  apply Z.min_glb.
  - specialize (H a (or_introl eq_refl)). rewrite Z.eqb_refl in H. exact H.
  - apply IH; [exact Hnd'|exact Hm|]. intros b Hb. specialize (H b (or_intror Hb)).
    destruct (Z.eqb_spec a b) as [->|_]; [contradiction|exact H].
Qed.

Fixpoint count_sum (eps : list (Z * list Z)) (reps : list nat) (azs : list Z) : nat :=
  match azs with
  | [] => 0
  | a :: r => zone_count eps reps a + count_sum eps reps r
  end.

Lemma count_sum_nil eps azs : count_sum eps [] azs = 0.
Proof. induction azs; simpl; [reflexivity|]. exact IHazs. Qed.

Lemma count_sum_snoc_notin eps reps e azs : ~ In (az_of eps e) azs ->
  count_sum eps (reps ++ [e]) azs = count_sum eps reps azs.
Proof.
  induction azs as [|b r IHr]; simpl; intro Hn; [reflexivity|].
  rewrite zone_count_snoc. destruct (Z.eqb_spec (az_of eps e) b) as [Eb|_].
  - exfalso. apply Hn. now left.
  - rewrite IHr; [lia|]. intro. apply Hn. now right.
Qed.

Lemma count_sum_snoc eps reps e azs : NoDup azs -> In (az_of eps e) azs ->
  count_sum eps (reps ++ [e]) azs = S (count_sum eps reps azs).
Proof.
  induction azs as [|a r IH]; simpl; intros Hnd Hin; [contradiction|].
  inversion Hnd as [|? ? Hn Hnd']; subst. rewrite zone_count_snoc.
  destruct (Z.eqb_spec (az_of eps e) a) as [Ea|Ea].
  - rewrite count_sum_snoc_notin; [lia|]. rewrite Ea. exact Hn.
  - destruct Hin as [E|Hin]; [congruence|]. rewrite (IH Hnd' Hin). lia.
Qed.

Lemma count_sum_ge eps reps azs m :
  (forall a, In a azs -> m <= zone_count eps reps a) -> length azs * m <= count_sum eps reps azs.
Proof.
  induction azs as [|a r IH]; simpl; intro H; [lia|].
  specialize (IH (fun b Hb => H b (or_intror Hb))). specialize (H a (or_introl eq_refl)). lia.
Qed.

Section Zones.
  Variable eps : list (Z * list Z).
  Variable rf : nat.
  Hypothesis Hsec : Forall (fun e => snd e <> []) eps.
  Hypothesis Hrf : rf <= length eps.
  (* sizeOfLeastOccupiedAZ starts from MaxInt64; it is consulted with two zones or more *)
  Hypothesis Hbig : length (az_set [] eps) <= 1 \/ (Z.of_nat rf <= MaxInt64)%Z.
  Let azs := az_set [] eps.
  Let ring := sort_sections (sections_of 0 eps).
  Let members (a : Z) : list nat := filter (fun k => (az_of eps k =? a)%Z) (seq 0 (length eps)).
  Hypothesis Hcap : forall a, In a azs -> rf <= length azs * length (members a).

  (* the zone counts are balanced and every replica is counted in some zone *)
  Let P (reps : list nat) (sp : spread) : Prop :=
    bal_inv eps reps sp /\ NoDup reps /\ count_sum eps reps azs = length reps.

  Lemma zones_step reps sp s : P reps sp -> In s ring -> rejects reps sp s = false ->
    P (reps ++ [s_ep s]) (sincr sp (s_az s)).
  Proof.
    intros [Hb [Hnd Hsum]] Hs R. split; [exact (bal_inv_step _ _ _ _ Hb Hs R)|]. split.
    - apply NoDup_snoc; [exact Hnd|]. exact (rejects_false_notin _ _ _ R).
    - destruct (ring_consistent eps s Hs) as [F2 F3].
      rewrite count_sum_snoc, Hsum, app_length; [simpl; lia|apply az_set_NoDup; constructor|].
      rewrite <- F2. exact F3.
  Qed.

  (* a least occupied zone has room: all zones hold at least its m replicas, so
     zones * m <= |reps| < rf <= zones * |zone|; any of its free endpoints is accepted *)
  Lemma zones_progress reps sp : P reps sp -> length reps < rf ->
    exists s, In s ring /\ rejects reps sp s = false.
  Proof.
    intros [[Hk [Hc Hbal]] [Hnd Hsum]] Hlen.
    assert (Hazs : azs <> []).
    { destruct eps as [|[az hs] r]; [simpl in Hrf; lia|]. intro X.
      assert (H : In az azs) by (apply az_set_spec; right; exists hs; now left). rewrite X in H. contradiction. }
    destruct (argmin_exists (zone_count eps reps) azs Hazs) as [a [Ha Hall]].
    set (m := zone_count eps reps a) in *.
    pose proof (count_sum_ge eps reps azs m Hall) as Hge. rewrite Hsum in Hge.
    pose proof (Hcap a Ha) as Hca.
    assert (Hlt : m < length (members a)).
    { destruct (le_lt_dec (length (members a)) m) as [L|L]; [|exact L].
      pose proof (Nat.mul_le_mono_l _ _ (length azs) L). lia. }
    destruct (all_or_ex (fun k => existsb (Nat.eqb k) reps) (members a)) as [Hin|[k [Hk' Hnot]]].
    { exfalso.
      assert (Hincl : incl (members a) (filter (fun e => (az_of eps e =? a)%Z) reps)).
      { intros k Hk'. apply filter_In. split; [apply existsb_nat_In, Hin, Hk'|].
        apply filter_In in Hk' as [_ E]. exact E. }
      apply NoDup_incl_length in Hincl; [|apply NoDup_filter, seq_NoDup].
      unfold m, zone_count in Hlt. lia. }
    apply filter_In in Hk' as [Hkn Hka]. apply in_seq in Hkn. apply Z.eqb_eq in Hka.
    destruct (ring_has_endpoint eps k Hsec) as [s [Hs He]]; [lia|].
    destruct (ring_consistent eps s Hs) as [F2 _].
    exists s. split; [exact Hs|]. unfold rejects. rewrite F2, He, Hnot, Hka. simpl.
    destruct Hbig as [H1|H1].
    - assert (E : (1 <? length sp) = false); [|rewrite E; reflexivity].
      apply Nat.ltb_ge. rewrite <- (map_length fst), Hk. exact H1.
    - assert (E : (smin sp <? sget sp a)%Z = false); [|rewrite E; apply andb_false_r].
      apply Z.ltb_ge, smin_ge.
      + rewrite Hk. apply az_set_NoDup. constructor.
      + rewrite Hc. fold m. pose proof (filter_length_le (fun e => (az_of eps e =? a)%Z) reps). unfold zone_count in m. lia.
      + intros b Hb. rewrite Hk in Hb. rewrite !Hc. specialize (Hall b Hb). lia.
  Qed.

  Lemma zones_build : exists ring0 reps, ketama_new eps rf = KOk ring0 reps.
  Proof.
    pose proof (ketama_new_total eps rf) as Htot. unfold ketama_new in *.
    rewrite ketama_new_fuel_enough in * by exact Hrf. simpl in *. fold ring azs in Htot |- *.
    destruct (calc_from true _ ring rf azs _) eqn:C; [eauto|exfalso|congruence].
    apply calc_err_stuck in C as [i [_ W]]. revert W.
    apply (walk_not_stuck ring rf P).
    - intros reps sp s HP _. apply zones_step, HP.
    - exact zones_progress.
    - apply lap_inv_zero.
    - split; [apply bal_inv_init|]. split; [constructor|apply count_sum_nil].
  Qed.
End Zones.

Lemma single_zone_ok eps rf :
  length (az_set [] eps) <= 1 -> rf <= length eps -> Forall (fun e => snd e <> []) eps ->
  exists ring reps, ketama_new eps rf = KOk ring reps.
Proof.
  intros Hz Hrf Hsec. apply zones_build; [exact Hsec|exact Hrf|now left|].
  (* the one zone holds every endpoint *)
  intros a Ha. rewrite filter_all, seq_length.
  - destruct (az_set [] eps) as [|a' [|]]; simpl in *; [contradiction|lia|lia].
  - intros k Hk. apply in_seq in Hk. apply Z.eqb_eq.
    assert (H : In (az_of eps k) (az_set [] eps)).
    { apply az_set_spec. right. exists (snd (nth k eps (0%Z, []))). unfold az_of.
      rewrite <- surjective_pairing. apply nth_In. lia. }
    destruct (az_set [] eps) as [|a' [|]]; simpl in *; [contradiction| |lia].
    destruct Ha as [<-|[]]. destruct H as [<-|[]]. reflexivity.
Qed.

(* Shared by C45, C47, C48 and C49: byte strings as [list N]; three-way
   comparisons that are total preorders ([good_cmp], with [cle c x y] for
   "x <= y"); the combinators they are built from: [on_cmp] (through a
   projection), [rev_cmp], [lex_cmp] (lexicographic PRODUCT of two comparisons),
   [list_cmp] (first difference decides, as Go's strings.Compare /
   labels.Compare; [str_cmp] on bytes); and an insertion sort over such a
   comparison, of which permutation, membership and sortedness are proved
   (not stability, though equal elements keep their order by construction).
   Lib/Proxy_Order.v and Lib/Storegw_Str.v are the other groups' byte-string
   orders; they reuse the names [str], [str_cmp], [cle], [isort], and
   Proxy_Order.lex_cmp is what is called [list_cmp] here: import one of the three. *)
From Coq Require Import NArith ZArith List Bool Lia Permutation Sorted RelationClasses.
Import ListNotations.
From Verif Require Lib.ListFacts.

Definition str := list N.

Fixpoint str_eqb (a b : str) : bool :=
  match a, b with
  | [], [] => true
  | x :: a', y :: b' => N.eqb x y && str_eqb a' b'
  | _, _ => false
  end.

Lemma str_eqb_eq a b : str_eqb a b = true <-> a = b.
Proof.
  revert b; induction a as [|x a IH]; intros [|y b]; simpl; split; intro H;
    try reflexivity; try discriminate.
  - apply andb_true_iff in H as [H1 H2]. apply N.eqb_eq in H1. apply IH in H2. congruence.
  - inversion H; subst. rewrite N.eqb_refl. simpl. apply IH. reflexivity.
Qed.

Lemma str_eqb_refl a : str_eqb a a = true.
Proof. apply str_eqb_eq. reflexivity. Qed.

Lemma str_eqb_neq a b : str_eqb a b = false <-> a <> b.
Proof.
  split; intro H.
  - intro E. apply str_eqb_eq in E. congruence.
  - destruct (str_eqb a b) eqn:E; [|reflexivity]. apply str_eqb_eq in E. contradiction.
Qed.

Definition mem_str (x : str) (l : list str) : bool := existsb (str_eqb x) l.

Lemma mem_str_In x l : mem_str x l = true <-> In x l.
Proof.
  unfold mem_str. rewrite existsb_exists. split.
  - intros [y [Hy E]]. apply str_eqb_eq in E. subst. exact Hy.
  - intro H. exists x. split; [exact H | apply str_eqb_refl].
Qed.

Section Cmp.
  Context {A : Type}.

  Record good_cmp (c : A -> A -> comparison) : Prop := {
    gc_refl : forall x, c x x = Eq;
    gc_sym : forall x y, c y x = CompOpp (c x y);
    gc_trans : forall x y z, c x y = Lt -> c y z = Lt -> c x z = Lt;
    gc_eq_l : forall x y z, c x y = Eq -> c x z = c y z
  }.

  Variable c : A -> A -> comparison.
  Hypothesis G : good_cmp c.

  Lemma gc_eq_sym x y : c x y = Eq -> c y x = Eq.
  Proof. intro H. rewrite (gc_sym c G x y), H. reflexivity. Qed.

  Lemma gc_eq_r x y z : c x y = Eq -> c z x = c z y.
  Proof.
    intro H. rewrite (gc_sym c G x z), (gc_sym c G y z).
    f_equal. apply (gc_eq_l c G). exact H.
  Qed.

  Lemma gc_eq_trans x y z : c x y = Eq -> c y z = Eq -> c x z = Eq.
  Proof. intros H1 H2. rewrite (gc_eq_l c G x y z H1). exact H2. Qed.

  Lemma gc_gt_lt x y : c x y = Gt -> c y x = Lt.
  Proof. intro H. rewrite (gc_sym c G x y), H. reflexivity. Qed.

  Lemma gc_lt_gt x y : c x y = Lt -> c y x = Gt.
  Proof. intro H. rewrite (gc_sym c G x y), H. reflexivity. Qed.

  Definition cle (x y : A) : Prop := c x y <> Gt.

  Lemma cle_refl x : cle x x.
  Proof. unfold cle. rewrite (gc_refl c G). discriminate. Qed.

  Lemma cle_total x y : cle x y \/ cle y x.
  Proof.
    unfold cle. destruct (c x y) eqn:E.
    - left; discriminate.
    - left; discriminate.
    - right. rewrite (gc_gt_lt _ _ E). discriminate.
  Qed.

  Lemma clt_le_trans x y z : c x y = Lt -> cle y z -> c x z = Lt.
  Proof.
    unfold cle. intros H1 H2. destruct (c y z) eqn:E2; [| |congruence].
    - rewrite <- (gc_eq_r y z x E2). exact H1.
    - exact (gc_trans c G x y z H1 E2).
  Qed.

  Lemma cle_lt_trans x y z : cle x y -> c y z = Lt -> c x z = Lt.
  Proof.
    unfold cle. intros H1 H2. destruct (c x y) eqn:E1; [| |congruence].
    - rewrite (gc_eq_l c G x y z E1). exact H2.
    - exact (gc_trans c G x y z E1 H2).
  Qed.

  Lemma cle_trans x y z : cle x y -> cle y z -> cle x z.
  Proof.
    intros H1 H2. unfold cle. destruct (c x y) eqn:E1; [| |contradiction].
    - rewrite (gc_eq_l c G x y z E1). exact H2.
    - rewrite (clt_le_trans x y z E1 H2). discriminate.
  Qed.

  Lemma sorted_head_lt x y l :
    StronglySorted cle (x :: y :: l) -> c x y <> Eq -> Forall (fun z => c x z = Lt) (y :: l).
  Proof.
    intros H Hne. inversion H as [|? ? Hs Hall]; subst.
    assert (Hlt : c x y = Lt).
    { inversion Hall as [|? ? Hc _]; subst. unfold cle in Hc. destruct (c x y); congruence. }
    constructor; [exact Hlt|]. inversion Hs as [|? ? _ Hall']; subst.
    eapply Forall_impl; [|exact Hall']. intro z. apply clt_le_trans. exact Hlt.
  Qed.

  (* One step of a lexicographic comparison: [c] decides, [r] breaks a tie.
     The three lemmas carry each law of [good_cmp] through such a step; they serve
     the product [lex_cmp] and the list order [list_cmp] alike. *)
  Definition then_cmp (d r : comparison) : comparison := match d with Eq => r | Lt => Lt | Gt => Gt end.

  Lemma then_sym x y r r' :
    r' = CompOpp r -> then_cmp (c y x) r' = CompOpp (then_cmp (c x y) r).
  Proof. intros ->. rewrite (gc_sym c G x y). destruct (c x y); reflexivity. Qed.

  Lemma then_trans x y z r1 r2 r3 :
    (r1 = Lt -> r2 = Lt -> r3 = Lt) ->
    then_cmp (c x y) r1 = Lt -> then_cmp (c y z) r2 = Lt -> then_cmp (c x z) r3 = Lt.
  Proof.
    unfold then_cmp. intro Hr.
    destruct (c x y) eqn:E1; try discriminate; destruct (c y z) eqn:E2; try discriminate; intros H1 H2.
    - rewrite (gc_eq_trans x y z E1 E2). auto.
    - rewrite (gc_eq_l c G x y z E1), E2. reflexivity.
    - rewrite <- (gc_eq_r y z x E2), E1. reflexivity.
    - rewrite (gc_trans c G x y z E1 E2). reflexivity.
  Qed.

  Lemma then_eq_l x y z r1 r2 r3 :
    (r1 = Eq -> r3 = r2) -> then_cmp (c x y) r1 = Eq -> then_cmp (c x z) r3 = then_cmp (c y z) r2.
  Proof.
    unfold then_cmp. intro Hr. destruct (c x y) eqn:E1; try discriminate. intro H1.
    rewrite (gc_eq_l c G x y z E1), (Hr H1). reflexivity.
  Qed.
End Cmp.

Definition on_cmp {A B} (f : A -> B) (c : B -> B -> comparison) (x y : A) : comparison :=
  c (f x) (f y).

Lemma on_cmp_good {A B} (f : A -> B) c : good_cmp c -> good_cmp (on_cmp f c).
Proof.
  intros G. unfold on_cmp. constructor; intros.
  - apply (gc_refl c G).
  - apply (gc_sym c G).
  - eapply (gc_trans c G); eauto.
  - apply (gc_eq_l c G); assumption.
Qed.

(* lexicographic product: first c1, on a tie c2 *)
Definition lex_cmp {A} (c1 c2 : A -> A -> comparison) (x y : A) : comparison :=
  match c1 x y with Eq => c2 x y | r => r end.

Lemma lex_cmp_good {A} (c1 c2 : A -> A -> comparison) :
  good_cmp c1 -> good_cmp c2 -> good_cmp (lex_cmp c1 c2).
Proof.
  intros G1 G2. unfold lex_cmp. constructor; intros x.
  - rewrite (gc_refl c1 G1). apply (gc_refl c2 G2).
  - intros y. exact (then_sym c1 G1 x y _ _ (gc_sym c2 G2 x y)).
  - intros y z. exact (then_trans c1 G1 x y z _ _ _ (gc_trans c2 G2 x y z)).
  - intros y z. exact (then_eq_l c1 G1 x y z _ _ _ (gc_eq_l c2 G2 x y z)).
Qed.

Lemma lex_cmp_eq {A} (c1 c2 : A -> A -> comparison) x y :
  lex_cmp c1 c2 x y = Eq -> c1 x y = Eq /\ c2 x y = Eq.
Proof. unfold lex_cmp. destruct (c1 x y); [auto | discriminate | discriminate]. Qed.

Lemma good_cmp_ext {A} (c c' : A -> A -> comparison) :
  (forall x y, c x y = c' x y) -> good_cmp c' -> good_cmp c.
Proof.
  intros E G. constructor; intros *; rewrite !E.
  - apply (gc_refl c' G).
  - apply (gc_sym c' G).
  - apply (gc_trans c' G).
  - apply (gc_eq_l c' G).
Qed.

Lemma N_compare_good : good_cmp N.compare.
Proof.
  constructor; intros.
  - apply N.compare_refl.
  - apply N.compare_antisym.
  - rewrite N.compare_lt_iff in *. lia.
  - apply N.compare_eq_iff in H. subst. reflexivity.
Qed.

Lemma Z_compare_good : good_cmp Z.compare.
Proof.
  constructor; intros.
  - apply Z.compare_refl.
  - apply Z.compare_antisym.
  - rewrite Z.compare_lt_iff in *. lia.
  - apply Z.compare_eq_iff in H. subst. reflexivity.
Qed.

Definition rev_cmp {A} (c : A -> A -> comparison) (x y : A) : comparison := c y x.

Lemma rev_cmp_good {A} (c : A -> A -> comparison) : good_cmp c -> good_cmp (rev_cmp c).
Proof.
  intros G. unfold rev_cmp. constructor; intros.
  - apply (gc_refl c G).
  - apply (gc_sym c G).
  - eapply (gc_trans c G); eauto.
  - apply (gc_eq_r c G). apply (gc_eq_sym c G). exact H.
Qed.

(* lexicographic comparison of lists: Go's strings.Compare on bytes, and
   labels.Compare on (name, value) pairs: first difference decides, otherwise
   the shorter list is smaller *)
Fixpoint list_cmp {A} (c : A -> A -> comparison) (l1 l2 : list A) : comparison :=
  match l1, l2 with
  | [], [] => Eq
  | [], _ :: _ => Lt
  | _ :: _, [] => Gt
  | x :: l1', y :: l2' => match c x y with Eq => list_cmp c l1' l2' | r => r end
  end.

Lemma list_cmp_good {A} (c : A -> A -> comparison) : good_cmp c -> good_cmp (list_cmp c).
Proof.
  intros G. constructor; induction x as [|a x IH].
  - reflexivity.
  - simpl. rewrite (gc_refl c G). exact IH.
  - intros [|b y]; reflexivity.
  - intros [|b y]; [reflexivity|]. exact (then_sym c G a b _ _ (IH y)).
  - intros [|b y] [|d z]; simpl; intros H1 H2; discriminate || reflexivity.
  - intros [|b y] [|d z]; simpl; intros H1 H2; try discriminate. exact (then_trans c G a b d _ _ _ (IH y z) H1 H2).
  - intros [|b y] [|d z]; simpl; intros H; discriminate || reflexivity.
  - intros [|b y] [|d z]; simpl; intros H; try discriminate; try reflexivity. exact (then_eq_l c G a b d _ _ _ (IH y z) H).
Qed.

Lemma list_cmp_eq {A} (c : A -> A -> comparison) :
  (forall x y, c x y = Eq -> x = y) -> forall l1 l2, list_cmp c l1 l2 = Eq -> l1 = l2.
Proof.
  intros H. induction l1 as [|a l1 IH]; intros [|b l2]; simpl; intro E; try discriminate; try reflexivity.
  destruct (c a b) eqn:E1; try discriminate.
  apply H in E1. apply IH in E. congruence.
Qed.

Definition str_cmp : str -> str -> comparison := list_cmp N.compare.

Lemma str_cmp_good : good_cmp str_cmp.
Proof. apply list_cmp_good, N_compare_good. Qed.

Lemma str_cmp_eq a b : str_cmp a b = Eq -> a = b.
Proof. apply list_cmp_eq. intros x y. apply N.compare_eq. Qed.

Lemma str_cmp_refl a : str_cmp a a = Eq.
Proof. apply (gc_refl _ str_cmp_good). Qed.

Definition is_eq (r : comparison) : bool := match r with Eq => true | _ => false end.
Definition is_lt (r : comparison) : bool := match r with Lt => true | _ => false end.
Definition is_gt (r : comparison) : bool := match r with Gt => true | _ => false end.

Lemma is_eq_true r : is_eq r = true <-> r = Eq.
Proof. destruct r; simpl; split; congruence. Qed.

Lemma is_eq_false r : is_eq r = false <-> r <> Eq.
Proof. destruct r; simpl; split; congruence. Qed.

Lemma is_gt_true r : is_gt r = true <-> r = Gt.
Proof. destruct r; simpl; split; congruence. Qed.

Lemma is_gt_false r : is_gt r = false <-> r <> Gt.
Proof. destruct r; simpl; split; congruence. Qed.

(* the boolean test behind [insert]: not greater *)
Definition cmp_leb {A} (c : A -> A -> comparison) (x y : A) : bool := negb (is_gt (c x y)).

(* model of sort.Slice / sort.Sort up to the arrangement of equal elements *)
Section Sort.
  Context {A : Type}.
  Variable c : A -> A -> comparison.

  Fixpoint insert (x : A) (l : list A) : list A :=
    match l with
    | [] => [x]
    | y :: l' => if is_gt (c x y) then y :: insert x l' else x :: l
    end.

  Definition isort (l : list A) : list A := fold_right insert [] l.

  Lemma insert_ins x l : insert x l = ListFacts.ins (cmp_leb c) x l.
  Proof.
    induction l as [|y l IH]; simpl; [reflexivity|]. rewrite IH.
    unfold cmp_leb. destruct (is_gt (c x y)); reflexivity.
  Qed.

  Lemma isort_ins l : isort l = ListFacts.isort (cmp_leb c) l.
  Proof. induction l as [|x l IH]; simpl; [reflexivity|]. rewrite insert_ins, IH. reflexivity. Qed.

  Lemma isort_perm l : Permutation l (isort l).
  Proof. rewrite isort_ins. symmetry. apply ListFacts.isort_perm. Qed.

  Lemma isort_In x l : In x (isort l) <-> In x l.
  Proof. rewrite isort_ins. apply ListFacts.isort_In. Qed.

  Hypothesis G : good_cmp c.

  Lemma isort_sorted l : StronglySorted (cle c) (isort l).
  Proof.
    rewrite isort_ins. apply ListFacts.isort_StronglySorted; unfold cmp_leb.
    - intros x y H. apply negb_true_iff, is_gt_false in H. exact H.
    - intros x y H. apply negb_false_iff, is_gt_true in H.
      unfold cle. rewrite (gc_gt_lt c G x y H). discriminate.
    - exact (cle_trans c G).
  Qed.
End Sort.

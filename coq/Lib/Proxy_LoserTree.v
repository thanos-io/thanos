(* The array loser tree of pkg/losertree (model: Lib/Proxy_Model.v lt_new / lt_next /
   lt_drain) emits a minimal head at every step: [lt_merge_min_run]. Used by C03 / C06.
   Structure: positions of the implicit binary tree ([kids], [under]), the order of the tree's
   less with maxVal ([vle]), consistent tournaments below a position ([wins]),
   playGame ([play_game_ok]), replayGames along the winner's root path ([replay_ok]),
   one Next() ([next_ok]), New + the first Next() ([new_ok]) and the drain loop. *)
From Coq Require Import ZArith NArith List Bool Lia Permutation Arith.
Import ListNotations.
From Verif Require Import Lib.ListFacts Lib.Proxy_Order Lib.Proxy_Model Lib.Proxy_Proofs.

(* positions of the implicit binary tree: c and s are the two children of p *)
Definition kids (p c s : nat) : Prop := 2 * p <= c <= 2 * p + 1 /\ c + s = 4 * p + 1.

Lemma kids_l p : kids p (2 * p) (2 * p + 1).
Proof. unfold kids. lia. Qed.
Lemma kids_r p : kids p (2 * p + 1) (2 * p).
Proof. unfold kids. lia. Qed.
Lemma kids_sym p c s : kids p c s -> kids p s c.
Proof. unfold kids. lia. Qed.
Lemma kids_gt p c s : 1 <= p -> kids p c s -> p < c /\ p < s.
Proof. unfold kids. lia. Qed.

Lemma kids_div2 q :
  Nat.div2 q <> 0 -> kids (Nat.div2 q) q (4 * Nat.div2 q + 1 - q) /\ 1 <= Nat.div2 q < q.
Proof. pose proof (Nat.div2_odd q) as E. unfold kids. destruct (Nat.odd q); cbn [Nat.b2n] in E; lia. Qed.
Lemma div2_0 q : 1 <= q -> Nat.div2 q = 0 -> q = 1.
Proof. pose proof (Nat.div2_odd q) as E. destruct (Nat.odd q); cbn [Nat.b2n] in E; lia. Qed.
Lemma div2_le q : Nat.div2 q <= q.
Proof. pose proof (Nat.div2_odd q) as E. lia. Qed.
Lemma div2_lt q k : q < 2 * k -> Nat.div2 q < k.
Proof. pose proof (Nat.div2_odd q) as E. lia. Qed.

(* leaf position i of a tree with k leaves and its stream number i - k *)
Lemma leaf_idx k i : k <= i < 2 * k -> i - k < k /\ k + (i - k) = i.
Proof. lia. Qed.
Lemma leaf_pos k j : j < k -> 1 <= k + j /\ k <= k + j < 2 * k.
Proof. lia. Qed.

Inductive under : nat -> nat -> Prop :=
| u_refl p : under p p
| u_kid p c s x : kids p c s -> under c x -> under p x.

Lemma under_range p x : under p x -> exists d, p * 2 ^ d <= x < (p + 1) * 2 ^ d.
Proof.
  induction 1 as [p|p c s x [Hc _] _ [d IH]].
  - exists 0. cbn. lia.
  - exists (S d). rewrite Nat.pow_succ_r'. nia.
Qed.

Lemma under_le p x : under p x -> p <= x.
Proof. induction 1 as [|p c s x [Hc _] _ IH]; lia. Qed.

Lemma under_trans p q x : under p q -> under q x -> under p x.
Proof. induction 1; intros H2; [exact H2 | eapply u_kid; eauto]. Qed.

Lemma under_disjoint p x : 1 <= p -> under (2 * p) x -> under (2 * p + 1) x -> False.
Proof.
  intros Hp H1 H2. apply under_range in H1 as [d1 H1]. apply under_range in H2 as [d2 H2].
  destruct (le_lt_dec d1 d2) as [Hd|Hd].
  - pose proof (Nat.pow_le_mono_r 2 d1 d2 ltac:(lia) Hd). nia.
  - assert (2 ^ (S d2) <= 2 ^ d1) by (apply Nat.pow_le_mono_r; lia).
    rewrite Nat.pow_succ_r' in H. nia.
Qed.

Lemma kids_disjoint p c s x : 1 <= p -> kids p c s -> under c x -> under s x -> False.
Proof.
  intros Hp Hk U U'. destruct (Nat.eq_dec c (2 * p)) as [->|E].
  - replace s with (2 * p + 1) in U' by (unfold kids in Hk; lia). exact (under_disjoint p x Hp U U').
  - replace s with (2 * p) in U' by (unfold kids in Hk; lia).
    replace c with (2 * p + 1) in U by (unfold kids in Hk; lia). exact (under_disjoint p x Hp U' U).
Qed.

Lemma under_one x : 1 <= x -> under 1 x.
Proof.
  induction x as [x IH] using lt_wf_ind. intros Hx.
  destruct (Nat.eq_dec (Nat.div2 x) 0) as [E|E]; [rewrite (div2_0 x Hx E); apply u_refl|].
  destruct (kids_div2 x E) as [Hk [H1 Hlt]].
  apply under_trans with (Nat.div2 x); [exact (IH _ Hlt H1) | exact (u_kid _ _ _ _ Hk (u_refl x))].
Qed.

Lemma length_upd {A} (x : A) l : forall n, length (upd n x l) = length l.
Proof. induction l as [|y r IH]; intros [|n]; cbn; auto. Qed.
Lemma nth_upd_eq {A} (x d : A) l : forall n, n < length l -> nth n (upd n x l) d = x.
Proof. induction l as [|y r IH]; intros [|n] H; cbn in *; try lia; auto. apply IH. lia. Qed.
Lemma nth_upd_neq {A} (x d : A) l : forall n m, n <> m -> nth m (upd n x l) d = nth m l d.
Proof. induction l as [|y r IH]; intros [|n] [|m] H; cbn; try lia; auto. Qed.

Lemma nth_upd_lt {A} (x d : A) l n m : n < m -> nth m (upd n x l) d = nth m l d.
Proof. intros H. apply nth_upd_neq. intros ->. exact (Nat.lt_irrefl _ H). Qed.

Lemma upd_map_seq {A} (f : nat -> A) v : forall k s i, i < k ->
  upd i v (map f (seq s k)) = map (fun j => if j =? s + i then v else f j) (seq s k).
Proof.
  induction k as [|k IH]; intros s i Hi; [lia|]. cbn [seq map]. destruct i as [|i]; cbn [upd].
  - rewrite Nat.add_0_r, Nat.eqb_refl. f_equal. apply map_ext_in. intros j Hj. apply in_seq in Hj.
    destruct (j =? s) eqn:E; [apply Nat.eqb_eq in E; lia | reflexivity].
  - destruct (s =? s + S i) eqn:E; [apply Nat.eqb_eq in E; lia|]. f_equal.
    rewrite IH by lia. apply map_ext. intros j. replace (S s + i) with (s + S i) by lia. reflexivity.
Qed.

Lemma nth_error_map_seq {A} (f : nat -> A) k i : i < k -> nth_error (map f (seq 0 k)) i = Some (f i).
Proof.
  intros Hi. rewrite (nth_error_nth' _ (f 0)) by (rewrite map_length, seq_length; exact Hi).
  f_equal. rewrite map_nth. rewrite seq_nth by exact Hi. reflexivity.
Qed.

Section LT.
Context {L C W : Type} (lcmp : L -> L -> comparison) (Hl : OrdSpec lcmp) (wlen : W -> N).
Notation resp := (@resp L C W).
Notation node := (@node L C W).
Notation tree := (@tree L C W).
Notation dnode := (@dnode L C W).
Notation rless := (@Proxy_Model.rless L C W lcmp wlen).
Notation vless := (@Proxy_Model.vless L C W lcmp wlen).
Notation min_run := (@min_run L C W lcmp wlen).

(* a <= b in the order of the tree's less; None = maxVal *)
Definition vle (a b : option resp) : Prop :=
  match a, b with
  | Some x, Some y => rless y x = false
  | Some _, None => True
  | None, Some _ => False
  | None, None => True
  end.

Lemma rless_irrefl x : rless x x = false.
Proof. destruct x as [l c|w]; cbn; [rewrite (ord_refl _ Hl); reflexivity | apply N.ltb_irrefl]. Qed.

Lemma rless_asym x y : rless x y = true -> rless y x = false.
Proof.
  destruct x as [lx cx|wx], y as [ly cy|wy]; cbn; try congruence.
  - rewrite (cmp_opp _ Hl lx ly). destruct (lcmp lx ly); cbn; congruence.
  - intros H. apply N.ltb_lt in H. apply N.ltb_ge. lia.
Qed.

Lemma rless_negtrans x y z : rless y x = false -> rless z y = false -> rless z x = false.
Proof.
  destruct x as [lx cx|wx], y as [ly cy|wy], z as [lz cz|wz]; cbn; try congruence.
  - intros H1 H2.
    assert (A : cle lcmp lx ly) by (apply (not_lt_cle _ Hl); intros E; rewrite E in H1; discriminate).
    assert (B : cle lcmp ly lz) by (apply (not_lt_cle _ Hl); intros E; rewrite E in H2; discriminate).
    pose proof (cle_trans _ Hl _ _ _ A B) as T. unfold cle in T.
    destruct (lcmp lz lx) eqn:E; try reflexivity. exfalso. apply T. apply (cmp_gt_lt _ Hl). exact E.
  - intros H1 H2. apply N.ltb_ge in H1, H2. apply N.ltb_ge. lia.
Qed.

Lemma vle_refl a : vle a a.
Proof. destruct a; cbn; [apply rless_irrefl | exact I]. Qed.

Lemma vle_trans a b c : vle a b -> vle b c -> vle a c.
Proof.
  destruct a as [x|], b as [y|], c as [z|]; cbn; try tauto.
  intros H1 H2. eapply rless_negtrans; eauto.
Qed.

Lemma vless_true_vle a b : vless a b = true -> vle a b.
Proof. destruct a as [x|], b as [y|]; cbn; try congruence; try tauto. apply rless_asym. Qed.
Lemma vless_false_vle a b : vless a b = false -> vle b a.
Proof. destruct a as [x|], b as [y|]; cbn; try congruence; try tauto. Qed.

Definition val (ns : list node) (x : nat) : option resp := nval (nth x ns dnode).

Lemma val_upd_lt p v (ns : list node) b : p < b -> val (upd p v ns) b = val ns b.
Proof. intros H. unfold val. rewrite nth_upd_lt by exact H. reflexivity. Qed.

(* [wins k ns p a]: the stored losers below position p form a consistent tournament
   over the current leaf values and leaf a is its winner; it came up through the child c
   of p, the loser b stored at p through the other child s *)
Inductive wins (k : nat) (ns : list node) : nat -> nat -> Prop :=
| w_leaf p : k <= p < 2 * k -> wins k ns p p
| w_node p c s a b :
    1 <= p < k -> kids p c s ->
    wins k ns c a -> wins k ns s b ->
    nth p ns dnode = MkNode (Z.of_nat b) (val ns b) ->
    vle (val ns a) (val ns b) ->
    wins k ns p a.

Lemma wins_under k ns p a : wins k ns p a -> under p a /\ k <= a < 2 * k.
Proof.
  induction 1 as [p Hp|p c s a b _ Hk _ [IH1 IH2] _ _ _ _]; [split; [apply u_refl|exact Hp]|].
  split; [exact (u_kid _ _ _ _ Hk IH1) | exact IH2].
Qed.

Lemma wins_frame k ns ns' p a :
  wins k ns p a -> (forall q, under p q -> nth q ns' dnode = nth q ns dnode) -> wins k ns' p a.
Proof.
  induction 1 as [p Hp|p c s a b Hp Hk H1 IH1 H2 IH2 Hn Hv]; intros Hf; [apply w_leaf; exact Hp|].
  assert (Uc : under p c) by exact (u_kid _ _ _ _ Hk (u_refl c)).
  assert (Us : under p s) by exact (u_kid _ _ _ _ (kids_sym _ _ _ Hk) (u_refl s)).
  assert (Va : val ns' a = val ns a).
  { unfold val. rewrite Hf; [reflexivity|]. eapply under_trans; [exact Uc|]. apply (wins_under _ _ _ _ H1). }
  assert (Vb : val ns' b = val ns b).
  { unfold val. rewrite Hf; [reflexivity|]. eapply under_trans; [exact Us|]. apply (wins_under _ _ _ _ H2). }
  apply w_node with c s b; [exact Hp | exact Hk | | | |].
  - apply IH1. intros q Hq. apply Hf. exact (under_trans _ _ _ Uc Hq).
  - apply IH2. intros q Hq. apply Hf. exact (under_trans _ _ _ Us Hq).
  - rewrite Hf by apply u_refl. rewrite Vb. exact Hn.
  - rewrite Va, Vb. exact Hv.
Qed.

(* writing above a position leaves its tournament alone *)
Lemma wins_upd_other k ns p v c a : p < c -> wins k ns c a -> wins k (upd p v ns) c a.
Proof.
  intros Hp Hw. eapply wins_frame; [exact Hw|]. intros q Hq.
  apply nth_upd_lt. exact (Nat.lt_le_trans _ _ _ Hp (under_le _ _ Hq)).
Qed.

Lemma wins_min k ns p a :
  wins k ns p a -> forall x, k <= x < 2 * k -> under p x -> vle (val ns a) (val ns x).
Proof.
  induction 1 as [p Hp|p c s a b Hp Hk H1 IH1 H2 IH2 Hn Hv]; intros x Hx Hu;
    inversion Hu as [|? c' s' ? Hk' Hu']; subst.
  - apply vle_refl.
  - apply under_le in Hu'. unfold kids in Hk'. lia.
  - lia.
  - destruct (Nat.eq_dec c' c) as [->|Hne]; [apply IH1; assumption|].
    replace c' with s in Hu' by (unfold kids in *; lia).
    eapply vle_trans; [exact Hv|]. apply IH2; assumption.
Qed.

(* one level down towards the winner: its child's tournament, and the loser stored at p
   is the winner of the other child *)
Lemma wins_kid k ns p a c s :
  1 <= p -> kids p c s -> under c a -> wins k ns p a ->
  exists b, p < k /\ wins k ns c a /\ wins k ns s b /\ nth p ns dnode = MkNode (Z.of_nat b) (val ns b).
Proof.
  intros Hp Hk Ha Hw. inversion Hw as [? Hlf|? c0 s0 ? b Hpk Hk0 H1 H2 Hn _]; subst.
  - exfalso. exact (Nat.lt_irrefl _ (Nat.lt_le_trans _ _ _ (proj1 (kids_gt _ _ _ Hp Hk)) (under_le _ _ Ha))).
  - destruct (Nat.eq_dec c0 c) as [->|Hne].
    + replace s with s0 by (unfold kids in *; lia). exists b. split; [apply Hpk|]. auto.
    + exfalso. replace c with s0 in Ha by (unfold kids in *; lia).
      exact (kids_disjoint p c0 s0 a Hp Hk0 (proj1 (wins_under _ _ _ _ H1)) Ha).
Qed.

Lemma wins_sub k ns : forall p q, under p q -> forall a, 1 <= p -> wins k ns p a -> under q a -> wins k ns q a.
Proof.
  induction 1 as [p|p c s q Hk Hu IH]; intros a Hp Hw Ha; [exact Hw|].
  destruct (wins_kid k ns p a c s Hp Hk (under_trans _ _ _ Hu Ha) Hw) as (b & _ & Hwc & _).
  apply IH; [|exact Hwc | exact Ha].
  exact (Nat.lt_le_incl _ _ (Nat.le_lt_trans _ _ _ Hp (proj1 (kids_gt _ _ _ Hp Hk)))).
Qed.

(* storing the loser at p joins the tournaments of its two children *)
Lemma wins_upd k ns p c s a b :
  1 <= p < k -> p < length ns -> kids p c s ->
  wins k ns c a -> wins k ns s b -> vle (val ns a) (val ns b) ->
  wins k (upd p (MkNode (Z.of_nat b) (val ns b)) ns) p a.
Proof.
  intros Hp Hlen Hk Ha Hb Hv. destruct (kids_gt _ _ _ (proj1 Hp) Hk) as [Hc Hs].
  pose proof (wins_under _ _ _ _ Ha) as [_ [Ka _]]. pose proof (wins_under _ _ _ _ Hb) as [_ [Kb _]].
  apply w_node with c s b; [exact Hp | exact Hk | | | |].
  - apply wins_upd_other; assumption.
  - apply wins_upd_other; assumption.
  - rewrite nth_upd_eq by exact Hlen. rewrite val_upd_lt by exact (Nat.lt_le_trans _ _ _ (proj2 Hp) Kb).
    reflexivity.
  - rewrite !val_upd_lt by (eapply Nat.lt_le_trans; [exact (proj2 Hp) | assumption]). exact Hv.
Qed.

Lemma play_kids k pos f : 1 <= pos -> pos < k -> k <= pos + S f ->
  (1 <= 2 * pos < 2 * k /\ k <= 2 * pos + f) /\ (1 <= 2 * pos + 1 < 2 * k /\ k <= 2 * pos + 1 + f).
Proof. lia. Qed.

Lemma play_game_ok k : forall f ns pos w ns',
  1 <= pos < 2 * k -> k <= pos + f -> length ns = 2 * k ->
  play_game lcmp wlen f k ns pos = (w, ns') ->
  wins k ns' pos w /\ length ns' = 2 * k
  /\ (forall q, ~ under pos q -> nth q ns' dnode = nth q ns dnode)
  /\ (forall q, k <= q -> nth q ns' dnode = nth q ns dnode).
Proof.
  induction f as [|f IH]; intros ns pos w ns' Hp Hf Hlen H; cbn [play_game] in H.
  - injection H as <- <-. rewrite Nat.add_0_r in Hf.
    split; [apply w_leaf; split; [exact Hf | apply Hp]|]. auto.
  - destruct (k <=? pos) eqn:E.
    + apply Nat.leb_le in E. injection H as <- <-. split; [apply w_leaf; split; [exact E | apply Hp]|]. auto.
    + apply Nat.leb_gt in E. destruct (play_kids k pos f (proj1 Hp) E Hf) as [[Pl Fl] [Pr Fr]].
      destruct (play_game lcmp wlen f k ns (2 * pos)) as [l n1] eqn:E1.
      destruct (play_game lcmp wlen f k n1 (2 * pos + 1)) as [r n2] eqn:E2.
      destruct (IH ns (2 * pos) l n1 Pl Fl Hlen E1) as (W1 & L1 & F1 & K1).
      destruct (IH n1 (2 * pos + 1) r n2 Pr Fr L1 E2) as (W2 & L2 & F2 & K2).
      assert (W1' : wins k n2 (2 * pos) l).
      { eapply wins_frame; [exact W1|]. intros q Hq. apply F2. intros Hq2.
        exact (under_disjoint pos q (proj1 Hp) Hq Hq2). }
      assert (Hpl : pos < length n2) by (rewrite L2; apply Hp).
      (* whatever is stored at pos *)
      assert (Frm : forall v, length (upd pos v n2) = 2 * k
                  /\ (forall q, ~ under pos q -> nth q (upd pos v n2) dnode = nth q ns dnode)
                  /\ (forall q, k <= q -> nth q (upd pos v n2) dnode = nth q ns dnode)).
      { intros v. split; [rewrite length_upd; exact L2|]. split; intros q Hq.
        - rewrite nth_upd_neq by (intros ->; apply Hq, u_refl).
          rewrite F2 by (intros U; apply Hq; exact (u_kid _ _ _ _ (kids_r pos) U)).
          apply F1. intros U. apply Hq. exact (u_kid _ _ _ _ (kids_l pos) U).
        - rewrite nth_upd_lt by exact (Nat.lt_le_trans _ _ _ E Hq). rewrite K2 by exact Hq. apply K1. exact Hq. }
      destruct (vless (nval (nth l n2 dnode)) (nval (nth r n2 dnode))) eqn:EV; injection H as <- <-.
      * split; [|apply Frm].
        apply (wins_upd k n2 pos _ _ l r (conj (proj1 Hp) E) Hpl (kids_l pos) W1' W2).
        apply vless_true_vle. exact EV.
      * split; [|apply Frm].
        apply (wins_upd k n2 pos _ _ r l (conj (proj1 Hp) E) Hpl (kids_r pos) W2 W1').
        apply vless_false_vle. exact EV.
Qed.

(* replay from n writes only positions 0..n *)
Lemma replay_frame : forall f ns pos wv n,
  length (replay lcmp wlen f ns pos wv n) = length ns
  /\ forall p, n < p -> nth p (replay lcmp wlen f ns pos wv n) dnode = nth p ns dnode.
Proof.
  assert (Base : forall ns v n, length (upd 0 v ns) = length ns
                 /\ forall p, n < p -> nth p (upd 0 v ns) dnode = nth p ns dnode).
  { intros ns v n. split; [apply length_upd|]. intros p Hp. apply nth_upd_lt.
    exact (Nat.le_lt_trans _ _ _ (Nat.le_0_l n) Hp). }
  induction f as [|f IH]; intros ns pos wv n; cbn [replay]; [apply Base|].
  destruct (n =? 0); [apply Base|].
  assert (Hd : forall p, n < p -> Nat.div2 n < p) by (intros p; apply Nat.le_lt_trans, div2_le).
  destruct (vless (nval (nth n ns dnode)) wv).
  - destruct (IH (upd n (MkNode (Z.of_nat pos) wv) ns) (Z.to_nat (nidx (nth n ns dnode))) (nval (nth n ns dnode)) (Nat.div2 n)) as [A B].
    split; [rewrite A; apply length_upd|]. intros p Hp. rewrite B by exact (Hd p Hp). apply nth_upd_lt. exact Hp.
  - destruct (IH ns pos wv (Nat.div2 n)) as [A B]. split; [exact A|]. intros p Hp. apply B, Hd, Hp.
Qed.

(* [ns0] is a tournament won by leaf Wn; in [ns] the positions below q, an ancestor of Wn,
   have been replayed already with winner c, the rest is as in [ns0]. The loser stored at
   the parent n of q is the winner of q's sibling (wins_kid), whose tournament is untouched:
   one comparison decides who goes up and who is stored at n (wins_upd). *)
Lemma replay_ok k ns0 Wn (Hw0 : wins k ns0 1 Wn) : forall f ns q c,
  under q Wn -> 1 <= q -> wins k ns q c -> q < length ns ->
  (forall p, ~ under q p -> nth p ns dnode = nth p ns0 dnode) ->
  Nat.div2 q < f ->
  exists c', let ns' := replay lcmp wlen f ns c (val ns c) (Nat.div2 q) in
    wins k ns' 1 c' /\ nth 0 ns' dnode = MkNode (Z.of_nat c') (val ns' c').
Proof.
  induction f as [|f IH]; intros ns q c Hu Hq Hw Hlen Hout Hf; [inversion Hf|].
  pose proof (wins_under _ _ _ _ Hw) as [Uc _].
  cbn [replay]. destruct (Nat.div2 q =? 0) eqn:E0.
  - apply Nat.eqb_eq in E0. apply (div2_0 q Hq) in E0. subst q.
    exists c. cbv zeta. split; [apply wins_upd_other; [apply Nat.lt_0_1 | exact Hw]|].
    rewrite nth_upd_eq by exact (Nat.lt_trans _ _ _ Nat.lt_0_1 Hlen).
    rewrite val_upd_lt by exact (under_le _ _ Uc). reflexivity.
  - apply Nat.eqb_neq in E0. destruct (kids_div2 q E0) as [Hk [Hn1 Hnq]].
    set (n := Nat.div2 q) in *. set (s := 4 * n + 1 - q) in *.
    assert (Unq : under n q) by exact (u_kid _ _ _ _ Hk (u_refl q)).
    pose proof (under_trans _ _ _ Unq Hu) as Un.
    destruct (wins_kid k ns0 n Wn q s Hn1 Hk Hu
                (wins_sub k ns0 1 n (under_one n Hn1) Wn (le_n 1) Hw0 Un)) as (l & Hnk & _ & H2 & Hnth).
    pose proof (wins_under _ _ _ _ H2) as [U2 [Kl _]].
    assert (Fn : nth n ns dnode = nth n ns0 dnode).
    { apply Hout. intros Hx. exact (Nat.lt_irrefl _ (Nat.lt_le_trans _ _ _ Hnq (under_le _ _ Hx))). }
    assert (Fs : forall p, under s p -> nth p ns dnode = nth p ns0 dnode).
    { intros p Hp. apply Hout. intros Hx. exact (kids_disjoint n q s p Hn1 Hk Hx Hp). }
    assert (Wl : wins k ns s l) by (eapply wins_frame; [exact H2 | exact Fs]).
    assert (Vl : val ns l = val ns0 l) by (unfold val; rewrite (Fs l U2); reflexivity).
    rewrite Fn, Hnth. cbn [nval nidx]. rewrite Nat2Z.id, <- Vl.
    assert (Hd : Nat.div2 n < f).
    { exact (Nat.lt_le_trans _ _ _ (Nat.lt_div2 n Hn1) (proj1 (Nat.lt_succ_r _ _) Hf)). }
    assert (Hnl : n < length ns) by exact (Nat.lt_trans _ _ _ Hnq Hlen).
    assert (Up : forall p, ~ under n p -> ~ under q p).
    { intros p Hp Hx. apply Hp. exact (under_trans _ _ _ Unq Hx). }
    destruct (vless (val ns l) (val ns c)) eqn:EV.
    + set (ns2 := upd n (MkNode (Z.of_nat c) (val ns c)) ns).
      replace (val ns l) with (val ns2 l) by (apply val_upd_lt; exact (Nat.lt_le_trans _ _ _ Hnk Kl)).
      apply (IH ns2 n l Un Hn1); [ | | | exact Hd].
      * apply (wins_upd k ns n s q l c (conj Hn1 Hnk) Hnl (kids_sym _ _ _ Hk) Wl Hw).
        apply vless_true_vle. exact EV.
      * unfold ns2. rewrite length_upd. exact Hnl.
      * intros p Hp. unfold ns2. rewrite nth_upd_neq by (intros ->; apply Hp, u_refl). apply Hout, Up, Hp.
    + apply (IH ns n c Un Hn1); [ | exact Hnl | | exact Hd].
      * apply w_node with q s l; [exact (conj Hn1 Hnk) | exact Hk | exact Hw | exact Wl | |].
        -- rewrite Fn, Hnth, Vl. reflexivity.
        -- apply vless_false_vle. exact EV.
      * intros p Hp. apply Hout, Up, Hp.
Qed.

(* replayGames after the value of the winner's leaf Wn was replaced *)
Lemma replay_games_ok k ns0 ns Wn :
  wins k ns0 1 Wn -> length ns = 2 * k -> (forall q, q <> Wn -> nth q ns dnode = nth q ns0 dnode) ->
  exists c', let ns' := replay_games lcmp wlen ns Wn in
    wins k ns' 1 c' /\ nth 0 ns' dnode = MkNode (Z.of_nat c') (val ns' c')
    /\ length ns' = 2 * k /\ forall p, k <= p -> nth p ns' dnode = nth p ns dnode.
Proof.
  intros Hw Hlen Hne. pose proof (wins_under _ _ _ _ Hw) as [U1 HW].
  assert (HWl : Wn < length ns) by (rewrite Hlen; apply HW).
  destruct (replay_ok k ns0 Wn Hw (length ns) ns Wn Wn (u_refl Wn) (under_le _ _ U1) (w_leaf k ns Wn HW) HWl)
    as [c' H].
  - intros p Hp. apply Hne. intros ->. apply Hp, u_refl.
  - exact (Nat.le_lt_trans _ _ _ (div2_le Wn) HWl).
  - exists c'. destruct (replay_frame (length ns) ns Wn (val ns Wn) (Nat.div2 Wn)) as [A B].
    cbv zeta in *. unfold replay_games. fold (val ns Wn). split; [apply H|]. split; [apply H|].
    split; [rewrite A; exact Hlen|]. intros p Hp. apply B.
    exact (Nat.lt_le_trans _ _ _ (div2_lt Wn k (proj2 HW)) Hp).
Qed.

(* the tree as the streams it still has to deliver; leaf k+j: its current value, then the rest
   of its sequence *)
Definition cur (k : nat) (ns : list node) (sq : list (list resp)) (j : nat) : list resp :=
  match val ns (k + j) with Some x => x :: nth j sq [] | None => [] end.
Definition absS (k : nat) (t : tree) : list (list resp) := map (cur k (nodes t) (seqs t)) (seq 0 k).
(* the same once the current value of leaf Wn has been emitted *)
Definition remS (k : nat) (t : tree) (Wn : nat) : list (list resp) :=
  upd (Wn - k) (nth (Wn - k) (seqs t) []) (absS k t).

Definition flags (k : nat) (ns : list node) : Prop :=
  forall i, k <= i < 2 * k -> (nidx (nth i ns dnode) = (-1)%Z <-> val ns i = None).

Definition Inv (k : nat) (t : tree) (Wn : nat) : Prop :=
  length (nodes t) = 2 * k /\ length (seqs t) = k /\ flags k (nodes t)
  /\ k <= Wn < 2 * k /\ nth 0 (nodes t) dnode = MkNode (Z.of_nat Wn) (val (nodes t) Wn)
  /\ wins k (nodes t) 1 Wn.

Lemma winner_live_val k t Wn : Inv k t Wn -> winner_live (nodes t) = true <-> exists x, val (nodes t) Wn = Some x.
Proof.
  intros (_ & _ & Hfl & HW & H0 & _). unfold winner_live. rewrite H0. cbn [nidx]. rewrite Nat2Z.id.
  rewrite negb_true_iff, Z.eqb_neq, (Hfl Wn HW).
  destruct (val (nodes t) Wn) as [x|]; split; try congruence; [eauto | intros [x Hx]; discriminate].
Qed.

Lemma head_remS k t Wn x : Inv k t Wn -> val (nodes t) Wn = Some x ->
  nth_error (absS k t) (Wn - k) = Some (x :: nth (Wn - k) (seqs t) []).
Proof.
  intros (_ & _ & _ & HW & _) Hx. destruct (leaf_idx k Wn HW) as [Hj Hi].
  unfold absS. rewrite nth_error_map_seq by exact Hj. unfold cur. rewrite Hi, Hx. reflexivity.
Qed.

(* the winner's current value is minimal among the leaves *)
Lemma root_min k t Wn j : Inv k t Wn -> j < k -> vle (val (nodes t) Wn) (val (nodes t) (k + j)).
Proof.
  intros (_ & _ & _ & _ & _ & Hw) Hj. destruct (leaf_pos k j Hj) as [H1 Hkj].
  exact (wins_min k (nodes t) 1 Wn Hw _ Hkj (under_one _ H1)).
Qed.

Lemma move_next_spec k t i : k <= i < length (nodes t) -> i - k < length (seqs t) ->
  let t' := move_next k t i in
  length (nodes t') = length (nodes t) /\ length (seqs t') = length (seqs t)
  /\ (forall q, q <> i -> nth q (nodes t') dnode = nth q (nodes t) dnode)
  /\ nth i (nodes t') dnode
     = match nth (i - k) (seqs t) [] with
       | x :: _ => MkNode (nidx (nth i (nodes t) dnode)) (Some x)
       | [] => MkNode (-1) None
       end
  /\ (forall j, nth j (seqs t') [] = if j =? i - k then tl (nth (i - k) (seqs t) []) else nth j (seqs t) []).
Proof.
  intros Hi Hs. unfold move_next. destruct (nth (i - k) (seqs t) []) as [|y r] eqn:Es; cbn [nodes seqs tl].
  - rewrite length_upd. split; [reflexivity|]. split; [reflexivity|].
    split; [intros q Hq; apply nth_upd_neq, not_eq_sym, Hq|]. split; [apply nth_upd_eq, Hi|].
    intros j. destruct (j =? i - k) eqn:E; [apply Nat.eqb_eq in E; subst; exact Es | reflexivity].
  - rewrite !length_upd. split; [reflexivity|]. split; [reflexivity|].
    split; [intros q Hq; apply nth_upd_neq, not_eq_sym, Hq|]. split; [apply nth_upd_eq, Hi|].
    intros j. destruct (j =? i - k) eqn:E.
    + apply Nat.eqb_eq in E. subst. apply nth_upd_eq. exact Hs.
    + apply Nat.eqb_neq in E. apply nth_upd_neq, not_eq_sym, E.
Qed.

Lemma lt_next_first (t : tree) :
  nodes t <> [] -> nidx (nth 0 (nodes t) dnode) = (-1)%Z ->
  lt_next lcmp wlen t =
    let k := length (seqs t) in
    let '(w, ns) := play_game lcmp wlen (2 * k) k (nodes t) 1 in
    let ns' := upd 0 (MkNode (Z.of_nat w) (nval (nth w ns dnode))) ns in
    (winner_live ns', MkTree ns' (seqs t)).
Proof.
  intros Hne H0. unfold lt_next. destruct (nodes t) as [|n0 r]; [congruence|]. cbn [nth] in H0.
  rewrite H0. reflexivity.
Qed.

Lemma lt_next_live (t : tree) :
  nodes t <> [] -> nidx (nth 0 (nodes t) dnode) <> (-1)%Z -> winner_live (nodes t) = true ->
  lt_next lcmp wlen t =
    let w := Z.to_nat (nidx (nth 0 (nodes t) dnode)) in
    let t1 := move_next (length (seqs t)) t w in
    let ns := replay_games lcmp wlen (nodes t1) w in
    (winner_live ns, MkTree ns (seqs t1)).
Proof.
  intros Hne H0 Hlive. unfold lt_next. destruct (nodes t) as [|n0 r]; [congruence|]. cbn [nth] in H0.
  apply Z.eqb_neq in H0. rewrite H0, Hlive. reflexivity.
Qed.

Lemma next_ok k t Wn x :
  Inv k t Wn -> val (nodes t) Wn = Some x ->
  exists t' Wn', lt_next lcmp wlen t = (winner_live (nodes t'), t')
    /\ Inv k t' Wn' /\ absS k t' = remS k t Wn.
Proof.
  intros HI Hx. pose proof HI as (Hn & Hs & Hfl & HW & H0 & Hw). destruct (leaf_idx k Wn HW) as [Hj Hi].
  assert (HWl : k <= Wn < length (nodes t)) by (rewrite Hn; exact HW).
  rewrite lt_next_live.
  2:{ intros E. rewrite E in HWl. destruct HWl as [_ F]. inversion F. }
  2:{ rewrite H0. cbn. lia. }
  2:{ apply (winner_live_val k t Wn HI). eauto. }
  rewrite H0, Hs. cbn [nidx]. rewrite Nat2Z.id.
  destruct (move_next_spec k t Wn HWl ltac:(rewrite Hs; exact Hj)) as (Hn1 & Hs1 & Hne1 & Hat & Hq1).
  set (t1 := move_next k t Wn) in *.
  assert (Hv1 : val (nodes t1) Wn = hd_error (nth (Wn - k) (seqs t) [])).
  { unfold val. rewrite Hat. destruct (nth (Wn - k) (seqs t) []); reflexivity. }
  assert (Hf1 : nidx (nth Wn (nodes t1) dnode) = (-1)%Z <-> val (nodes t1) Wn = None).
  { unfold val. rewrite Hat. destruct (nth (Wn - k) (seqs t) []); cbn [nidx nval]; [tauto|].
    split; [|discriminate]. intros E. apply (Hfl Wn HW) in E. congruence. }
  destruct (replay_games_ok k (nodes t) (nodes t1) Wn Hw (eq_trans Hn1 Hn) Hne1) as (Wn' & Hw' & H0' & Hn' & Hleaf).
  cbv zeta in *. set (ns' := replay_games lcmp wlen (nodes t1) Wn) in *.
  exists (MkTree ns' (seqs t1)), Wn'. split; [reflexivity|].
  pose proof (wins_under _ _ _ _ Hw') as [_ HW']. split.
  - unfold Inv. cbn [nodes seqs]. split; [exact Hn'|]. split; [exact (eq_trans Hs1 Hs)|].
    split; [|split; [exact HW'|split; [exact H0'|exact Hw']]].
    intros i Hik. unfold val. rewrite Hleaf by apply Hik. destruct (Nat.eq_dec i Wn) as [->|E]; [exact Hf1|].
    rewrite Hne1 by exact E. apply Hfl. exact Hik.
  - unfold remS, absS. cbn [nodes seqs]. rewrite upd_map_seq by exact Hj. apply map_ext_in.
    intros j _. cbn [Nat.add]. unfold cur, val. rewrite Hleaf by apply Nat.le_add_r. rewrite Hq1.
    destruct (j =? Wn - k) eqn:E.
    + apply Nat.eqb_eq in E. subst j. rewrite Hi. fold (val (nodes t1) Wn).
      rewrite Hv1. destruct (nth (Wn - k) (seqs t) []); reflexivity.
    + apply Nat.eqb_neq in E. rewrite Hne1 by lia. reflexivity.
Qed.

Lemma concat_upd_len (ss : list (list resp)) i x rest :
  nth_error ss i = Some (x :: rest) -> length (concat ss) = S (length (concat (upd i rest ss))).
Proof. intros H. exact (Permutation_length (concat_upd_perm ss i x rest H)). Qed.

(* what lt_drain (S f) makes of the result of Next() *)
Definition emit (f : nat) (t : tree) : list resp :=
  if winner_live (nodes t)
  then match nval (nth 0 (nodes t) dnode) with Some x => x :: lt_drain lcmp wlen f t | None => [] end
  else [].

Lemma emit_ok k f t Wn :
  Inv k t Wn ->
  (forall x, val (nodes t) Wn = Some x -> length (concat (remS k t Wn)) < f ->
     min_run (remS k t Wn) (lt_drain lcmp wlen f t)) ->
  length (concat (absS k t)) <= f ->
  min_run (absS k t) (emit f t).
Proof.
  intros HI Hd Hlen. pose proof HI as (_ & _ & _ & HW & H0 & _). unfold emit.
  destruct (winner_live (nodes t)) eqn:Elive.
  - apply (winner_live_val k t Wn HI) in Elive as [x Hx]. rewrite H0. cbn [nval]. rewrite Hx.
    pose proof (head_remS k t Wn x HI Hx) as Hnth.
    apply mr_step with (1 := Hnth).
    + intros j y r Hj.
      assert (Hjk : j < k).
      { assert (nth_error (absS k t) j <> None) as Hne by (rewrite Hj; discriminate).
        apply nth_error_Some in Hne. unfold absS in Hne. rewrite map_length, seq_length in Hne. exact Hne. }
      unfold absS in Hj. rewrite nth_error_map_seq in Hj by exact Hjk. unfold cur in Hj.
      pose proof (root_min k t Wn j HI Hjk) as Hm. rewrite Hx in Hm.
      destruct (val (nodes t) (k + j)) as [y'|]; [|discriminate]. injection Hj as <- _. exact Hm.
    + apply (Hd x Hx). apply concat_upd_len in Hnth. rewrite Hnth in Hlen. exact Hlen.
  - apply mr_done. intros s Hin. unfold absS in Hin. apply in_map_iff in Hin as [j [<- Hj]]. apply in_seq in Hj.
    pose proof (root_min k t Wn j HI (proj2 Hj)) as Hm. unfold cur.
    destruct (val (nodes t) (k + j)); [|reflexivity].
    destruct (val (nodes t) Wn) as [x|] eqn:E; [|contradiction].
    assert (winner_live (nodes t) = true) by (apply (winner_live_val k t Wn HI); eauto). congruence.
Qed.

Lemma drain_ok k : forall f t Wn x,
  Inv k t Wn -> val (nodes t) Wn = Some x -> length (concat (remS k t Wn)) < f ->
  min_run (remS k t Wn) (lt_drain lcmp wlen f t).
Proof.
  induction f as [|f IH]; intros t Wn x HI Hx Hlen; [inversion Hlen|].
  cbn [lt_drain]. destruct (next_ok k t Wn x HI Hx) as (t' & Wn' & En & HI' & Habs).
  rewrite En, <- Habs. apply (emit_ok k f t' Wn' HI' (fun x' => IH t' Wn' x' HI')). rewrite Habs.
  exact (proj1 (Nat.lt_succ_r _ _) Hlen).
Qed.

Definition leaf0 (s : list resp) : node := match s with x :: _ => MkNode 0 (Some x) | [] => MkNode (-1) None end.

(* the first m leaves have been loaded by moveNext *)
Definition loaded (k : nat) (ss : list (list resp)) (t : tree) (m : nat) : Prop :=
  length (nodes t) = 2 * k /\ length (seqs t) = k
  /\ (forall j, j < m -> nth (j + k) (nodes t) dnode = leaf0 (nth j ss []) /\ nth j (seqs t) [] = tl (nth j ss []))
  /\ (forall j, m <= j < k -> nth (j + k) (nodes t) dnode = dnode /\ nth j (seqs t) [] = nth j ss []).

Lemma load_ok k (ss : list (list resp)) : length ss = k -> forall m, m <= k ->
  loaded k ss (fold_left (fun t i => move_next k t (i + k)) (seq 0 m) (MkTree (repeat dnode (2 * k)) ss)) m.
Proof.
  intros Hlen. induction m as [|m IH]; intros Hm.
  - cbn [seq fold_left]. split; [apply repeat_length|]. split; [exact Hlen|]. split; [intros j Hj; inversion Hj|].
    intros j Hj. cbn [nodes seqs]. split; [apply nth_repeat | reflexivity].
  - rewrite seq_S, fold_left_app. cbn [fold_left Nat.add].
    set (tm := fold_left _ (seq 0 m) _) in *. destruct (IH (Nat.lt_le_incl _ _ Hm)) as (Hn & Hs & Hlo & Hhi).
    assert (Hi : k <= m + k < length (nodes tm)) by (rewrite Hn; lia).
    destruct (move_next_spec k tm (m + k) Hi ltac:(rewrite Nat.add_sub, Hs; exact Hm))
      as (Hn1 & Hs1 & Hne1 & Hat & Hq1).
    rewrite Nat.add_sub in Hat, Hq1. destruct (Hhi m (conj (le_n m) Hm)) as [Hnode Hseq].
    rewrite Hseq, Hnode in Hat. split; [exact (eq_trans Hn1 Hn)|]. split; [exact (eq_trans Hs1 Hs)|].
    (* leaf j <> m is as before *)
    assert (Hoth : forall j, j <> m -> nth (j + k) (nodes (move_next k tm (m + k))) dnode = nth (j + k) (nodes tm) dnode
                               /\ (j =? m) = false).
    { intros j Hne. split; [apply Hne1; rewrite Nat.add_cancel_r; exact Hne | apply Nat.eqb_neq, Hne]. }
    split; intros j Hj; rewrite Hq1.
    + destruct (Nat.eq_dec j m) as [->|Hne].
      * rewrite Nat.eqb_refl, Hseq. split; [exact Hat | reflexivity].
      * destruct (Hoth j Hne) as [-> ->]. apply Hlo, Nat.le_neq. split; [apply Nat.lt_succ_r, Hj | exact Hne].
    + destruct (Hoth j (not_eq_sym (Nat.lt_neq _ _ (proj1 Hj)))) as [-> ->].
      apply Hhi. split; [exact (Nat.lt_le_incl _ _ (proj1 Hj)) | apply Hj].
Qed.

(* New and the first Next(), which plays the whole game *)
Lemma new_ok k (ss : list (list resp)) : length ss = k -> 1 <= k ->
  exists t w, lt_next lcmp wlen (lt_new ss) = (winner_live (nodes t), t) /\ Inv k t w /\ absS k t = ss.
Proof.
  intros Ek Hk. unfold lt_new. rewrite Ek.
  pose proof (load_ok k ss Ek k (le_n k)) as (Hn & Hs & Hlo & _).
  set (t1 := fold_left _ (seq 0 k) _) in *.
  replace (match k with 0 => t1 | S _ => _ end)
    with (MkTree (upd 0 (MkNode (-1) None) (nodes t1)) (seqs t1)) by (destruct k; [lia | reflexivity]).
  set (ns0 := upd 0 (MkNode (-1) None) (nodes t1)).
  assert (Hn0 : length ns0 = 2 * k) by (unfold ns0; rewrite length_upd; exact Hn).
  assert (H0l : 0 < length (nodes t1)) by (rewrite Hn; lia).
  rewrite lt_next_first; cbn [nodes seqs].
  2:{ intros E. apply (f_equal (@length _)) in E. rewrite Hn0, <- Hn in E. rewrite E in H0l. inversion H0l. }
  2:{ unfold ns0. rewrite nth_upd_eq by exact H0l. reflexivity. }
  rewrite Hs. destruct (play_game lcmp wlen (2 * k) k ns0 1) as [w ns] eqn:Ep.
  destruct (play_game_ok k (2 * k) ns0 1 w ns ltac:(lia) ltac:(lia) Hn0 Ep) as (Hw & Hlen & _ & Hleaf).
  set (ns' := upd 0 (MkNode (Z.of_nat w) (nval (nth w ns dnode))) ns).
  pose proof (wins_under _ _ _ _ Hw) as [_ HW].
  assert (Hleaf' : forall j, j < k -> nth (k + j) ns' dnode = leaf0 (nth j ss [])).
  { intros j Hj. destruct (leaf_pos k j Hj) as [H1 [Hkj _]]. unfold ns'. rewrite nth_upd_lt by exact H1.
    rewrite Hleaf by exact Hkj. unfold ns0. rewrite nth_upd_lt by exact H1. rewrite Nat.add_comm.
    apply Hlo. exact Hj. }
  exists (MkTree ns' (seqs t1)), w. split; [reflexivity|]. split.
  - unfold Inv. cbn [nodes seqs]. split; [unfold ns'; rewrite length_upd; exact Hlen|]. split; [exact Hs|].
    split; [|split; [exact HW|split]].
    + intros i Hi. destruct (leaf_idx k i Hi) as [Hj <-]. unfold val. rewrite Hleaf' by exact Hj.
      destruct (nth (i - k) ss []); cbn; split; congruence.
    + unfold ns'. rewrite nth_upd_eq by (rewrite Hlen, <- Hn; exact H0l).
      rewrite val_upd_lt by exact (Nat.lt_le_trans _ _ _ Hk (proj1 HW)). reflexivity.
    + apply wins_upd_other; [apply Nat.lt_0_1 | exact Hw].
  - unfold absS. cbn [nodes seqs]. rewrite <- (map_nth_seq [] ss) at 1. rewrite Ek.
    apply map_ext_in. intros j Hj. apply in_seq in Hj. unfold cur, val. rewrite Hleaf' by apply Hj.
    rewrite (proj2 (Hlo j (proj2 Hj))). destruct (nth j ss []); reflexivity.
Qed.

Theorem lt_merge_min_run (ss : list (list resp)) : min_run ss (lt_merge lcmp wlen ss).
Proof.
  destruct ss as [|s ss'] eqn:E; [apply mr_done; intros s []|]. rewrite <- E.
  destruct (new_ok (length ss) ss eq_refl ltac:(subst; cbn; lia)) as (t & w & En & HI & Habs).
  unfold lt_merge. cbn [lt_drain]. rewrite En. rewrite <- Habs at 1.
  apply (emit_ok _ _ t w HI (fun x => drain_ok _ _ t w x HI)). rewrite Habs. lia.
Qed.

End LT.

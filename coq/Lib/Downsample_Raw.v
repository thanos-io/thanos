(* downsampleRawLoop's batching (Lib/Downsample_Core.v), for C36 and C37:
   for time-ordered non-negative raw data the batches partition the non-NaN
   samples and no downsampling window straddles two batches. *)
From Coq Require Import ZArith List Bool Lia Sorted.
Import ListNotations.
From Verif Require Import Lib.ListFacts Lib.Downsample_Core Lib.Downsample_Batch.
Open Scope Z_scope.

Lemma keep_nonnan_app l1 l2 : keep_nonnan (l1 ++ l2) = keep_nonnan l1 ++ keep_nonnan l2.
Proof. unfold keep_nonnan. apply flat_map_app. Qed.

Lemma keep_nonnan_in l s : In s (keep_nonnan l) -> exists s', In s' l /\ fst s' = fst s /\ snd s' = Some (snd s).
Proof.
  unfold keep_nonnan. intros H. apply in_flat_map in H as [[t [v|]] [Hin Hs]]; cbn in Hs; [|contradiction].
  destruct Hs as [<-|[]]. exists (t, Some v). repeat split. exact Hin.
Qed.

Lemma keep_nonnan_forall (P : Z -> Prop) l :
  Forall (fun s => P (fst s)) l -> Forall (fun s => P (fst s)) (keep_nonnan l).
Proof.
  intros H. rewrite Forall_forall in *. intros s Hin.
  apply keep_nonnan_in in Hin as (s' & Hin & E & _). rewrite <- E. apply H. exact Hin.
Qed.

Lemma keep_nonnan_sorted l :
  StronglySorted Z.le (map fst l) -> StronglySorted Z.le (map fst (keep_nonnan l)).
Proof.
  induction l as [|[t [v|]] l IH]; intros Hs; cbn [keep_nonnan flat_map map app fst snd] in *.
  - constructor.
  - apply StronglySorted_inv in Hs as [Hs Hle]. constructor; [apply IH; exact Hs|].
    rewrite Forall_map in Hle |- *. apply (keep_nonnan_forall (fun x => t <= x)). exact Hle.
  - apply StronglySorted_inv in Hs as [Hs _]. apply IH. exact Hs.
Qed.

Section Raw.
Variable cw : Z -> Z -> Z.
Variable res : Z.
Hypothesis cw_ge : forall t, 0 <= t -> t <= cw t res.
Hypothesis cw_same : forall t t', 0 <= t -> t <= t' -> t' <= cw t res -> cw t' res = cw t res.

Let cw_mono := cw_mono cw res cw_ge cw_same.

Lemma take_le_spec W : forall l,
  let '(a, b) := take_le W l in
  a ++ b = l /\ Forall (fun s => fst s <= W) a /\
  (StronglySorted Z.le (map fst l) -> Forall (fun s => W < fst s) b).
Proof.
  induction l as [|s r IH]; cbn [take_le].
  - repeat split; constructor.
  - destruct (fst s <=? W) eqn:E.
    + destruct (take_le W r) as [a b]. destruct IH as (Hab & Ha & Hb). apply Z.leb_le in E.
      split; [cbn; rewrite Hab; reflexivity|]. split; [constructor; assumption|].
      intros Hs. cbn [map] in Hs. apply StronglySorted_inv in Hs as [Hs _]. apply Hb. exact Hs.
    + apply Z.leb_gt in E. split; [reflexivity|]. split; [constructor|].
      intros Hs. cbn [map] in Hs. apply StronglySorted_inv in Hs as [_ Hle].
      constructor; [exact E|]. rewrite Forall_map in Hle.
      eapply Forall_impl; [|exact Hle]. intros x Hx; cbv beta in Hx. lia.
Qed.

(* one batch cut: the taken samples all have windows <= cw t', the rest lie
   strictly after cw t' *)
Lemma take_batch_spec : forall n lt l,
  0 <= lt -> Forall (fun s => lt <= fst s) l -> StronglySorted Z.le (map fst l) ->
  let '(a, b) := take_batch cw res n lt l in
  a ++ b = l /\
  exists t', lt <= t' /\
    Forall (fun s => cw (fst s) res <= cw t' res) a /\ Forall (fun s => cw t' res < fst s) b.
Proof.
  assert (Base : forall lt l, 0 <= lt -> Forall (fun s => lt <= fst s) l -> StronglySorted Z.le (map fst l) ->
     let '(a, b) := take_le (cw lt res) l in
     a ++ b = l /\ exists t', lt <= t' /\
       Forall (fun s => cw (fst s) res <= cw t' res) a /\ Forall (fun s => cw t' res < fst s) b).
  { intros lt l H0 Hge Hs. pose proof (take_le_spec (cw lt res) l) as T.
    destruct (take_le (cw lt res) l) as [a b]. destruct T as (Hab & Ha & Hb).
    split; [exact Hab|]. exists lt. split; [lia|]. split; [|apply Hb; exact Hs].
    assert (Hga : Forall (fun s => lt <= fst s) a).
    { rewrite <- Hab in Hge. apply Forall_app in Hge as [? _]. assumption. }
    rewrite Forall_forall in *. intros s Hin. rewrite (cw_same lt (fst s)); [lia|lia|apply Hga; exact Hin|apply Ha; exact Hin]. }
  induction n as [|n IH]; intros lt l H0 Hge Hs.
  - cbn [take_batch]. apply Base; assumption.
  - destruct l as [|s r]; [cbn [take_batch]; apply (Base lt []); assumption|].
    cbn [take_batch]. cbn [map] in Hs. apply StronglySorted_inv in Hs as [Hs Hle].
    apply Forall_cons_iff in Hge as [Hs0 Hge]. rewrite Forall_map in Hle.
    specialize (IH (fst s) r ltac:(lia) Hle Hs).
    destruct (take_batch cw res n (fst s) r) as [a b]. destruct IH as (Hab & t' & Ht' & Ha & Hb).
    split; [cbn; rewrite Hab; reflexivity|]. exists t'. split; [lia|]. split; [|exact Hb].
    constructor; [apply cw_mono; lia|exact Ha].
Qed.

Lemma take_batch_nonempty n lt s r :
  (1 <= n)%nat -> fst (take_batch cw res n lt (s :: r)) <> [].
Proof.
  destruct n as [|n]; [lia|]. intros _. cbn [take_batch].
  destruct (take_batch cw res n (fst s) r). cbn. discriminate.
Qed.

(* no window straddles two batches *)
Fixpoint seps (bs : list (list sample)) : Prop :=
  match bs with
  | [] => True
  | b :: rest =>
      Forall (fun s1 => Forall (fun s2 => cw (fst s1) res < fst s2) (concat rest)) b /\ seps rest
  end.

Lemma raw_batches_spec bsz : (1 <= bsz)%nat -> forall fuel data,
  (length data <= fuel)%nat ->
  StronglySorted Z.le (map fst data) -> Forall (fun s => 0 <= fst s) data ->
  exists batches, raw_batches cw fuel res bsz data = Some batches /\
    concat batches = keep_nonnan data /\ Forall (fun b => b <> []) batches /\ seps batches /\
    Forall (sorted_nonneg) batches.
Proof.
  intros Hb. induction fuel as [|f IH]; intros data Hlen Hs Hnn.
  - destruct data; [|cbn in Hlen; lia]. exists []. repeat split; constructor.
  - destruct data as [|s0 r]; [exists []; repeat split; constructor|].
    cbn [raw_batches].
    pose proof (take_batch_spec bsz 0 (s0 :: r) ltac:(lia) Hnn Hs) as T.
    pose proof (take_batch_nonempty bsz 0 s0 r Hb) as Ne.
    destruct (take_batch cw res bsz 0 (s0 :: r)) as [taken rest]. cbn [fst] in Ne.
    destruct T as (Hab & t' & Ht' & Ha & Hbr).
    assert (Hlr : (length rest <= f)%nat).
    { apply (f_equal (@length _)) in Hab. rewrite app_length in Hab. cbn [length] in *.
      destruct taken; [congruence|]. cbn [length] in Hab. lia. }
    rewrite <- Hab, map_app in Hs. apply StronglySorted_app_inv in Hs as (Hst & Hsr & _).
    rewrite <- Hab in Hnn. apply Forall_app in Hnn as [Hnt Hnr].
    destruct (IH rest Hlr Hsr Hnr) as (more & Em & Hcat & Hne & Hsep & Hgood).
    assert (Hgt : sorted_nonneg (keep_nonnan taken))
      by (split; [apply keep_nonnan_sorted, Hst|apply (keep_nonnan_forall (fun x => 0 <= x)), Hnt]).
    rewrite Em.
    assert (Hkn : keep_nonnan (s0 :: r) = keep_nonnan taken ++ concat more).
    { rewrite <- Hab, keep_nonnan_app, Hcat. reflexivity. }
    destruct (keep_nonnan taken) as [|b0 bt] eqn:Eb.
    + exists more. split; [reflexivity|]. split; [rewrite Hkn; reflexivity|]. repeat split; assumption.
    + exists ((b0 :: bt) :: more). split; [reflexivity|].
      split; [cbn [concat]; rewrite Hkn; reflexivity|].
      split; [constructor; [discriminate|assumption]|].
      split; [|constructor; [exact Hgt|exact Hgood]].
      cbn [seps]. split; [|exact Hsep].
      rewrite <- Eb. rewrite Hcat.
      assert (A : Forall (fun s => cw (fst s) res <= cw t' res) (keep_nonnan taken))
        by (apply (keep_nonnan_forall (fun x => cw x res <= cw t' res)); exact Ha).
      assert (B : Forall (fun s => cw t' res < fst s) (keep_nonnan rest))
        by (apply (keep_nonnan_forall (fun x => cw t' res < x)); exact Hbr).
      eapply Forall_impl; [|exact A]. intros s1 H1; cbv beta in H1.
      eapply Forall_impl; [|exact B]. intros s2 H2; cbv beta in H2. lia.
Qed.

End Raw.

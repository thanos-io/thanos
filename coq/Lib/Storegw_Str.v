(* Byte strings with Go's string order (bytewise lexicographic), for the
   store-gateway group of properties (C10, C11). *)
From Coq Require Import NArith List Bool Lia Sorted Permutation.
Import ListNotations.
From Verif Require Import Lib.ListFacts.

Definition str := list N.

Fixpoint str_compare (a b : str) : comparison :=
  match a, b with
  | [], [] => Eq
  | [], _ :: _ => Lt
  | _ :: _, [] => Gt
  | x :: a', y :: b' =>
      match N.compare x y with
      | Eq => str_compare a' b'
      | c => c
      end
  end.

Definition str_eqb (a b : str) : bool :=
  match str_compare a b with Eq => true | _ => false end.
Definition str_ltb (a b : str) : bool :=
  match str_compare a b with Lt => true | _ => false end.
(* a <= b *)
Definition str_leb (a b : str) : bool :=
  match str_compare a b with Gt => false | _ => true end.

Definition str_lt (a b : str) : Prop := str_compare a b = Lt.
Definition str_le (a b : str) : Prop := str_compare a b <> Gt.

Lemma str_compare_eq : forall a b, str_compare a b = Eq <-> a = b.
Proof.
  induction a as [|x a IH]; destruct b as [|y b]; simpl; split; intro H;
    try reflexivity; try discriminate.
  - destruct (N.compare x y) eqn:E; try discriminate.
    apply N.compare_eq_iff in E. apply IH in H. subst. reflexivity.
  - inversion H; subst. rewrite N.compare_refl. apply IH. reflexivity.
Qed.

Lemma str_compare_refl : forall a, str_compare a a = Eq.
Proof. intro a. apply str_compare_eq. reflexivity. Qed.

Lemma str_compare_antisym : forall a b, str_compare b a = CompOpp (str_compare a b).
Proof.
  induction a as [|x a IH]; destruct b as [|y b]; simpl; try reflexivity.
  rewrite (N.compare_antisym x y).
  destruct (N.compare x y); simpl; auto.
Qed.

Lemma str_lt_trans : forall a b c, str_lt a b -> str_lt b c -> str_lt a c.
Proof.
  unfold str_lt.
  induction a as [|x a IH]; destruct b as [|y b]; destruct c as [|z c]; simpl;
    intros H1 H2; try reflexivity; try discriminate.
  destruct (N.compare x y) eqn:E1; try discriminate.
  - apply N.compare_eq_iff in E1. subst y.
    destruct (N.compare x z) eqn:E2; try discriminate; try reflexivity.
    eapply IH; eauto.
  - destruct (N.compare y z) eqn:E2; try discriminate.
    + apply N.compare_eq_iff in E2. subst z. rewrite E1. reflexivity.
    + assert (E3 : N.compare x z = Lt) by (exact (N.lt_trans _ _ _ E1 E2)).
      rewrite E3. reflexivity.
Qed.

Lemma str_eqb_eq : forall a b, str_eqb a b = true <-> a = b.
Proof.
  intros a b. unfold str_eqb. rewrite <- str_compare_eq.
  destruct (str_compare a b); split; intro H; try reflexivity; try discriminate.
Qed.

Lemma str_eqb_refl : forall a, str_eqb a a = true.
Proof. intro a. apply str_eqb_eq. reflexivity. Qed.

Lemma str_ltb_lt : forall a b, str_ltb a b = true <-> str_lt a b.
Proof.
  intros a b. unfold str_ltb, str_lt.
  destruct (str_compare a b); split; intro H; try reflexivity; try discriminate.
Qed.

Lemma str_leb_le : forall a b, str_leb a b = true <-> str_le a b.
Proof.
  intros a b. unfold str_leb, str_le.
  destruct (str_compare a b); split; intro H; try reflexivity; try discriminate; try congruence.
Qed.

Lemma str_lt_irrefl : forall a, ~ str_lt a a.
Proof. intros a H. unfold str_lt in H. rewrite str_compare_refl in H. discriminate. Qed.

Lemma str_le_refl : forall a, str_le a a.
Proof. intros a. unfold str_le. rewrite str_compare_refl. discriminate. Qed.

Lemma str_lt_le : forall a b, str_lt a b -> str_le a b.
Proof. unfold str_lt, str_le. intros a b H. rewrite H. discriminate. Qed.

Lemma str_le_not_gt : forall a b, str_le a b <-> ~ str_lt b a.
Proof.
  intros a b. unfold str_le, str_lt. rewrite (str_compare_antisym a b).
  destruct (str_compare a b); simpl; split; intro H; try congruence.
Qed.

Lemma str_le_cases : forall a b, str_le a b -> a = b \/ str_lt a b.
Proof.
  unfold str_le, str_lt. intros a b H.
  destruct (str_compare a b) eqn:E.
  - left. apply str_compare_eq. exact E.
  - right. reflexivity.
  - exfalso. apply H. reflexivity.
Qed.

Lemma str_total : forall a b, str_lt a b \/ a = b \/ str_lt b a.
Proof.
  intros a b. unfold str_lt. rewrite (str_compare_antisym a b).
  destruct (str_compare a b) eqn:E; simpl.
  - right. left. apply str_compare_eq. exact E.
  - left. reflexivity.
  - right. right. reflexivity.
Qed.

Lemma str_le_lt_trans : forall a b c, str_le a b -> str_lt b c -> str_lt a c.
Proof.
  intros a b c H1 H2. destruct (str_le_cases _ _ H1) as [->|H]; [exact H2|].
  eapply str_lt_trans; eauto.
Qed.

Lemma str_lt_le_trans : forall a b c, str_lt a b -> str_le b c -> str_lt a c.
Proof.
  intros a b c H1 H2. destruct (str_le_cases _ _ H2) as [<-|H]; [exact H1|].
  eapply str_lt_trans; eauto.
Qed.

Lemma str_le_trans : forall a b c, str_le a b -> str_le b c -> str_le a c.
Proof.
  intros a b c H1 H2. destruct (str_le_cases _ _ H1) as [->|H]; [exact H2|].
  apply str_lt_le. eapply str_lt_le_trans; eauto.
Qed.

Lemma str_lt_not_eq : forall a b, str_lt a b -> a <> b.
Proof. intros a b H E. subst. eapply str_lt_irrefl; eauto. Qed.

Lemma str_lt_asym : forall a b, str_lt a b -> ~ str_lt b a.
Proof. intros a b H1 H2. eapply str_lt_irrefl. eapply str_lt_trans; eauto. Qed.

Lemma str_leb_false_lt : forall a b, str_leb a b = false <-> str_lt b a.
Proof.
  intros a b. unfold str_leb, str_lt. rewrite (str_compare_antisym a b).
  destruct (str_compare a b); simpl; split; intro H; try reflexivity; try discriminate.
Qed.

Lemma str_ltb_false_le : forall a b, str_ltb a b = false <-> str_le b a.
Proof.
  intros a b. unfold str_ltb, str_le. rewrite (str_compare_antisym a b).
  destruct (str_compare a b); simpl; split; intro H; try reflexivity; try discriminate; try congruence.
Qed.

Lemma str_eqb_false_ne : forall a b, str_eqb a b = false <-> a <> b.
Proof.
  intros a b. split; intro H.
  - intro E. apply str_eqb_eq in E. congruence.
  - destruct (str_eqb a b) eqn:E; [|reflexivity]. apply str_eqb_eq in E. contradiction.
Qed.

Lemma str_eqb_sym : forall a b, str_eqb a b = str_eqb b a.
Proof.
  intros a b. unfold str_eqb. rewrite (str_compare_antisym a b).
  destruct (str_compare a b); reflexivity.
Qed.

(* Sorting strings: the models' insertion sorts by [str_leb] are [ListFacts.isort str_leb]. *)
Lemma str_isort_sorted l : StronglySorted str_le (isort str_leb l).
Proof.
  apply isort_StronglySorted; [apply str_leb_le| |exact str_le_trans].
  intros x y H. apply str_lt_le, str_leb_false_lt, H.
Qed.

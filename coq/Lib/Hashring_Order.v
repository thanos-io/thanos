(* Ketama placement does not depend on the order of the endpoint list
   ([ketama_new_perm], [ketama_answers_perm]; used by Proofs/C20.v for the multi-hashring
   and by Properties/C18.v and C21.v).
   eps' = permute eps perm is the reordered list and phi i = nth i perm 0 maps a position
   in eps' back to the position of the same endpoint in eps. Three steps:
   - the ring of eps' with its endpoint indexes renamed by phi is the ring of eps
     ([ring_renamed]: both are hash-sorted arrangements of the same collision-free sections);
   - [walk] commutes with the renaming ([walk_sim]). The zone sets of eps and eps' list the
     same zones in another order, so the azSpread maps of the two runs agree only up to the
     order of their keys ([sp_equiv]); [rejects] reads them through sget, smin and length,
     which do not see that order;
   - the outer loop, the constructor and the lookups follow. *)
From Coq Require Import ZArith NArith List Bool Lia Arith Permutation Sorting.Sorted.
Import ListNotations.
From Verif Require Import Lib.ListFacts Lib.Hashring_Ketama Lib.Hashring_KetamaFacts Lib.Hashring_RingFacts
  Lib.Hashring_Answers Lib.Hashring_AnswersFacts.
Close Scope Z_scope.

Definition dflt_ep : Z * list Z := (0%Z, []).

Definition secs_at (k : nat) (e : Z * list Z) : list section := map (fun h => mkS h k (fst e)) (snd e).

Lemma flat_map_map {A B C} (f : A -> B) (g : B -> list C) l : flat_map g (map f l) = flat_map (fun x => g (f x)) l.
Proof. induction l; simpl; [reflexivity|]. rewrite IHl. reflexivity. Qed.

Lemma map_flat_map {A B C} (f : B -> C) (g : A -> list B) l : map f (flat_map g l) = flat_map (fun x => map f (g x)) l.
Proof. induction l; simpl; [reflexivity|]. rewrite map_app, IHl. reflexivity. Qed.

Lemma sections_of_flat eps : forall idx,
  sections_of idx eps = flat_map (fun j => secs_at (idx + j) (nth j eps dflt_ep)) (seq 0 (length eps)).
Proof.
  induction eps as [|[az hs] r IH]; intro idx; simpl; [reflexivity|].
  rewrite Nat.add_0_r. f_equal. rewrite <- seq_shift, flat_map_map, IH.
  apply flat_map_ext_in. intros j _. replace (S idx + j) with (idx + S j) by lia. reflexivity.
Qed.

Section Perm.
  Variable eps : list (Z * list Z).
  Variable perm : list nat.
  Hypothesis Hperm : Permutation perm (seq 0 (length eps)).
  Let n := length eps.
  Let eps' := permute dflt_ep eps perm.
  Let phi := fun i => nth i perm 0.
  Let g := fun k => secs_at k (nth k eps dflt_ep).

  Lemma perm_length : length perm = n.
  Proof. rewrite (Permutation_length Hperm), seq_length. reflexivity. Qed.

  Lemma eps'_length : length eps' = n.
  Proof. unfold eps', permute. rewrite map_length. apply perm_length. Qed.

  Lemma perm_NoDup : NoDup perm.
  Proof. eapply Permutation_NoDup; [apply Permutation_sym; exact Hperm|apply seq_NoDup]. Qed.

  Lemma phi_lt i : i < n -> phi i < n.
  Proof.
    intro Hi. assert (In (phi i) perm) by (apply nth_In; rewrite perm_length; exact Hi).
    eapply Permutation_in in H; [|exact Hperm]. apply in_seq in H. unfold n. lia.
  Qed.

  Lemma phi_inj i j : i < n -> j < n -> phi i = phi j -> i = j.
  Proof.
    intros Hi Hj E. apply (proj1 (NoDup_nth perm 0) perm_NoDup); rewrite ?perm_length; assumption.
  Qed.

  Lemma eps'_nth j : j < n -> nth j eps' dflt_ep = nth (phi j) eps dflt_ep.
  Proof.
    intro Hj. unfold eps', permute.
    rewrite (nth_indep _ dflt_ep (nth 0 eps dflt_ep)) by (rewrite map_length, perm_length; exact Hj).
    rewrite (map_nth (fun i => nth i eps dflt_ep) perm 0 j). reflexivity.
  Qed.

  Lemma eps'_perm : Permutation eps' eps.
  Proof.
    unfold eps', permute.
    eapply Permutation_trans; [apply Permutation_map; exact Hperm|].
    rewrite (map_nth_seq dflt_ep eps). apply Permutation_refl.
  Qed.

  Lemma renamed_sections : map (rename phi) (sections_of 0 eps') = flat_map g perm.
  Proof.
    rewrite (sections_of_flat eps' 0), map_flat_map, eps'_length.
    replace (flat_map g perm) with (flat_map g (map phi (seq 0 n)))
      by (f_equal; unfold phi; rewrite <- perm_length; apply map_nth_seq).
    rewrite flat_map_map.
    apply flat_map_ext_in. intros j Hj. apply in_seq in Hj. simpl.
    rewrite (eps'_nth j) by lia. unfold g, secs_at. rewrite map_map. reflexivity.
  Qed.

  Lemma sections_perm : Permutation (map (rename phi) (sections_of 0 eps')) (sections_of 0 eps).
  Proof.
    rewrite renamed_sections, (sections_of_flat eps 0).
    apply Permutation_flat_map. exact Hperm.
  Qed.

  Lemma sections_perm_nonempty : sections_of 0 eps <> [] -> sections_of 0 eps' <> [].
  Proof.
    intros Hne X. apply Hne. pose proof sections_perm as P.
    rewrite X in P. exact (Permutation_nil P).
  Qed.

  Hypothesis Hnd : NoDup (map s_hash (sections_of 0 eps)).

  Lemma ring_renamed :
    map (rename phi) (sort_sections (sections_of 0 eps')) = sort_sections (sections_of 0 eps).
  Proof.
    assert (P : Permutation (map (rename phi) (sort_sections (sections_of 0 eps'))) (sections_of 0 eps))
      by (rewrite <- sort_sections_perm; apply sections_perm).
    apply sorted_unique.
    - apply StronglySorted_map_hash; [reflexivity|apply sort_sections_StronglySorted].
    - apply sort_sections_StronglySorted.
    - rewrite P. apply sort_sections_perm.
    - apply (Permutation_NoDup (Permutation_map s_hash (Permutation_sym P))), Hnd.
  Qed.
End Perm.

(* two azSpread maps with the same counts under the same, duplicate-free, keys in any order *)
Definition sp_equiv (sp sp' : spread) : Prop :=
  (forall z, sget sp z = sget sp' z) /\ Permutation (map fst sp) (map fst sp') /\ NoDup (map fst sp).

Lemma sget_notin sp z : ~ In z (map fst sp) -> sget sp z = 0%Z.
Proof.
  induction sp as [|[a c] r IH]; simpl; intro H; [reflexivity|].
  destruct (a =? z)%Z eqn:E; [apply Z.eqb_eq in E; subst; exfalso; apply H; now left|].
  apply IH. intro. apply H. now right.
Qed.

Lemma fold_sget_cons a c r ks : ~ In a ks ->
  fold_right (fun k m => Z.min (sget ((a, c) :: r) k) m) MaxInt64 ks
  = fold_right (fun k m => Z.min (sget r k) m) MaxInt64 ks.
Proof.
  induction ks as [|k ks IHk]; simpl; intro Hn; [reflexivity|].
  destruct (a =? k)%Z eqn:E; [apply Z.eqb_eq in E; subst; exfalso; apply Hn; now left|].
  f_equal. apply IHk. intro. apply Hn. now right.
Qed.

Lemma smin_as_fold sp : NoDup (map fst sp) ->
  smin sp = fold_right (fun k m => Z.min (sget sp k) m) MaxInt64 (map fst sp).
Proof.
  induction sp as [|[a c] r IH]; intro H; [reflexivity|].
  inversion H as [|? ? Hn Hnd]; subst.
  change (smin ((a, c) :: r)) with (Z.min c (smin r)).
  change (map fst ((a, c) :: r)) with (a :: map fst r).
  change (fold_right (fun k m => Z.min (sget ((a, c) :: r) k) m) MaxInt64 (a :: map fst r))
    with (Z.min (sget ((a, c) :: r) a) (fold_right (fun k m => Z.min (sget ((a, c) :: r) k) m) MaxInt64 (map fst r))).
  rewrite (fold_sget_cons a c r _ Hn), <- (IH Hnd). simpl. rewrite Z.eqb_refl. reflexivity.
Qed.

Lemma fold_min_perm (f : Z -> Z) M l l' : Permutation l l' ->
  fold_right (fun k m => Z.min (f k) m) M l = fold_right (fun k m => Z.min (f k) m) M l'.
Proof. induction 1; simpl; [reflexivity|rewrite IHPermutation; reflexivity|lia|congruence]. Qed.

Lemma fold_min_ext (f f' : Z -> Z) M l : (forall k, f k = f' k) ->
  fold_right (fun k m => Z.min (f k) m) M l = fold_right (fun k m => Z.min (f' k) m) M l.
Proof. intro H. induction l; simpl; [reflexivity|]. rewrite H, IHl. reflexivity. Qed.

Lemma sp_equiv_smin sp sp' : sp_equiv sp sp' -> smin sp = smin sp'.
Proof.
  intros [Hg [Hp Hnd]].
  rewrite (smin_as_fold sp Hnd), (smin_as_fold sp' (Permutation_NoDup Hp Hnd)).
  rewrite (fold_min_perm _ _ _ _ Hp). apply fold_min_ext. exact Hg.
Qed.

Lemma sp_equiv_length sp sp' : sp_equiv sp sp' -> length sp = length sp'.
Proof. intros [_ [Hp _]]. apply Permutation_length in Hp. rewrite !map_length in Hp. exact Hp. Qed.

Lemma sp_equiv_sincr sp sp' z : sp_equiv sp sp' -> In z (map fst sp) -> sp_equiv (sincr sp z) (sincr sp' z).
Proof.
  intros [Hg [Hp Hnd]] Hz.
  assert (Hz' : In z (map fst sp')) by (eapply Permutation_in; eauto).
  split; [|split].
  - intro z0. rewrite !sget_sincr by assumption. rewrite Hg. reflexivity.
  - rewrite !sincr_keys by assumption. exact Hp.
  - rewrite sincr_keys by assumption. exact Hnd.
Qed.

Definition map_out (f : nat -> nat) (o : outcome) : outcome :=
  match o with Done l => Done (map f l) | Stuck => Stuck | OutOfFuel => OutOfFuel end.

Section Sim.
  Variable n : nat.
  Variable phi : nat -> nat.
  Hypothesis phi_inj : forall i j, i < n -> j < n -> phi i = phi j -> i = j.
  Variable ring' : list section.
  Hypothesis ring'_lt : forall s, In s ring' -> s_ep s < n.
  Let ring := map (rename phi) ring'.

  Lemma rejects_sim reps' sp sp' s' :
    sp_equiv sp sp' -> In s' ring' -> (forall e, In e reps' -> e < n) ->
    rejects (map phi reps') sp (rename phi s') = rejects reps' sp' s'.
  Proof.
    intros He Hs Hr. unfold rejects. simpl.
    rewrite existsb_map_inj.
    2:{ intros y Hy E. apply phi_inj; auto. }
    destruct He as [Hg [Hp Hnd]].
    rewrite (sp_equiv_length sp sp' (conj Hg (conj Hp Hnd))), (sp_equiv_smin sp sp' (conj Hg (conj Hp Hnd))), Hg.
    reflexivity.
  Qed.

  Lemma walk_sim rf : forall fuel jn since reps' sp sp',
    sp_equiv sp sp' ->
    (forall s, In s ring' -> In (s_az s) (map fst sp)) ->
    (forall e, In e reps' -> e < n) ->
    walk true fuel ring rf jn since (map phi reps') sp = map_out phi (walk true fuel ring' rf jn since reps' sp').
  Proof.
    induction fuel as [|f IH]; intros jn since reps' sp sp' He Hk Hr; simpl.
    - rewrite map_length. destruct (rf <=? length reps'); reflexivity.
    - rewrite map_length. destruct (rf <=? length reps'); [reflexivity|].
      assert (Hl : length ring = length ring') by (unfold ring; apply map_length).
      rewrite !Hl.
      destruct (length ring' <=? since) eqn:E; simpl; [reflexivity|]. apply Nat.leb_gt in E.
      assert (Hlen : 0 < length ring') by lia.
      set (j := jn mod length ring').
      assert (Hj : j < length ring') by (apply Nat.mod_upper_bound; lia).
      assert (Hnth : nth j ring dummy_section = rename phi (nth j ring' dummy_section)).
      { unfold ring. rewrite (nth_indep _ dummy_section (rename phi dummy_section)) by (rewrite map_length; exact Hj).
        apply map_nth. }
      rewrite Hnth.
      assert (Hin : In (nth j ring' dummy_section) ring') by (apply nth_In; exact Hj).
      rewrite (rejects_sim reps' sp sp' _ He Hin Hr).
      destruct (rejects reps' sp' (nth j ring' dummy_section)).
      + apply IH; assumption.
      + replace (map phi reps' ++ [s_ep (rename phi (nth j ring' dummy_section))])
          with (map phi (reps' ++ [s_ep (nth j ring' dummy_section)])) by (rewrite map_app; reflexivity).
        simpl s_az. apply IH.
        * apply sp_equiv_sincr; [exact He|apply Hk; exact Hin].
        * intros s Hs. rewrite sincr_keys by (apply Hk; exact Hin). apply Hk. exact Hs.
        * intros e He'. apply in_app_or in He' as [He'|[<-|[]]]; [auto|apply ring'_lt; exact Hin].
  Qed.
End Sim.

Definition map_calc (f : nat -> nat) (c : calc_result) : calc_result :=
  match c with COk l => COk (map (map f) l) | CErr => CErr | CFuel => CFuel end.

Lemma calc_from_sim n phi ring' rf azs azs' fuel :
  (forall i j, i < n -> j < n -> phi i = phi j -> i = j) ->
  (forall s, In s ring' -> s_ep s < n) ->
  sp_equiv (spread_init azs) (spread_init azs') ->
  (forall s, In s ring' -> In (s_az s) azs) ->
  forall is,
  calc_from true fuel (map (rename phi) ring') rf azs is = map_calc phi (calc_from true fuel ring' rf azs' is).
Proof.
  intros Hinj Hlt He Hk. induction is as [|i r IH]; simpl; [reflexivity|].
  pose proof (walk_sim n phi Hinj ring' Hlt rf fuel i 0 [] (spread_init azs) (spread_init azs') He) as W.
  simpl in W. rewrite W.
  - destruct (walk true fuel ring' rf i 0 [] (spread_init azs')); simpl; try reflexivity.
    rewrite IH. destruct (calc_from true fuel ring' rf azs' r); reflexivity.
  - intros s Hs. rewrite spread_init_keys. apply Hk. exact Hs.
  - intros e [].
Qed.

Lemma search_ge_rename phi ring v : search_ge (map (rename phi) ring) v = search_ge ring v.
Proof. induction ring as [|s r IH]; simpl; [reflexivity|]. destruct (v <=? s_hash s)%Z; [reflexivity|]. rewrite IH. reflexivity. Qed.

Lemma ring_index_rename phi ring v : ring_index (map (rename phi) ring) v = ring_index ring v.
Proof. unfold ring_index. rewrite search_ge_rename, map_length. reflexivity. Qed.

Section Final.
  Variable eps : list (Z * list Z).
  Variable perm : list nat.
  Hypothesis Hperm : Permutation perm (seq 0 (length eps)).
  Hypothesis Hnd : NoDup (map s_hash (sections_of 0 eps)).
  Let eps' := permute dflt_ep eps perm.
  Let phi := fun i => nth i perm 0.

  Lemma az_sets_equiv : sp_equiv (spread_init (az_set [] eps)) (spread_init (az_set [] eps')).
  Proof.
    split; [|split].
    - intro z. rewrite !sget_init. reflexivity.
    - rewrite !spread_init_keys. apply NoDup_Permutation; try (apply az_set_NoDup; constructor).
      intro a. rewrite !az_set_spec. simpl.
      assert (P : Permutation eps' eps) by (apply eps'_perm; exact Hperm).
      split; intros [[]|[hs H]]; right; exists hs.
      + eapply Permutation_in; [apply Permutation_sym; exact P|exact H].
      + eapply Permutation_in; [exact P|exact H].
    - rewrite spread_init_keys. apply az_set_NoDup. constructor.
  Qed.

  Lemma ketama_new_perm rf :
    ketama_new eps rf =
    match ketama_new eps' rf with
    | KOk ring' reps' => KOk (map (rename phi) ring') (map (map phi) reps')
    | KErr => KErr
    | KFuel => KFuel
    end.
  Proof.
    unfold ketama_new, ketama_new_fuel.
    assert (Hlen : length eps' = length eps) by (apply eps'_length; exact Hperm).
    rewrite Hlen. destruct (length eps <? rf); [reflexivity|].
    pose proof (ring_renamed eps perm Hperm Hnd) as HR. fold eps' in HR. fold phi in HR.
    set (ring' := sort_sections (sections_of 0 eps')) in *.
    assert (Hf : walk_fuel (sections_of 0 eps) rf = walk_fuel (sections_of 0 eps') rf).
    { unfold walk_fuel. f_equal. f_equal.
      rewrite <- (sort_sections_length (sections_of 0 eps)), <- (sort_sections_length (sections_of 0 eps')).
      fold ring'. rewrite <- HR, map_length. reflexivity. }
    rewrite Hf. unfold calc_replicas. rewrite <- HR at 1 2. rewrite map_length.
    rewrite (calc_from_sim (length eps) phi ring' rf (az_set [] eps) (az_set [] eps')).
    - destruct (calc_from true _ ring' rf (az_set [] eps') _); simpl; [rewrite HR| |]; reflexivity.
    - intros i j Hi Hj. apply (phi_inj eps perm Hperm); assumption.
    - intros s Hs. rewrite <- Hlen. exact (ring_ep_lt _ _ Hs).
    - exact az_sets_equiv.
    - intros s Hs.
      assert (Hs' : In (rename phi s) (sort_sections (sections_of 0 eps))) by (rewrite <- HR; apply in_map; exact Hs).
      apply ring_consistent in Hs' as [_ H]. exact H.
  Qed.

  Lemma ketama_answers_perm rf v : sections_of 0 eps <> [] ->
    option_map (map phi) (ketama_answers eps' rf v) = ketama_answers eps rf v.
  Proof.
    intro Hne. pose proof (sections_perm_nonempty eps perm Hperm Hne) as Hne'. fold eps' in Hne'.
    pose proof (ketama_new_perm rf) as K.
    destruct (ketama_new eps' rf) as [ring' reps'| |] eqn:K'.
    - rewrite (proj1 (ketama_answers_KOk _ _ v _ _ Hne' K')), (proj1 (ketama_answers_KOk _ _ v _ _ Hne K)).
      simpl. f_equal. rewrite ring_index_rename. symmetry. apply (map_nth (map phi) reps' []).
    - unfold ketama_answers. rewrite K, K'. reflexivity.
    - unfold ketama_answers. rewrite K, K'. reflexivity.
  Qed.
End Final.

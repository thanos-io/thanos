(* Proofs about the shared proxy model under store failures (C06): nothing a store
   delivered is lost by the de-duplicator, a failing store's warning reaches the
   client under the warn strategy, and any warning aborts under the abort strategy. *)
From Coq Require Import ZArith NArith List Bool Lia Permutation Sorted.
Import ListNotations.
From Verif Require Import Lib.Proxy_Order Lib.Proxy_Model Lib.Proxy_Proofs Lib.Proxy_LoserTree.

Section Fail.
Context {L C K W : Type}
  (lcmp : L -> L -> comparison) (Hl : OrdSpec lcmp)
  (ckey : C -> K) (keqb : K -> K -> bool) (Hk : forall a b, keqb a b = true <-> a = b)
  (cleb : C -> C -> bool) (R : C -> C -> Prop)
  (HR1 : forall c d, cleb c d = true -> R c d) (HR2 : forall c d, cleb c d = false -> R d c)
  (wlen : W -> N).

Notation resp := (@resp L C W).
Notation frame := (@frame L C W).
Notation script := (@script L C W).
Notation sers := (@Proxy_Proofs.sers L C W).
Notation warns := (@Proxy_Proofs.warns L C W).

Lemma group_keeps (s : list (L * list C)) : forall p X cs,
  In (X, cs) (olist p ++ s) -> exists cs0, In (X, cs0) (group lcmp p s) /\ incl cs cs0.
Proof.
  induction s as [|[lb c] r IH]; intros p X cs Hin.
  - rewrite app_nil_r in Hin. destruct p as [g|]; cbn in *; [|contradiction].
    exists cs. split; [exact Hin | apply incl_refl].
  - destruct p as [[pl pcs]|]; cbn [group].
    2:{ apply (IH (Some (lb, c))). exact Hin. }
    cbn [olist app] in Hin. destruct (lcmp pl lb) eqn:E.
    + apply (cmp_eq _ Hl) in E. subst lb.
      destruct Hin as [Hin|[Hin|Hin]].
      * inversion Hin; subst. destruct (IH (Some (X, cs ++ c)) X (cs ++ c)) as [cs0 [H1 H2]]; [left; reflexivity|].
        exists cs0. split; [exact H1|]. intros x Hx. apply H2. apply in_or_app. left. exact Hx.
      * inversion Hin; subst. destruct (IH (Some (X, pcs ++ cs)) X (pcs ++ cs)) as [cs0 [H1 H2]]; [left; reflexivity|].
        exists cs0. split; [exact H1|]. intros x Hx. apply H2. apply in_or_app. right. exact Hx.
      * apply (IH (Some (pl, pcs ++ c))). right. exact Hin.
    + destruct Hin as [Hin|Hin].
      * inversion Hin; subst. exists cs. split; [left; reflexivity | apply incl_refl].
      * destruct (IH (Some (lb, c)) X cs Hin) as [cs0 [H1 H2]]. exists cs0. split; [right; exact H1 | exact H2].
    + destruct Hin as [Hin|Hin].
      * inversion Hin; subst. exists cs. split; [left; reflexivity | apply incl_refl].
      * destruct (IH (Some (lb, c)) X cs Hin) as [cs0 [H1 H2]]. exists cs0. split; [right; exact H1 | exact H2].
Qed.

(* whatever order the stream has: every series that enters the de-duplicator comes out
   under its label set with (at least) all its chunk keys *)
Lemma dedup_keeps (l : list resp) X cs :
  In (X, cs) (sers l) ->
  exists cs', In (X, cs') (sers (dedup lcmp ckey keqb cleb None l))
              /\ forall c, In c cs -> In (ckey c) (map ckey cs').
Proof.
  intros Hin. rewrite (dedup_sers lcmp).
  destruct (group_keeps (sers l) None X cs Hin) as [cs0 [H1 H2]].
  exists (chained ckey keqb cleb cs0). split.
  - apply in_map_iff. exists (X, cs0). split; [reflexivity | exact H1].
  - intros c Hc. destruct (chained_spec ckey keqb Hk cleb R HR1 HR2 cs0) as [_ [_ [S3 _]]].
    apply S3. apply in_map. apply H2. exact Hc.
Qed.

Lemma series_loop_aborts lbreak limit (l : list resp) : forall i,
  (forall j, lbreak limit j = false) -> warns l <> [] ->
  snd (series_loop lbreak true limit i l) = true.
Proof.
  induction l as [|x r IH]; intros i Hb Hw; [exfalso; apply Hw; reflexivity|].
  cbn [series_loop]. rewrite Hb. destruct x as [lb cs|w]; [|reflexivity].
  destruct (series_loop lbreak true limit (i + 1) r) as [o a] eqn:E. cbn [snd].
  specialize (IH (i + 1)%Z Hb Hw). rewrite E in IH. exact IH.
Qed.

Fixpoint open_warns (ss : list script) : list W :=
  match ss with
  | [] => []
  | s :: r => match sopen_err s with Some w => w :: open_warns r | None => open_warns r end
  end.
Definition is_open (s : script) : bool := match sopen_err s with None => true | Some _ => false end.

Lemma open_all_warn (ss : list script) : open_all false ss = Some (open_warns ss, filter is_open ss).
Proof.
  induction ss as [|s r IH]; [reflexivity|]. cbn [open_all open_warns filter]. unfold is_open at 1.
  destruct (sopen_err s); rewrite IH; reflexivity.
Qed.

Lemma open_all_abort (ss : list script) :
  open_all true ss = if forallb is_open ss then Some ([], ss) else None.
Proof.
  induction ss as [|s r IH]; [reflexivity|]. cbn [open_all forallb]. unfold is_open at 1.
  destruct (sopen_err s); [reflexivity|]. rewrite IH. cbn. destruct (forallb is_open r); reflexivity.
Qed.

Lemma in_open_warns (ss : list script) s w : In s ss -> sopen_err s = Some w -> In w (open_warns ss).
Proof.
  induction ss as [|x r IH]; intros Hin Hs; [contradiction|]. cbn [open_warns].
  destruct Hin as [->|Hin]; [rewrite Hs; left; reflexivity|].
  destruct (sopen_err x); [right|]; apply IH; assumption.
Qed.

Lemma resp_set_fail_warn lazy wrl rm (s : script) w :
  send s = ERecvErr w -> In (RWarn w) (resp_set lcmp lazy wrl rm s).
Proof.
  intros He. eapply Permutation_in; [apply Permutation_sym, (resp_set_perm lcmp)|].
  apply in_map_iff. exists (RWarn w). split; [reflexivity|]. unfold rsent. rewrite He.
  apply in_or_app. right. left. reflexivity.
Qed.

Definition fail_warn (s : script) : option W :=
  match sopen_err s with
  | Some w => Some w
  | None => match send s with ERecvErr w => Some w | EEof => None end
  end.

Lemma in_merged lazy wrl rm (os : list script) x s :
  In s os -> In x (resp_set lcmp lazy wrl rm s) ->
  In x (lt_merge lcmp wlen (map (resp_set lcmp lazy wrl rm) os)).
Proof.
  intros Hs Hx. eapply Permutation_in.
  - apply Permutation_sym. apply (min_run_perm lcmp wlen). apply (lt_merge_min_run lcmp Hl wlen).
  - apply in_concat. exists (resp_set lcmp lazy wrl rm s). split; [apply in_map; exact Hs | exact Hx].
Qed.

(* ABORT: a failing store (open or receive) fails the request *)
Theorem abort_fails lbreak lazy wrl rm limit batch (scripts : list script) :
  (forall i, lbreak limit i = false) ->
  (exists s w, In s scripts /\ fail_warn s = Some w) ->
  proxy_series lcmp ckey keqb cleb wlen lbreak lazy wrl true true rm limit batch scripts = None.
Proof.
  intros Hb [s [w [Hs Hf]]]. unfold proxy_series. rewrite open_all_abort.
  destruct (forallb is_open scripts) eqn:Eo; [|reflexivity].
  rewrite forallb_forall in Eo. specialize (Eo s Hs). unfold is_open in Eo. unfold fail_warn in Hf.
  destruct (sopen_err s); [discriminate|]. destruct (send s) as [|w'] eqn:Es; [discriminate|]. inversion Hf; subst w'.
  set (merged := lt_merge lcmp wlen (map (resp_set lcmp lazy wrl rm) scripts)).
  assert (Hw : warns (dedup lcmp ckey keqb cleb None merged) <> []).
  { rewrite dedup_warns. intros E.
    assert (In w (warns merged)) as Hin.
    { apply in_warns. unfold merged. eapply in_merged; [exact Hs | apply resp_set_fail_warn; exact Es]. }
    rewrite E in Hin. contradiction. }
  pose proof (series_loop_aborts lbreak limit _ 0%Z Hb Hw) as Ha.
  destruct (series_loop lbreak true limit 0 (dedup lcmp ckey keqb cleb None merged)) as [o a]. cbn in Ha. subst a. reflexivity.
Qed.

(* WARN: the request succeeds, every failed store is reported by (at least) its warning,
   and every series read from a store whose stream opened — in particular everything of
   the stores that did not fail — is in the result with all its chunk keys *)
Theorem warn_succeeds lbreak lazy wrl rm limit batch (scripts : list script) :
  (forall i, lbreak limit i = false) ->
  exists frames,
    proxy_series lcmp ckey keqb cleb wlen lbreak lazy wrl false false rm limit batch scripts = Some frames
    /\ (forall s w, In s scripts -> fail_warn s = Some w -> In w (warns (unbatch frames)))
    /\ (forall s X cs, In s scripts -> sopen_err s = None -> In (X, cs) (presented wrl rm s) ->
          exists cs', In (X, cs') (sers (unbatch frames)) /\ forall c, In c cs -> In (ckey c) (map ckey cs')).
Proof.
  intros Hb. unfold proxy_series. rewrite open_all_warn.
  set (os := filter is_open scripts). set (merged := lt_merge lcmp wlen (map (resp_set lcmp lazy wrl rm) os)).
  rewrite series_loop_all by exact Hb. eexists. split; [reflexivity|]. rewrite unbatch_send_all.
  assert (Hos : forall s, In s scripts -> sopen_err s = None -> In s os).
  { intros s Hs Ho. unfold os. apply filter_In. split; [exact Hs|]. unfold is_open. rewrite Ho. reflexivity. }
  split.
  - intros s w Hs Hf. rewrite warns_app. apply in_or_app. unfold fail_warn in Hf.
    destruct (sopen_err s) as [w0|] eqn:Eo.
    + inversion Hf; subst w0. left.
      assert (warns (map RWarn (open_warns scripts)) = open_warns scripts) as ->.
      { induction (open_warns scripts) as [|a r IH]; [reflexivity|]. cbn [map].
        change (warns (RWarn a :: map RWarn r)) with (a :: warns (map RWarn r)). rewrite IH. reflexivity. }
      eapply in_open_warns; eauto.
    + destruct (send s) as [|w'] eqn:Es; [discriminate|]. inversion Hf; subst w'. right.
      rewrite dedup_warns. apply in_warns. unfold merged. apply (in_merged lazy wrl rm os _ s (Hos s Hs Eo)). apply resp_set_fail_warn. exact Es.
  - intros s X cs Hs Ho Hin.
    assert (Hm : In (X, cs) (sers merged)).
    { apply in_sers. unfold merged. apply (in_merged lazy wrl rm os _ s (Hos s Hs Ho)).
      apply in_sers. eapply Permutation_in; [apply Permutation_sym, (resp_set_sers lcmp) | exact Hin]. }
    destruct (dedup_keeps merged X cs Hm) as [cs' [H1 H2]]. exists cs'. split; [|exact H2].
    rewrite sers_app. apply in_or_app. right. exact H1.
Qed.

End Fail.

(* Crash group (C28, C35): a generic object store as an association list,
   mutating operations, the op log, and crash points (= prefixes of the op log).

   [put] keeps the list ordered by a key order [kltb] when it is ordered, so a
   model store and the listing of the real bucket (printed by the harness in
   the same order) are syntactically equal; none of the lemmas below needs the
   order. *)
From Coq Require Import List Bool Arith Lia.
Import ListNotations.
From Verif Require Import Lib.ListFacts.

Lemma tl_In {A} (l : list A) x : In x (tl l) -> In x l.
Proof. destruct l; simpl; auto. Qed.

Lemma forallb_firstn {A} (p : A -> bool) (l : list A) k :
  forallb p l = true -> forallb p (firstn k l) = true.
Proof. rewrite !forallb_forall. intros H o Ho. apply H, (firstn_In l k), Ho. Qed.

Section Store.
  Variables K V : Type.
  Variable keqb : K -> K -> bool.
  Variable kltb : K -> K -> bool.
  Hypothesis keqb_spec : forall a b, keqb a b = true <-> a = b.

  Definition store := list (K * V).

  Fixpoint get (s : store) (k : K) : option V :=
    match s with
    | [] => None
    | (k', v) :: r => if keqb k k' then Some v else get r k
    end.

  Definition has (s : store) (k : K) : bool :=
    match get s k with Some _ => true | None => false end.

  Fixpoint del (s : store) (k : K) : store :=
    match s with
    | [] => []
    | (k', v) :: r => if keqb k k' then del r k else (k', v) :: del r k
    end.

  (* insert-or-replace; position by [kltb] *)
  Fixpoint put (s : store) (k : K) (v : V) : store :=
    match s with
    | [] => [(k, v)]
    | (k', v') :: r =>
        if keqb k k' then (k, v) :: del r k
        else if kltb k k' then (k, v) :: (k', v') :: del r k
        else (k', v') :: put r k v
    end.

  Lemma keqb_refl k : keqb k k = true.
  Proof. apply keqb_spec. reflexivity. Qed.

  Lemma keqb_neq a b : a <> b -> keqb a b = false.
  Proof.
    intros H. destruct (keqb a b) eqn:E; [|reflexivity].
    apply keqb_spec in E. contradiction.
  Qed.

  Lemma keqb_false a b : keqb a b = false -> a <> b.
  Proof. intros E H. subst. rewrite keqb_refl in E. discriminate. Qed.

  Lemma get_del_same s k : get (del s k) k = None.
  Proof.
    induction s as [|[k' v] r IH]; simpl; [reflexivity|].
    destruct (keqb k k') eqn:E; [exact IH|]. simpl. rewrite E. exact IH.
  Qed.

  Lemma get_del_other s k k2 : k2 <> k -> get (del s k) k2 = get s k2.
  Proof.
    intros N. induction s as [|[k' v] r IH]; simpl; [reflexivity|].
    destruct (keqb k k') eqn:E.
    - apply keqb_spec in E. subst k'. rewrite (keqb_neq _ _ N). exact IH.
    - simpl. destruct (keqb k2 k'); [reflexivity|exact IH].
  Qed.

  Lemma get_put_same s k v : get (put s k v) k = Some v.
  Proof.
    induction s as [|[k' v'] r IH]; simpl.
    - rewrite keqb_refl. reflexivity.
    - destruct (keqb k k') eqn:E; simpl.
      + rewrite keqb_refl. reflexivity.
      + destruct (kltb k k'); simpl.
        * rewrite keqb_refl. reflexivity.
        * rewrite E. exact IH.
  Qed.

  Lemma get_put_other s k v k2 : k2 <> k -> get (put s k v) k2 = get s k2.
  Proof.
    intros N. induction s as [|[k' v'] r IH]; simpl.
    - rewrite (keqb_neq _ _ N). reflexivity.
    - destruct (keqb k k') eqn:E; simpl.
      + apply keqb_spec in E. subst k'. rewrite (keqb_neq _ _ N).
        apply get_del_other; assumption.
      + destruct (kltb k k'); simpl.
        * rewrite (keqb_neq _ _ N).
          destruct (keqb k2 k'); [reflexivity|]. apply get_del_other; assumption.
        * destruct (keqb k2 k'); [reflexivity|exact IH].
  Qed.

  Lemma get_In s k v : get s k = Some v -> In (k, v) s.
  Proof.
    induction s as [|[k' v'] r IH]; simpl; [discriminate|].
    destruct (keqb k k') eqn:E.
    - intros H. inversion H; subst. apply keqb_spec in E. subst. left; reflexivity.
    - intros H. right. apply IH; assumption.
  Qed.

  Lemma get_none_keys s k : get s k = None -> ~ In k (map fst s).
  Proof.
    induction s as [|[k' v'] r IH]; simpl; [tauto|].
    destruct (keqb k k') eqn:E; [discriminate|].
    intros H [H1|H1]; [subst; rewrite keqb_refl in E; discriminate|].
    apply IH; assumption.
  Qed.

  Lemma get_some_keys s k v : get s k = Some v -> In k (map fst s).
  Proof. intros H. apply get_In in H. apply (in_map fst) in H. exact H. Qed.

  Lemma keys_get s k : In k (map fst s) -> exists v, get s k = Some v.
  Proof.
    induction s as [|[k' v'] r IH]; simpl; [tauto|].
    intros [H|H].
    - subst. rewrite keqb_refl. eauto.
    - destruct (keqb k k'); eauto.
  Qed.

  Inductive op := Up (k : K) (v : V) | Del (k : K).

  Definition apply_op (s : store) (o : op) : store :=
    match o with Up k v => put s k v | Del k => del s k end.

  Definition apply_ops (s : store) (l : list op) : store := fold_left apply_op l s.

  (* the store after every prefix of the log (every crash point), initial state first *)
  Fixpoint states (s : store) (l : list op) : list store :=
    s :: match l with [] => [] | o :: r => states (apply_op s o) r end.

  Lemma apply_ops_app s l1 l2 : apply_ops s (l1 ++ l2) = apply_ops (apply_ops s l1) l2.
  Proof. apply fold_left_app. Qed.

  Lemma states_length s l : length (states s l) = S (length l).
  Proof. revert s; induction l as [|o r IH]; intros s; simpl; [reflexivity|]. rewrite IH. reflexivity. Qed.

  Lemma states_firstn s l s' :
    In s' (states s l) <-> exists k, (k <= length l)%nat /\ s' = apply_ops s (firstn k l).
  Proof.
    revert s. induction l as [|o r IH]; intros s; simpl.
    - split.
      + intros [H|[]]. subst. exists 0%nat. split; [lia|reflexivity].
      + intros [k [_ H]]. left. destruct k; simpl in H; subst; reflexivity.
    - split.
      + intros [H|H].
        * subst. exists 0%nat. split; [lia|reflexivity].
        * apply IH in H. destruct H as [k [Hk H]]. exists (S k). split; [lia|exact H].
      + intros [k [Hk H]]. destruct k as [|k]; simpl in H.
        * left. subst; reflexivity.
        * right. apply IH. exists k. split; [lia|exact H].
  Qed.

  Lemma states_last s l : In (apply_ops s l) (states s l).
  Proof.
    apply states_firstn. exists (length l). split; [lia|]. rewrite firstn_all. reflexivity.
  Qed.

  Lemma states_app s l1 l2 s' :
    In s' (states s (l1 ++ l2)) <-> In s' (states s l1) \/ In s' (states (apply_ops s l1) l2).
  Proof.
    revert s. induction l1 as [|o r IH]; intros s; simpl.
    - split.
      + intros H. right. exact H.
      + intros [[H|[]]|H]; [|exact H]. subst. destruct l2; simpl; left; reflexivity.
    - rewrite IH. tauto.
  Qed.

  Lemma states_firstn_incl s l k s' :
    In s' (states s (firstn k l)) -> In s' (states s l).
  Proof.
    intros H. rewrite <- (firstn_skipn k l). apply states_app. left. exact H.
  Qed.

  Lemma states_prefix s l k : In (apply_ops s (firstn k l)) (states s l).
  Proof. apply states_firstn_incl with (k := k), states_last. Qed.

  Lemma last_states_gen l : forall s d, last (states s l) d = apply_ops s l.
  Proof.
    unfold apply_ops.
    induction l as [|o r IH]; intros s d; [reflexivity|].
    change (states s (o :: r)) with (s :: states (apply_op s o) r).
    change (fold_left apply_op (o :: r) s) with (fold_left apply_op r (apply_op s o)).
    rewrite <- (IH (apply_op s o) d).
    destruct r; reflexivity.
  Qed.

  Lemma last_states s l : last (tl (states s l)) s = apply_ops s l.
  Proof.
    destruct l as [|o r]; [reflexivity|].
    change (tl (states s (o :: r))) with (states (apply_op s o) r).
    rewrite last_states_gen. reflexivity.
  Qed.

  (* every op of the log satisfies [G] in the state where it is issued *)
  Fixpoint guarded (G : store -> op -> Prop) (s : store) (l : list op) : Prop :=
    match l with
    | [] => True
    | o :: r => G s o /\ guarded G (apply_op s o) r
    end.

  Lemma guarded_app G s l1 l2 :
    guarded G s (l1 ++ l2) <-> guarded G s l1 /\ guarded G (apply_ops s l1) l2.
  Proof.
    revert s. induction l1 as [|o r IH]; intros s; simpl; [tauto|].
    rewrite IH. tauto.
  Qed.

  Lemma guarded_firstn G s l k : guarded G s l -> guarded G s (firstn k l).
  Proof.
    revert s k. induction l as [|o r IH]; intros s k H; destruct k; simpl in *; try exact I.
    destruct H as [H1 H2]. split; [exact H1|]. apply IH. exact H2.
  Qed.

  Lemma guarded_stateless (G : store -> op -> Prop) l :
    (forall o, In o l -> forall s, G s o) -> forall s, guarded G s l.
  Proof.
    induction l as [|o r IH]; intros H s; simpl; [exact I|].
    split; [apply H; left; reflexivity|]. apply IH. intros o' Ho'. apply H. right; assumption.
  Qed.

  (* An invariant kept by every guarded op holds at every crash point of a guarded log. *)
  Theorem states_invariant (P : store -> Prop) (G : store -> op -> Prop) :
    (forall s o, P s -> G s o -> P (apply_op s o)) ->
    forall l s, P s -> guarded G s l -> forall s', In s' (states s l) -> P s'.
  Proof.
    intros Hstep. induction l as [|o r IH]; intros s HP HG s' Hin; simpl in *.
    - destruct Hin as [H|[]]. subst. exact HP.
    - destruct Hin as [H|H]; [subst; exact HP|].
      destruct HG as [G1 G2]. eapply IH; [|exact G2|exact H]. apply Hstep; assumption.
  Qed.

  Definition op_key (o : op) : K := match o with Up k _ => k | Del k => k end.

  Lemma get_apply_op_other s o k : k <> op_key o -> get (apply_op s o) k = get s k.
  Proof.
    destruct o as [k' v|k']; simpl; intros N.
    - apply get_put_other; assumption.
    - apply get_del_other; assumption.
  Qed.

  Lemma get_apply_ops_other l : forall s k,
    (forall o, In o l -> k <> op_key o) -> get (apply_ops s l) k = get s k.
  Proof.
    unfold apply_ops.
    induction l as [|o r IH]; intros s k H; simpl; [reflexivity|].
    rewrite IH.
    - apply get_apply_op_other. apply H. left; reflexivity.
    - intros o' Ho'. apply H. right; assumption.
  Qed.

  Definition is_up (o : op) : bool := match o with Up _ _ => true | Del _ => false end.

  Lemma has_after_ups l : forall s k,
    forallb is_up l = true -> get s k <> None \/ (exists v, In (Up k v) l) ->
    get (apply_ops s l) k <> None.
  Proof.
    unfold apply_ops.
    induction l as [|o r IH]; intros s k Hall Hk; simpl.
    - destruct Hk as [Hk|[v []]]. exact Hk.
    - simpl in Hall. apply andb_true_iff in Hall as [Ho Hr].
      destruct o as [k' v'|k']; [|discriminate]. apply IH; [exact Hr|]. simpl.
      destruct (keqb k k') eqn:E.
      + apply keqb_spec in E. subst. left. rewrite get_put_same. discriminate.
      + rewrite get_put_other by (apply keqb_false; exact E).
        destruct Hk as [Hk|[v [Hv|Hv]]]; [left; exact Hk| |right; exists v; exact Hv].
        inversion Hv; subst. rewrite keqb_refl in E. discriminate.
  Qed.

  Definition is_del (o : op) : bool := match o with Del _ => true | Up _ _ => false end.

  Lemma get_none_after_dels l : forall s k,
    forallb is_del l = true -> get s k = None \/ In (Del k) l -> get (apply_ops s l) k = None.
  Proof.
    unfold apply_ops.
    induction l as [|o r IH]; intros s k Hall Hk; simpl.
    - destruct Hk as [Hk|[]]. exact Hk.
    - simpl in Hall. apply andb_true_iff in Hall as [Ho Hr].
      destruct o as [k' v'|k']; [discriminate|]. apply IH; [exact Hr|]. simpl.
      destruct (keqb k k') eqn:E.
      + apply keqb_spec in E. subst. left. apply get_del_same.
      + rewrite get_del_other by (apply keqb_false; exact E).
        destruct Hk as [Hk|[Hk|Hk]]; [left; exact Hk| |right; exact Hk].
        inversion Hk; subst. rewrite keqb_refl in E. discriminate.
  Qed.

  Lemma get_some_after_dels l : forall s k v,
    forallb is_del l = true -> get (apply_ops s l) k = Some v -> get s k = Some v.
  Proof.
    unfold apply_ops. induction l as [|o r IH]; intros s k v Hall H; simpl in *; [exact H|].
    apply andb_true_iff in Hall as [Ho Hr]. destruct o as [k0 v0|k0]; [discriminate|].
    apply IH in H; [|exact Hr]. simpl in H.
    destruct (keqb k k0) eqn:E.
    - apply keqb_spec in E. subst. rewrite get_del_same in H. discriminate.
    - rewrite get_del_other in H; [exact H|]. apply keqb_false. exact E.
  Qed.
End Store.

Arguments Up {K V}.
Arguments Del {K V}.

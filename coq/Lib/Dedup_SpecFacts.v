(* Facts about the definitions of Lib/Dedup_Iter.v that the proofs of C01, C02
   and C40 share: the boolean equalities, drop_lt, strictly increasing lists,
   the parts of node_next, and the specification-level penalty merge [pm]. *)
From Coq Require Import ZArith List Bool Lia.
Import ListNotations.
From Verif Require Import Lib.Corr Lib.ListFacts Lib.Dedup_Iter.
Open Scope Z_scope.

Lemma sample_eqb_spec x y : sample_eqb x y = true <-> x = y.
Proof. exact (pair_eqb_spec Z.eqb Z.eqb Z.eqb_eq Z.eqb_eq x y). Qed.

Lemma samples_eqb_spec l1 l2 : list_eqb sample_eqb l1 l2 = true <-> l1 = l2.
Proof. exact (list_eqb_spec _ sample_eqb_spec l1 l2). Qed.

Lemma samples_eqb_refl l : list_eqb sample_eqb l l = true.
Proof. apply samples_eqb_spec. reflexivity. Qed.

Lemma obs_list_eqb_refl (l : list obs) : list_eqb (option_eqb sample_eqb) l l = true.
Proof. apply (list_eqb_spec _ (option_eqb_spec _ sample_eqb_spec)). reflexivity. Qed.

Lemma drop_lt_suffix t l : exists p, l = p ++ drop_lt t l.
Proof.
  induction l as [|s r IH]; simpl.
  - exists []; reflexivity.
  - destruct (ts s <? t).
    + destruct IH as [p Hp]. exists (s :: p). simpl. f_equal. exact Hp.
    + exists []; reflexivity.
Qed.

Lemma drop_lt_In t l s : In s (drop_lt t l) -> In s l.
Proof.
  destruct (drop_lt_suffix t l) as [p Hp]. intro H. rewrite Hp. apply in_or_app. right; exact H.
Qed.

Lemma drop_lt_length t l : (length (drop_lt t l) <= length l)%nat.
Proof.
  destruct (drop_lt_suffix t l) as [p Hp]. rewrite Hp at 2. rewrite app_length. lia.
Qed.

Lemma drop_lt_head t l s r : drop_lt t l = s :: r -> t <= ts s.
Proof.
  induction l as [|x l IH]; simpl; [discriminate|].
  destruct (ts x <? t) eqn:E; [exact IH|].
  intro H; inversion H; subst. apply Z.ltb_ge in E. exact E.
Qed.

Lemma drop_lt_keep t s r : t <= ts s -> drop_lt t (s :: r) = s :: r.
Proof. intro H. simpl. apply Z.ltb_ge in H. rewrite H. reflexivity. Qed.

Lemma drop_lt_skip t s r : ts s < t -> drop_lt t (s :: r) = drop_lt t r.
Proof. intro H. simpl. apply Z.ltb_lt in H. rewrite H. reflexivity. Qed.

Lemma drop_lt_cons_length t s r : ts s < t -> (length (drop_lt t (s :: r)) <= length r)%nat.
Proof. intro H. rewrite drop_lt_skip by exact H. apply drop_lt_length. Qed.

Lemma strict_from_weaken lo lo' l :
  strict_incr_from (Some lo) l = true -> lo' <= lo -> strict_incr_from (Some lo') l = true.
Proof.
  destruct l as [|s r]; simpl; [reflexivity|].
  intros H Hle. apply andb_true_iff in H as [H1 H2]. apply andb_true_iff; split; [|exact H2].
  apply Z.ltb_lt in H1. apply Z.ltb_lt. lia.
Qed.

Lemma strict_from_none lo l : strict_incr_from lo l = true -> strict_incr l = true.
Proof.
  unfold strict_incr. destruct l as [|s r]; simpl; [reflexivity|].
  intro H. apply andb_true_iff in H as [_ H]. exact H.
Qed.

Lemma strict_cons s r : strict_incr (s :: r) = true <-> strict_incr_from (Some (ts s)) r = true.
Proof. unfold strict_incr; simpl. reflexivity. Qed.

Lemma strict_from_all lo l s :
  strict_incr_from (Some lo) l = true -> In s l -> lo < ts s.
Proof.
  revert lo. induction l as [|x l IH]; simpl; intros lo H Hin; [contradiction|].
  apply andb_true_iff in H as [H1 H2]. apply Z.ltb_lt in H1.
  destruct Hin as [->|Hin]; [exact H1|].
  specialize (IH _ H2 Hin). lia.
Qed.

Lemma strict_from_tail lo x l : strict_incr_from lo (x :: l) = true -> strict_incr_from (Some (ts x)) l = true.
Proof. simpl. intro H. apply andb_true_iff in H as [_ H]. exact H. Qed.

Lemma strict_suffix p : forall l lo, strict_incr_from lo (p ++ l) = true -> strict_incr l = true.
Proof.
  induction p as [|x p IH]; simpl; intros l lo H.
  - eapply strict_from_none; exact H.
  - apply andb_true_iff in H as [_ H]. eapply IH; exact H.
Qed.

Lemma drop_lt_sorted_next s r : strict_incr (s :: r) = true -> drop_lt (ts s + 1) (s :: r) = r.
Proof.
  intro H. rewrite drop_lt_skip by lia. apply strict_cons in H.
  destruct r as [|x r]; [reflexivity|].
  simpl in H. apply andb_true_iff in H as [H _]. apply Z.ltb_lt in H.
  apply drop_lt_keep. lia.
Qed.

Lemma drop_lt_filter t l lo :
  strict_incr_from lo l = true -> drop_lt t l = filter (fun s => t <=? ts s) l.
Proof.
  revert lo. induction l as [|x l IH]; intros lo H; [reflexivity|].
  simpl. destruct (ts x <? t) eqn:E.
  - apply Z.ltb_lt in E. assert (E' : (t <=? ts x) = false) by (apply Z.leb_gt; lia). rewrite E'.
    eapply IH. eapply strict_from_tail; exact H.
  - apply Z.ltb_ge in E. assert (E' : (t <=? ts x) = true) by (apply Z.leb_le; lia). rewrite E'.
    f_equal.
    apply strict_from_tail in H.
    (* nothing in l is filtered out *)
    clear IH. symmetry. apply filter_all. intros s Hs.
    apply Z.leb_le. pose proof (strict_from_all _ _ _ H Hs). lia.
Qed.

Section NodeNext.
  Variable cfg : pcfg.
  Variable A : iobj.

  (* both children skip what the penalties exclude, *)
  Definition na1 (a : X A) (s : nst) : X A :=
    if valid A a then seek_opt (seek A) (lastT s) (penA s) a else a.
  Definition nb1 (b : leaf) (s : nst) : leaf :=
    if leaf_valid b then seek_opt leaf_seek (lastT s) (penB s) b else b.
  (* then the earlier head is picked and the penalties are set for the next round *)
  Definition ns1 (a1 : X A) (b1 : leaf) (s : nst) : nst :=
    if negb (valid A a1) then
      if leaf_valid b1 then mkNst true (Some (leaf_atT b1)) false (penA s) 0 false
      else mkNst false (lastT s) (lastA s) (penA s) (penB s) false
    else if negb (leaf_valid b1) then
      mkNst true (Some (atT A a1)) true 0 (penB s) true
    else
      let ta := atT A a1 in
      let tb := leaf_atT b1 in
      if ta <=? tb then mkNst true (Some ta) true 0 (pen_of cfg (penfB cfg) (lastT s) ta) true
      else mkNst true (Some tb) false (pen_of cfg (penfA cfg) (lastT s) tb) 0 false.
  (* lastFloatVal() before the step *)
  Definition lastv (a : X A) (b : leaf) (s : nst) : option Z :=
    if useA s && valid A a then Some (snd (node_at A (a, b, s)))
    else if negb (useA s) && leaf_valid b then Some (snd (node_at A (a, b, s)))
    else None.

  Lemma node_next_eq counter a b s :
    node_next counter cfg A (a, b, s) =
    let a1 := na1 a s in let b1 := nb1 b s in let s1 := ns1 a1 b1 s in
    match lastv a b s with
    | Some v => if Bool.eqb (useA s1) (useA s) then (a1, b1, s1) else node_adjust counter A v (a1, b1, s1)
    | None => (a1, b1, s1)
    end.
  Proof. reflexivity. Qed.

  (* a step that yields a sample records which child holds it *)
  Lemma ns1_ok a1 b1 s :
    n_ok (ns1 a1 b1 s) = true ->
    if lastA (ns1 a1 b1 s) then valid A a1 = true /\ useA (ns1 a1 b1 s) = true
    else leaf_valid b1 = true /\ useA (ns1 a1 b1 s) = false.
  Proof.
    unfold ns1. destruct (valid A a1), (leaf_valid b1); cbn [negb];
      [destruct (atT A a1 <=? leaf_atT b1)| | |]; cbn; auto. discriminate.
  Qed.
End NodeNext.

Section PM.
  Variable cfg : pcfg.
  (* what the theorems need of the penalty configuration *)
  Definition cfg_ok : Prop :=
    0 <= ipen cfg /\ (forall t l, l < t -> 0 <= penfA cfg t l) /\ (forall t l, l < t -> 0 <= penfB cfg t l).

  (* the termination measure of [pm]: the samples still ahead after the penalty drop *)
  Definition mu (lt : option Z) (pA pB : Z) (la lb : list sample) : nat :=
    (length (sdrop lt pA la) + length (sdrop lt pB lb))%nat.

  Lemma sdrop_length lt p l : (length (sdrop lt p l) <= length l)%nat.
  Proof. destruct lt; simpl; [apply drop_lt_length|lia]. Qed.

  Lemma sdrop_In lt p l s : In s (sdrop lt p l) -> In s l.
  Proof. destruct lt; simpl; [apply drop_lt_In|auto]. Qed.

  Lemma mu_le lt pA pB la lb : (mu lt pA pB la lb <= length la + length lb)%nat.
  Proof. unfold mu. pose proof (sdrop_length lt pA la). pose proof (sdrop_length lt pB lb). lia. Qed.

  (* after emitting the head of la', the next entry drop removes it *)
  Lemma mu_step_a s r lb' pB' :
    (mu (Some (ts s)) 0 pB' (s :: r) lb' <= length r + length lb')%nat.
  Proof.
    unfold mu. cbn [sdrop].
    assert (ts s < ts s + 1 + 0) by lia.
    pose proof (drop_lt_cons_length (ts s + 1 + 0) s r H).
    pose proof (drop_lt_length (ts s + 1 + pB') lb'). lia.
  Qed.
  Lemma mu_step_b s r la' pA' :
    (mu (Some (ts s)) pA' 0 la' (s :: r) <= length la' + length r)%nat.
  Proof.
    unfold mu. cbn [sdrop].
    assert (ts s < ts s + 1 + 0) by lia.
    pose proof (drop_lt_cons_length (ts s + 1 + 0) s r H).
    pose proof (drop_lt_length (ts s + 1 + pA') la'). lia.
  Qed.

  (* One decision of [pm], taken on the two streams after the penalty drop:
     the side picked (true = la), its head, and the penalties of the next round. *)
  Definition choose (lt : option Z) (pA pB : Z) (la lb : list sample) : option (bool * sample * Z * Z) :=
    match la, lb with
    | [], [] => None
    | [], sb :: _ => Some (false, sb, pA, 0)
    | sa :: _, [] => Some (true, sa, 0, pB)
    | sa :: _, sb :: _ =>
      if ts sa <=? ts sb then Some (true, sa, 0, spen cfg (penfB cfg) lt (ts sa))
      else Some (false, sb, spen cfg (penfA cfg) lt (ts sb), 0)
    end.

  Lemma pm_S f lt pA pB la lb :
    pm cfg (S f) lt pA pB la lb =
    let la' := sdrop lt pA la in let lb' := sdrop lt pB lb in
    match choose lt pA pB la' lb' with
    | None => []
    | Some (_, s, pA', pB') => s :: pm cfg f (Some (ts s)) pA' pB' la' lb'
    end.
  Proof.
    cbn [pm]. unfold choose. destruct (sdrop lt pA la), (sdrop lt pB lb); try reflexivity.
    destruct (_ <=? _); reflexivity.
  Qed.

  Lemma choose_none lt pA pB la lb : choose lt pA pB la lb = None -> la = [] /\ lb = [].
  Proof. destruct la, lb; cbn; try discriminate; [auto|]. destruct (_ <=? _); discriminate. Qed.

  (* c is the head of the stream on [side], and that side's penalty is reset:
     the state of the merge after c was picked *)
  Definition picked (side : bool) (c : sample) (pA pB : Z) (la lb : list sample) : Prop :=
    if side then (exists r, la = c :: r) /\ pA = 0 else (exists r, lb = c :: r) /\ pB = 0.

  Lemma choose_head lt pA pB la lb side s pA' pB' :
    choose lt pA pB la lb = Some (side, s, pA', pB') -> picked side s pA' pB' la lb.
  Proof.
    destruct la as [|sa ra], lb as [|sb rb]; cbn; try discriminate; [| |destruct (_ <=? _)];
      intros [= <- <- <- <-]; cbn; eauto.
  Qed.

  Lemma picked_mu side c pA pB la lb :
    picked side c pA pB la lb -> (mu (Some (ts c)) pA pB la lb < length la + length lb)%nat.
  Proof.
    destruct side; intros [[r ->] ->].
    - pose proof (mu_step_a c r lb pB). cbn [length]. lia.
    - pose proof (mu_step_b c r la pA). cbn [length]. lia.
  Qed.

  Lemma choose_pens lt pA pB la lb side s pA' pB' :
    cfg_ok -> 0 <= pA -> 0 <= pB -> match lt with Some l => l < ts s | None => True end ->
    choose lt pA pB la lb = Some (side, s, pA', pB') -> 0 <= pA' /\ 0 <= pB'.
  Proof.
    intros (Hi & HfA & HfB) HA HB Hlt.
    assert (Hsp : forall f, (forall t l, l < t -> 0 <= f t l) -> 0 <= spen cfg f lt (ts s))
      by (intros f Hf; destruct lt; cbn; auto).
    destruct la as [|sa ra], lb as [|sb rb]; cbn; try discriminate; [| |destruct (_ <=? _)];
      intros [= <- <- <- <-]; split; auto; lia.
  Qed.

  (* enough fuel: the result does not depend on it *)
  Lemma pm_fuel : forall f1 f2 lt pA pB la lb,
    (mu lt pA pB la lb < f1)%nat -> (mu lt pA pB la lb < f2)%nat ->
    pm cfg f1 lt pA pB la lb = pm cfg f2 lt pA pB la lb.
  Proof.
    induction f1 as [|f1 IH]; intros [|f2] lt pA pB la lb H1 H2; try lia.
    rewrite !pm_S. cbv zeta. unfold mu in H1, H2.
    destruct (choose _ _ _ _ _) as [[[[side s] pA'] pB']|] eqn:E; [|reflexivity].
    apply choose_head, picked_mu in E. f_equal. apply IH; lia.
  Qed.

  Lemma pm_length : forall f lt pA pB la lb,
    (length (pm cfg f lt pA pB la lb) <= mu lt pA pB la lb)%nat.
  Proof.
    induction f as [|f IH]; intros lt pA pB la lb; [simpl; lia|].
    rewrite pm_S. cbv zeta. unfold mu at 1.
    destruct (choose _ _ _ _ _) as [[[[side s] pA'] pB']|] eqn:E; [|simpl; lia].
    apply choose_head, picked_mu in E. cbn [length]. specialize (IH (Some (ts s)) pA' pB' (sdrop lt pA la) (sdrop lt pB lb)). lia.
  Qed.

  Lemma pm_In : forall f lt pA pB la lb s,
    In s (pm cfg f lt pA pB la lb) -> In s la \/ In s lb.
  Proof.
    induction f as [|f IH]; intros lt pA pB la lb s; [contradiction|].
    rewrite pm_S. cbv zeta.
    destruct (choose _ _ _ _ _) as [[[[side c] pA'] pB']|] eqn:E; [|contradiction].
    intros [<-|H].
    - apply choose_head in E. destruct side, E as [[r E] _]; [left|right];
        eapply sdrop_In; rewrite E; left; reflexivity.
    - apply IH in H as [H|H]; [left|right]; eapply sdrop_In; exact H.
  Qed.

  Lemma sdrop_head lt p l s r : sdrop lt p l = s :: r -> match lt with Some t => t + 1 + p <= ts s | None => True end.
  Proof. destruct lt; simpl; [apply drop_lt_head|auto]. Qed.

  Lemma pm_strict : cfg_ok -> forall f lt pA pB la lb,
    0 <= pA -> 0 <= pB -> strict_incr_from lt (pm cfg f lt pA pB la lb) = true.
  Proof.
    intros Hc. induction f as [|f IH]; intros lt pA pB la lb HA HB; [reflexivity|].
    rewrite pm_S. cbv zeta.
    destruct (choose _ _ _ _ _) as [[[[side c] pA'] pB']|] eqn:E; [|reflexivity].
    assert (Hlt : match lt with Some l => l < ts c | None => True end).
    { apply choose_head in E. destruct lt as [l|]; [|exact I].
      destruct side, E as [[r E] _]; apply sdrop_head in E; lia. }
    destruct (choose_pens _ _ _ _ _ _ _ _ _ Hc HA HB Hlt E) as [HA' HB'].
    cbn [strict_incr_from]. apply andb_true_iff. split; [|apply IH; assumption].
    destruct lt; [apply Z.ltb_lt; exact Hlt|reflexivity].
  Qed.

  Lemma pm_nil_r : forall f c la pB,
    strict_incr (c :: la) = true -> (length la < f)%nat ->
    pm cfg f (Some (ts c)) 0 pB (c :: la) [] = la.
  Proof.
    induction f as [|f IH]; intros c la pB Hs Hf; [lia|].
    cbn [pm sdrop]. replace (ts c + 1 + 0) with (ts c + 1) by lia.
    rewrite (drop_lt_sorted_next _ _ Hs). simpl drop_lt.
    destruct la as [|a la]; [reflexivity|].
    f_equal. apply IH.
    - apply strict_cons in Hs. eapply strict_from_none; exact Hs.
    - simpl in Hf. lia.
  Qed.

  Lemma pmerge_nil_r la : strict_incr la = true -> pmerge cfg la [] = la.
  Proof.
    intro Hs. unfold pmerge. cbn [pm sdrop].
    destruct la as [|a la]; [reflexivity|].
    f_equal. apply pm_nil_r; [exact Hs|simpl; lia].
  Qed.

  Lemma pm_suffix : cfg_ok -> forall f c la lb pB p,
    strict_incr (c :: la) = true -> c :: la = p ++ lb -> 0 <= pB -> (length la < f)%nat ->
    pm cfg f (Some (ts c)) 0 pB (c :: la) lb = la.
  Proof.
    intros (Hi & HfA & HfB).
    induction f as [|f IH]; intros c la lb pB p Hs Hp HpB Hf; [lia|].
    cbn [pm sdrop]. replace (ts c + 1 + 0) with (ts c + 1) by lia.
    rewrite (drop_lt_sorted_next _ _ Hs).
    (* the dropped lb is a suffix of la *)
    assert (Hsuf : exists q, la = q ++ drop_lt (ts c + 1 + pB) lb).
    { destruct p as [|x p].
      - simpl in Hp. subst lb. rewrite drop_lt_skip by lia.
        destruct (drop_lt_suffix (ts c + 1 + pB) la) as [q Hq]. exists q; exact Hq.
      - simpl in Hp. inversion Hp; subst x.
        destruct (drop_lt_suffix (ts c + 1 + pB) lb) as [q Hq].
        exists (p ++ q). rewrite <- app_assoc, <- Hq. reflexivity. }
    destruct Hsuf as [q Hq].
    destruct la as [|a la].
    - destruct q; simpl in Hq; [|discriminate]. rewrite <- Hq. reflexivity.
    - assert (Hs' : strict_incr (a :: la) = true)
        by (apply strict_cons in Hs; eapply strict_from_none; exact Hs).
      assert (Hca : ts c < ts a).
      { apply strict_cons in Hs. simpl in Hs. apply andb_true_iff in Hs as [Hs _]. apply Z.ltb_lt; exact Hs. }
      destruct (drop_lt (ts c + 1 + pB) lb) as [|b rb] eqn:Eb.
      + f_equal. apply pm_nil_r; [exact Hs'|simpl in Hf; lia].
      + assert (Hab : ts a <= ts b).
        { destruct q as [|x q]; simpl in Hq; inversion Hq; subst.
          - lia.
          - apply strict_cons in Hs'.
            assert (In b (q ++ b :: rb)) by (apply in_or_app; right; left; reflexivity).
            pose proof (strict_from_all _ _ _ Hs' H). lia. }
        apply Z.leb_le in Hab. rewrite Hab.
        f_equal. eapply IH with (p := q); [exact Hs'|exact Hq| |simpl in Hf; lia].
        simpl. apply HfB. exact Hca.
  Qed.

  Lemma pmerge_same l : cfg_ok -> strict_incr l = true -> pmerge cfg l l = l.
  Proof.
    intros Hc Hs. unfold pmerge. cbn [pm sdrop].
    destruct l as [|c l]; [reflexivity|].
    rewrite Z.leb_refl. f_equal.
    eapply pm_suffix with (p := []); [exact Hc|exact Hs|reflexivity| |simpl; lia].
    simpl. destruct Hc as (Hi & _). exact Hi.
  Qed.

  Lemma pmerge_strict la lb : cfg_ok -> strict_incr (pmerge cfg la lb) = true.
  Proof. intro Hc. apply pm_strict; [exact Hc|lia|lia]. Qed.

  Lemma pmerge_In la lb s : In s (pmerge cfg la lb) -> In s la \/ In s lb.
  Proof. apply pm_In. Qed.

  Lemma pmerge_all_In : forall rest first s,
    In s (pmerge_all cfg first rest) -> exists l, In l (first :: rest) /\ In s l.
  Proof.
    induction rest as [|b rest IH]; intros first s H.
    - exists first. split; [left; reflexivity|exact H].
    - simpl in H. apply IH in H as (l & [<-|Hl] & Hs).
      + apply pmerge_In in Hs as [Hs|Hs].
        * exists first; split; [left; reflexivity|exact Hs].
        * exists b; split; [right; left; reflexivity|exact Hs].
      + exists l; split; [right; right; exact Hl|exact Hs].
  Qed.

  Lemma pmerge_all_strict : cfg_ok -> forall rest first,
    (rest <> [] \/ strict_incr first = true) -> strict_incr (pmerge_all cfg first rest) = true.
  Proof.
    intro Hc. induction rest as [|b rest IH]; intros first H.
    - destruct H as [H|H]; [congruence|exact H].
    - simpl. apply IH. right. apply pmerge_strict. exact Hc.
  Qed.

  Lemma pmerge_all_same : cfg_ok -> forall n l,
    strict_incr l = true -> pmerge_all cfg l (repeat l n) = l.
  Proof.
    intros Hc n l Hs. induction n as [|n IH]; [reflexivity|].
    simpl. rewrite pmerge_same by assumption. exact IH.
  Qed.
End PM.

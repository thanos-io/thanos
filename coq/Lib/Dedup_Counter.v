(* Counter mode of the dedup iterator model (counterErrAdjustSeriesIterator +
   the deferred adjustAtValue on a replica switch): the values a reader sees
   never decrease when every replica's values never decrease. Compositional:
   [vcontract] holds of counter leaves over value-monotone lists and of a node
   over children that satisfy it. Used by C02. *)
From Coq Require Import ZArith List Bool Lia.
Import ListNotations.
From Verif Require Import Lib.Dedup_Iter Lib.Dedup_SpecFacts.
Open Scope Z_scope.

Definition val (o : iobj) (x : X o) : Z := snd (at_ o x).

(* VInv holds of every reachable state. VFresh: nothing has been returned yet;
   Seek is covered on a valid iterator or on a fresh one, as in [contract]. *)
Record vcontract (o : iobj) : Type := mkVC {
  VInv : X o -> Prop;
  VFresh : X o -> Prop;
  v_next_inv : forall x, VInv x -> VInv (next o x);
  v_seek_inv : forall t x, VInv x -> (valid o x = true \/ VFresh x) -> VInv (seek o t x);
  v_adj_inv : forall v x, VInv x -> VInv (adjust o v x);
  v_adj_valid : forall v x, valid o (adjust o v x) = valid o x;
  v_next_mono : forall x, VInv x -> valid o x = true -> valid o (next o x) = true ->
      val o x <= val o (next o x);
  v_seek_mono : forall t x, VInv x -> valid o x = true -> valid o (seek o t x) = true ->
      val o x <= val o (seek o t x);
  v_adj_ge : forall v x, VInv x -> valid o x = true ->
      v <= val o (adjust o v x) /\ val o x <= val o (adjust o v x);
}.
Arguments VInv {o}. Arguments VFresh {o}. Arguments v_next_inv {o}. Arguments v_seek_inv {o}. Arguments v_adj_inv {o}.
Arguments v_adj_valid {o}. Arguments v_next_mono {o}. Arguments v_seek_mono {o}. Arguments v_adj_ge {o}.

Definition vmono (l : list sample) : Prop := nondecr (map snd l) = true.

Lemma nondecr_from_weaken lo l : nondecr_from lo l = true -> nondecr l = true.
Proof.
  unfold nondecr. destruct l as [|v r]; simpl; [reflexivity|].
  intro H. apply andb_true_iff in H as [_ H]. exact H.
Qed.

Lemma nondecr_from_all : forall l lo v, nondecr_from (Some lo) l = true -> In v l -> lo <= v.
Proof.
  induction l as [|x l IH]; simpl; intros lo v H Hin; [contradiction|].
  apply andb_true_iff in H as [H1 H2]. apply Z.leb_le in H1.
  destruct Hin as [->|Hin]; [exact H1|]. specialize (IH _ _ H2 Hin). lia.
Qed.

Lemma vmono_tl l : vmono l -> vmono (tl l).
Proof.
  unfold vmono. destruct l as [|s r]; simpl; [auto|]. unfold nondecr at 1. simpl.
  intro H. eapply nondecr_from_weaken. exact H.
Qed.

Lemma vmono_suffix p : forall l, vmono (p ++ l) -> vmono l.
Proof.
  induction p as [|x p IH]; intros l H; [exact H|].
  apply IH. apply (vmono_tl ((x :: p) ++ l)). exact H.
Qed.

Lemma vmono_drop t l : vmono l -> vmono (drop_lt t l).
Proof.
  intro H. destruct (drop_lt_suffix t l) as [p Hp]. rewrite Hp in H. eapply vmono_suffix; exact H.
Qed.

Lemma vmono_head_le x l y : vmono (x :: l) -> In y l -> snd x <= snd y.
Proof.
  unfold vmono, nondecr. simpl. intros H Hin.
  eapply nondecr_from_all; [exact H|]. apply in_map. exact Hin.
Qed.

Lemma vmono_head_suffix x l p y r : vmono (x :: l) -> x :: l = p ++ y :: r -> snd x <= snd y.
Proof.
  intros H E. destruct p as [|z p]; simpl in E; inversion E; subst.
  - lia.
  - eapply vmono_head_le; [exact H|]. apply in_or_app. right; left; reflexivity.
Qed.

(* transparent: tower_vcontract reads VInv and VFresh of the initial leaf off it *)
Lemma leaf_vcontract : vcontract (leaf_obj true).
Proof.
  refine (mkVC (leaf_obj true) (fun l => vmono (l_list l)) (fun l => l_started l = false) _ _ _ _ _ _ _).
  - intros [st l adj]; simpl. unfold leaf_next; simpl. destruct st; simpl; [apply vmono_tl|auto].
  - intros t [st l adj]; simpl. intros H _. apply vmono_drop. exact H.
  - intros v [st l adj]; simpl. unfold leaf_adjust; simpl. destruct (v >? _); simpl; auto.
  - intros v [st l adj]; simpl. unfold leaf_adjust, leaf_valid; simpl. destruct (v >? _); reflexivity.
  - intros [st l adj]; simpl. unfold leaf_valid, leaf_next, val; simpl. intros Hm Hv Hv'.
    destruct st; simpl in *; [|discriminate].
    destruct l as [|x l]; simpl in *; [discriminate|].
    destruct l as [|y l]; simpl in *; [discriminate|].
    unfold leaf_at; simpl.
    assert (snd x <= snd y) by (eapply vmono_head_le; [exact Hm|left; reflexivity]). lia.
  - intros t [st l adj]; simpl. unfold leaf_valid, leaf_seek, val; simpl. intros Hm Hv Hv'.
    destruct st; simpl in *; [|discriminate].
    destruct l as [|x l]; [discriminate|].
    destruct (drop_lt_suffix t (x :: l)) as [p Hp].
    destruct (drop_lt t (x :: l)) as [|y r] eqn:E; [discriminate|].
    unfold leaf_at. cbn [l_list l_adj snd].
    assert (snd x <= snd y) by (eapply vmono_head_suffix; [exact Hm|exact Hp]).
    lia.
  - intros v [st l adj]; simpl. unfold leaf_valid, leaf_adjust, val; simpl. intros Hm Hv.
    destruct st; simpl in *; [|discriminate].
    destruct l as [|x l]; [discriminate|].
    unfold leaf_at; cbn [l_list l_adj snd].
    destruct (v >? snd x + adj) eqn:E; cbn [l_list l_adj snd].
    + apply Z.gtb_lt in E. lia.
    + assert (v <= snd x + adj) by (destruct (Z.gtb_spec v (snd x + adj)); [discriminate|lia]). lia.
Defined.

Section NodeV.
  Variable cfg : pcfg.
  Variable A : iobj.
  Variable VA : vcontract A.
  Notation N := (node_obj true cfg A).
  Notation VL := leaf_vcontract.

  Definition nVInv (x : nstate A) : Prop :=
    let '(a, b, s) := x in
    VInv VA a /\ vmono (l_list b) /\
    (n_ok s = true ->
       if lastA s then valid A a = true /\ useA s = true
       else leaf_valid b = true /\ useA s = false).

  Lemma leaf_adj_valid v b : leaf_valid (leaf_adjust true v b) = leaf_valid b.
  Proof. exact (v_adj_valid VL v b). Qed.

  Lemma node_adjust_inv v x : nVInv x -> nVInv (node_adjust true A v x).
  Proof.
    destruct x as [[a b] s]. intros (Ha & Hb & Hok). unfold node_adjust, nVInv.
    split; [destruct (valid A a); [apply (v_adj_inv VA)|]; exact Ha|].
    split; [destruct (leaf_valid b); [apply (v_adj_inv VL v b)|]; exact Hb|].
    intro Hn. specialize (Hok Hn). destruct (lastA s).
    - destruct Hok as [Hv Hu]. split; [|exact Hu]. rewrite Hv. rewrite (v_adj_valid VA). exact Hv.
    - destruct Hok as [Hv Hu]. split; [|exact Hu]. rewrite Hv. rewrite leaf_adj_valid. exact Hv.
  Qed.

  Lemma na1_inv a s : VInv VA a -> VInv VA (na1 A a s).
  Proof.
    intro H. unfold na1, seek_opt. destruct (valid A a) eqn:Hv; [|exact H].
    destruct (lastT s); [apply (v_seek_inv VA); [exact H|left; exact Hv]|exact H].
  Qed.
  Lemma nb1_inv b s : vmono (l_list b) -> vmono (l_list (nb1 b s)).
  Proof.
    intro H. unfold nb1, seek_opt. destruct (leaf_valid b) eqn:Hv; [|exact H].
    destruct (lastT s); [apply (v_seek_inv VL _ b); [exact H|left; exact Hv]|exact H].
  Qed.
  Lemma na1_mono a s : VInv VA a -> valid A a = true -> valid A (na1 A a s) = true -> val A a <= val A (na1 A a s).
  Proof.
    intros H Hv. unfold na1, seek_opt. rewrite Hv. destruct (lastT s); [|lia].
    apply (v_seek_mono VA); assumption.
  Qed.
  Lemma nb1_mono b s : vmono (l_list b) -> leaf_valid b = true -> leaf_valid (nb1 b s) = true ->
    snd (leaf_at b) <= snd (leaf_at (nb1 b s)).
  Proof.
    intros H Hv. unfold nb1, seek_opt. rewrite Hv. destruct (lastT s); [|lia].
    apply (v_seek_mono VL _ b); assumption.
  Qed.

  Lemma node_next_inv x : nVInv x -> nVInv (node_next true cfg A x).
  Proof.
    destruct x as [[a b] s]. intros (Ha & Hb & Hok).
    rewrite node_next_eq. cbv zeta.
    assert (Hbase : nVInv (na1 A a s, nb1 b s, ns1 cfg A (na1 A a s) (nb1 b s) s)).
    { unfold nVInv. split; [apply na1_inv; exact Ha|]. split; [apply nb1_inv; exact Hb|]. apply ns1_ok. }
    destruct (lastv A a b s); [|exact Hbase].
    destruct (Bool.eqb _ _); [exact Hbase|]. apply node_adjust_inv. exact Hbase.
  Qed.

  Lemma node_next_mono x :
    nVInv x -> node_valid A x = true -> node_valid A (node_next true cfg A x) = true ->
    snd (node_at A x) <= snd (node_at A (node_next true cfg A x)).
  Proof.
    destruct x as [[a b] s]. intros (Ha & Hb & Hok) Hv. simpl in Hv. specialize (Hok Hv).
    rewrite node_next_eq. cbv zeta.
    set (a1 := na1 A a s). set (b1 := nb1 b s). set (s1 := ns1 cfg A a1 b1 s).
    pose proof (ns1_ok cfg A a1 b1 s) as Hs1. fold s1 in Hs1.
    assert (Hlast : lastv A a b s = Some (snd (node_at A (a, b, s)))).
    { unfold lastv. destruct (lastA s) eqn:El.
      - destruct Hok as [Hva Hu]. rewrite Hu, Hva. reflexivity.
      - destruct Hok as [Hvb Hu]. rewrite Hu, Hvb. simpl. reflexivity. }
    rewrite Hlast.
    destruct (Bool.eqb (useA s1) (useA s)) eqn:Esw.
    - (* same replica *)
      intro Hv1. simpl in Hv1. specialize (Hs1 Hv1). apply Bool.eqb_prop in Esw.
      cbn [node_at]. destruct (lastA s) eqn:El.
      + destruct Hok as [Hva Hu]. rewrite Hu in Esw.
        destruct (lastA s1); [|destruct Hs1 as [_ H]; congruence].
        destruct Hs1 as [Hva1 _]. apply (na1_mono a s Ha Hva Hva1).
      + destruct Hok as [Hvb Hu]. rewrite Hu in Esw.
        destruct (lastA s1); [destruct Hs1 as [_ H]; congruence|].
        destruct Hs1 as [Hvb1 _]. apply (nb1_mono b s Hb Hvb Hvb1).
    - (* switched: both children were adjusted to the last value *)
      unfold node_adjust. cbn [node_valid node_at]. intro Hv1. specialize (Hs1 Hv1).
      destruct (lastA s1).
      + destruct Hs1 as [Hva1 _]. rewrite Hva1.
        apply (v_adj_ge VA). apply na1_inv; exact Ha. exact Hva1.
      + destruct Hs1 as [Hvb1 _]. rewrite Hvb1.
        apply (v_adj_ge VL _ b1). apply nb1_inv; exact Hb. exact Hvb1.
  Qed.

  Lemma set_ok_fields ok s :
    n_ok (set_ok ok s) = ok /\ lastA (set_ok ok s) = lastA s /\ useA (set_ok ok s) = useA s /\ lastT (set_ok ok s) = lastT s.
  Proof. repeat split. Qed.

  Lemma node_seek_loop_v : forall fuel t x,
    nVInv x -> node_valid A x = true ->
    nVInv (node_seek_loop true cfg A fuel t x) /\
    (node_valid A (node_seek_loop true cfg A fuel t x) = true ->
     snd (node_at A x) <= snd (node_at A (node_seek_loop true cfg A fuel t x))).
  Proof.
    induction fuel as [|f IH]; intros t x HI Hv; [split; [exact HI|intros; simpl; lia]|].
    destruct x as [[a b] s]. cbn [node_seek_loop].
    destruct (node_atT A (a, b, s) >=? t).
    - pose proof HI as (Ha & Hb & Hok). simpl in Hv. specialize (Hok Hv).
      destruct (useA s) eqn:Eu.
      + destruct (lastA s) eqn:El; [|destruct Hok as [_ H]; congruence].
        destruct Hok as [Hva _]. split.
        * unfold nVInv. split; [apply (v_seek_inv VA); [exact Ha|left; exact Hva]|]. split; [exact Hb|].
          cbn [n_ok lastA useA set_ok]. rewrite El. intro Hn. split; [exact Hn|exact Eu].
        * cbn [node_valid node_at n_ok lastA set_ok]. rewrite El. intro Hn.
          apply (v_seek_mono VA); assumption.
      + destruct (lastA s) eqn:El; [destruct Hok as [_ H]; congruence|].
        destruct Hok as [Hvb _]. split.
        * unfold nVInv. split; [exact Ha|]. split; [apply (v_seek_inv VL _ b); [exact Hb|left; exact Hvb]|].
          cbn [n_ok lastA useA set_ok]. rewrite El. intro Hn. split; [exact Hn|exact Eu].
        * cbn [node_valid node_at n_ok lastA set_ok]. rewrite El. intro Hn.
          apply (v_seek_mono VL _ b); assumption.
    - pose proof (node_next_inv _ HI) as HIn.
      pose proof (node_next_mono _ HI Hv) as Hm.
      destruct (node_valid A (node_next true cfg A (a, b, s))) eqn:Evn.
      + destruct (IH t _ HIn Evn) as [H1 H2]. split; [exact H1|].
        intro Hn. specialize (H2 Hn). specialize (Hm eq_refl). lia.
      + split; [exact HIn|]. rewrite Evn. discriminate.
  Qed.

  Definition nVFresh (x : nstate A) : Prop := let '(_, _, s) := x in lastT s = None /\ n_ok s = false.

  Lemma node_seek_v t x :
    nVInv x -> (node_valid A x = true \/ nVFresh x) ->
    nVInv (node_seek true cfg A t x) /\
    (node_valid A x = true -> node_valid A (node_seek true cfg A t x) = true ->
     snd (node_at A x) <= snd (node_at A (node_seek true cfg A t x))).
  Proof.
    intros HI Hc. destruct x as [[a b] s]. unfold node_seek.
    destruct (lastT s) eqn:ElT.
    - destruct Hc as [Hv|[H _]]; [|congruence].
      destruct (node_seek_loop_v (S (node_size A (a, b, s))) t _ HI Hv) as [H1 H2].
      split; [exact H1|]. intros _. exact H2.
    - pose proof (node_next_inv _ HI) as HIn.
      destruct (node_valid A (node_next true cfg A (a, b, s))) eqn:Evn.
      + destruct (node_seek_loop_v (S (node_size A (node_next true cfg A (a, b, s)))) t _ HIn Evn) as [H1 H2].
        split; [exact H1|]. intros Hv Hn. specialize (H2 Hn).
        pose proof (node_next_mono _ HI Hv Evn). lia.
      + split; [exact HIn|]. intros _. rewrite Evn. discriminate.
  Qed.

  Lemma node_adjust_ge v x :
    nVInv x -> node_valid A x = true ->
    v <= snd (node_at A (node_adjust true A v x)) /\ snd (node_at A x) <= snd (node_at A (node_adjust true A v x)).
  Proof.
    destruct x as [[a b] s]. intros (Ha & Hb & Hok) Hv. simpl in Hv. specialize (Hok Hv).
    unfold node_adjust. cbn [node_at]. destruct (lastA s).
    - destruct Hok as [Hva _]. rewrite Hva. apply (v_adj_ge VA); assumption.
    - destruct Hok as [Hvb _]. rewrite Hvb. apply (v_adj_ge VL _ b); assumption.
  Qed.

  (* transparent: tower_vcontract_gen uses that its VInv and VFresh are nVInv and nVFresh *)
  Definition node_vcontract : vcontract N.
  Proof.
    refine (mkVC N nVInv nVFresh node_next_inv (fun t x H Hc => proj1 (node_seek_v t x H Hc))
              node_adjust_inv _ node_next_mono _ node_adjust_ge).
    - intros v [[a b] s]. reflexivity.
    - intros t x HI Hv Hn. exact (proj2 (node_seek_v t x HI (or_introl Hv)) Hv Hn).
  Defined.

  Lemma node_vcontract_init a0 b :
    VInv VA a0 -> vmono b -> nVInv (node_init A a0 b) /\ nVFresh (node_init A a0 b).
  Proof.
    intros Ha Hb. unfold node_init, nVInv, nVFresh. split; [|split; reflexivity].
    split; [apply (v_next_inv VA); exact Ha|]. split; [exact Hb|]. cbn. discriminate.
  Qed.
End NodeV.

Lemma tower_vcontract_gen cfg : forall rest (i : iter) (V : vcontract (io i)),
  VInv V (ist i) -> VFresh V (ist i) -> Forall vmono rest ->
  exists V' : vcontract (io (fold_left (iter_node true cfg) rest i)),
    VInv V' (ist (fold_left (iter_node true cfg) rest i)) /\
    VFresh V' (ist (fold_left (iter_node true cfg) rest i)).
Proof.
  induction rest as [|b rest IH]; intros i V Hi Hf Hr.
  - exists V. split; assumption.
  - inversion Hr; subst. cbn [fold_left].
    destruct (node_vcontract_init (io i) V (ist i) b Hi H1) as [H H'].
    exact (IH (iter_node true cfg i b) (node_vcontract cfg (io i) V) H H' H2).
Qed.

Lemma tower_vcontract cfg first rest :
  Forall vmono (first :: rest) ->
  exists V : vcontract (io (tower true cfg first rest)),
    VInv V (ist (tower true cfg first rest)) /\ VFresh V (ist (tower true cfg first rest)).
Proof.
  intro H. inversion H; subst. unfold tower.
  apply (tower_vcontract_gen cfg rest (iter_leaf true first) leaf_vcontract); try assumption. reflexivity.
Qed.

Section VReaders.
  Variable o : iobj.
  Variable V : vcontract o.

  Definition lo_of (x : X o) : option Z := if valid o x then Some (val o x) else None.

  Lemma drain_loop_mono : forall fuel x out,
    VInv V x -> drain_loop o fuel x = Some out -> nondecr_from (lo_of x) (map snd out) = true.
  Proof.
    induction fuel as [|f IH]; intros x out Hi Hd; [discriminate|].
    cbn [drain_loop] in Hd.
    pose proof (v_next_inv V x Hi) as Hi'.
    destruct (valid o (next o x)) eqn:Evn.
    - destruct (drain_loop o f (next o x)) as [r|] eqn:Er; [|discriminate].
      inversion Hd; subst. cbn [map nondecr_from].
      specialize (IH _ _ Hi' Er). unfold lo_of in IH. rewrite Evn in IH.
      apply andb_true_iff; split; [|exact IH].
      unfold lo_of. destruct (valid o x) eqn:Ev; [|reflexivity].
      apply Z.leb_le. apply (v_next_mono V); assumption.
    - inversion Hd; subst. reflexivity.
  Qed.

  Lemma drain_mono x out :
    VInv V x -> drain_loop o (S (S (size o x))) x = Some out -> nondecr (map snd out) = true.
  Proof. intros Hi Hd. eapply nondecr_from_weaken. eapply drain_loop_mono; eassumption. Qed.
End VReaders.

Theorem tower_counter_monotone cfg first rest out :
  Forall vmono (first :: rest) ->
  drain (tower true cfg first rest) = Some out -> nondecr (map snd out) = true.
Proof.
  intros H Hd. destruct (tower_vcontract cfg first rest H) as [V [Hi _]].
  eapply (drain_mono _ V); eassumption.
Qed.

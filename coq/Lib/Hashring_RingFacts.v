(* Facts about hash-sorted rings used by C20 (node addition) and C18 (order independence):
   a hash-sorted list with pairwise distinct hashes is determined by its set of sections. *)
From Coq Require Import ZArith List Bool Lia Arith Permutation Sorting.Sorted.
Import ListNotations.
From Verif Require Import Lib.ListFacts Lib.Hashring_Ketama Lib.Hashring_KetamaFacts.

Definition hash_le (a b : section) : Prop := (s_hash a <= s_hash b)%Z.

Lemma sort_sections_StronglySorted l : StronglySorted hash_le (sort_sections l).
Proof.
  apply (StronglySorted_weaken (fun x y => is_true (SecOrder.leb x y))); [intros x y; apply Z.leb_le|].
  apply SecSort.StronglySorted_sort. intros x y z. unfold SecOrder.leb, is_true. rewrite !Z.leb_le. lia.
Qed.

Lemma sorted_unique (l l' : list section) :
  StronglySorted hash_le l -> StronglySorted hash_le l' -> Permutation l l' ->
  NoDup (map s_hash l) -> l = l'.
Proof.
  intros S S' P Hnd. apply (StronglySorted_perm_eq hash_le); try assumption.
  intros x y Hx Hy Hxy Hyx. apply (NoDup_map_inj s_hash l); try assumption.
  unfold hash_le in *. lia.
Qed.

Lemma StronglySorted_map_hash (g : section -> section) l :
  (forall s, s_hash (g s) = s_hash s) ->
  StronglySorted hash_le l -> StronglySorted hash_le (map g l).
Proof.
  intros Hg H. apply (StronglySorted_map_in _ _ g l H).
  intros x y _ _. unfold hash_le. now rewrite !Hg.
Qed.

(* renaming endpoint indexes *)
Definition rename (f : nat -> nat) (s : section) : section := mkS (s_hash s) (f (s_ep s)) (s_az s).

Lemma rename_hash f s : s_hash (rename f s) = s_hash s.
Proof. reflexivity. Qed.

Lemma sections_of_shift eps : forall idx k,
  sections_of (k + idx) eps = map (rename (fun e => k + e)) (sections_of idx eps).
Proof.
  induction eps as [|[az hs] r IH]; intros idx k; simpl; [reflexivity|].
  rewrite map_app, map_map. f_equal. replace (S (k + idx)) with (k + S idx) by lia. apply IH.
Qed.

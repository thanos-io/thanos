(* The fuelled definitions of Lib/Downsample_Aggr.v without their fuel (C37, C38).
   ApplyCounterResetsSeriesIterator: with enough fuel acr_next / acr_seek never run out
   and their result does not depend on the fuel; [NEXT] and [SEEK] with their equations
   are what the proofs use instead.  Then downsampleFloatAggrBatch and
   downsampleAggrLoop around the iterator always return (C38's termination, and the
   counter sub-chunk C37 reads). *)
From Coq Require Import ZArith List Bool Lia Sorted.
Import ListNotations.
From Verif Require Import Lib.Downsample_Core Lib.Downsample_Aggr.
Open Scope Z_scope.

Lemma acr_shorter : forall f,
  (forall toks st b toks' st', acr_next f toks st = Some (b, toks', st') ->
     (length toks' <= length toks)%nat /\ (b = true -> (length toks' < length toks)%nat)) /\
  (forall x toks st b toks' st', acr_seek f x toks st = Some (b, toks', st') ->
     (length toks' <= length toks)%nat).
Proof.
  induction f as [|f [IHn IHs]]; [split; intros; discriminate|]. split.
  - intros toks st b toks' st' H. cbn [acr_next] in H. destruct toks as [|[t v|] r].
    + injection H as <- <- <-. split; [lia|discriminate].
    + destruct (c_total st =? 0); [injection H as <- <- <-; cbn; split; lia|].
      destruct (t >? c_lastT st); [injection H as <- <- <-; cbn; split; lia|].
      destruct (t =? c_lastT st); apply IHn in H; cbn [length]; destruct H as [H1 H2]; split; intros; try lia;
        specialize (H2 ltac:(assumption)); lia.
    + apply IHs in H. cbn [length]. split; intros; lia.
  - intros x toks st b toks' st' H. cbn [acr_seek] in H.
    destruct (c_lastT st >=? x); [injection H as <- <- <-; lia|].
    destruct (acr_next f toks st) as [[[b1 t1] s1]|] eqn:E; [|discriminate].
    apply IHn in E. destruct b1; [apply IHs in H; lia|injection H as <- <- <-; lia].
Qed.

Lemma acr_next_shorter f toks st toks' st' :
  acr_next f toks st = Some (true, toks', st') -> (length toks' < length toks)%nat.
Proof. intros E. exact (proj2 (proj1 (acr_shorter f) _ _ _ _ _ E) eq_refl). Qed.

Lemma acr_enough : forall f,
  (forall toks st, (2 * length toks + 1 <= f)%nat -> acr_next f toks st <> None) /\
  (forall x toks st, (2 * length toks + 2 <= f)%nat -> acr_seek f x toks st <> None).
Proof.
  induction f as [|f [IHn IHs]]; [split; intros; lia|]. split.
  - intros toks st Hf. cbn [acr_next]. destruct toks as [|[t v|] r]; [discriminate| |].
    + cbn [length] in Hf. destruct (c_total st =? 0); [discriminate|].
      destruct (t >? c_lastT st); [discriminate|].
      destruct (t =? c_lastT st); apply IHn; lia.
    + cbn [length] in Hf. apply IHs. lia.
  - intros x toks st Hf. cbn [acr_seek]. destruct (c_lastT st >=? x); [discriminate|].
    destruct (acr_next f toks st) as [[[b1 t1] s1]|] eqn:E; [|exfalso; revert E; apply IHn; lia].
    destruct b1; [|discriminate]. apply IHs. pose proof (acr_next_shorter _ _ _ _ _ E). lia.
Qed.

Lemma acr_mono : forall f,
  (forall toks st r, acr_next f toks st = Some r -> forall f', (f <= f')%nat -> acr_next f' toks st = Some r) /\
  (forall x toks st r, acr_seek f x toks st = Some r -> forall f', (f <= f')%nat -> acr_seek f' x toks st = Some r).
Proof.
  induction f as [|f [IHn IHs]]; [split; intros; discriminate|]. split.
  - intros toks st r H f' Hf. destruct f' as [|f']; [lia|]. cbn [acr_next] in *.
    destruct toks as [|[t v|] r0]; [exact H| |].
    + destruct (c_total st =? 0); [exact H|]. destruct (t >? c_lastT st); [exact H|].
      destruct (t =? c_lastT st); eapply IHn; try eassumption; lia.
    + eapply IHs; [eassumption|lia].
  - intros x toks st r H f' Hf. destruct f' as [|f']; [lia|]. cbn [acr_seek] in *.
    destruct (c_lastT st >=? x); [exact H|].
    destruct (acr_next f toks st) as [[[b1 t1] s1]|] eqn:E; [|discriminate].
    rewrite (IHn _ _ _ E f' ltac:(lia)).
    destruct b1; [eapply IHs; [eassumption|lia]|exact H].
Qed.

(* Next and Seek of the iterator at the fuel the model gives them; by next_any / seek_any
   any larger fuel gives the same, so NEXT_nil, NEXT_sample, NEXT_end and SEEK_eq below
   are the recursion equations of acr_next / acr_seek with the fuel gone *)
Definition NEXT (toks : list tok) (st : acr) : option (bool * list tok * acr) :=
  acr_next (acr_fuel toks) toks st.
Definition SEEK (x : Z) (toks : list tok) (st : acr) : option (bool * list tok * acr) :=
  acr_seek (S (acr_fuel toks)) x toks st.

(* a fuelled function that is monotone in the fuel has one value wherever it is defined *)
Lemma fuel_irrelevant {R} (F : nat -> option R) f f0 :
  (forall f r, F f = Some r -> forall f', (f <= f')%nat -> F f' = Some r) ->
  F f <> None -> F f0 <> None -> F f = F f0.
Proof.
  intros M Hf H0. destruct (F f) as [r|] eqn:E; [|congruence]. destruct (F f0) as [r0|] eqn:E0; [|congruence].
  destruct (le_ge_dec f f0) as [H|H]; [rewrite (M _ _ E _ H) in E0|rewrite (M _ _ E0 _ H) in E]; congruence.
Qed.

Lemma next_any f toks st : (2 * length toks + 1 <= f)%nat -> acr_next f toks st = NEXT toks st.
Proof.
  intros Hf. apply (fuel_irrelevant (fun f => acr_next f toks st)).
  - intros f1 r. apply (proj1 (acr_mono f1)).
  - apply (proj1 (acr_enough f)), Hf.
  - apply (proj1 (acr_enough _)). unfold acr_fuel. lia.
Qed.

Lemma seek_any f x toks st : (2 * length toks + 2 <= f)%nat -> acr_seek f x toks st = SEEK x toks st.
Proof.
  intros Hf. apply (fuel_irrelevant (fun f => acr_seek f x toks st)).
  - intros f1 r. apply (proj2 (acr_mono f1)).
  - apply (proj2 (acr_enough f)), Hf.
  - apply (proj2 (acr_enough _)). unfold acr_fuel. lia.
Qed.

Lemma NEXT_nil st : NEXT [] st = Some (false, [], st).
Proof. reflexivity. Qed.

Lemma NEXT_sample t v r st :
  NEXT (TS t v :: r) st =
  if c_total st =? 0 then Some (true, r, mkI 1 t v v true)
  else if t >? c_lastT st then
    Some (true, r, mkI (c_total st + 1) t v (c_totalV st + (if v >=? c_lastV st then v - c_lastV st else v)) true)
  else if t =? c_lastT st then NEXT r (mkI (c_total st) (c_lastT st) v (c_totalV st) true)
  else NEXT r (mkI (c_total st) (c_lastT st) (c_lastV st) (c_totalV st) true).
Proof.
  unfold NEXT at 1. unfold acr_fuel. cbn [length]. 
  replace (2 * S (length r) + 3)%nat with (S (2 * length r + 4)) by lia. cbn [acr_next].
  destruct (c_total st =? 0); [reflexivity|]. destruct (t >? c_lastT st); [reflexivity|].
  destruct (t =? c_lastT st); apply next_any; lia.
Qed.

Lemma NEXT_end r st :
  NEXT (TEnd :: r) st = SEEK (c_lastT st + 1) r (mkI (c_total st) (c_lastT st) (c_lastV st) (c_totalV st) false).
Proof.
  unfold NEXT. unfold acr_fuel. cbn [length].
  replace (2 * S (length r) + 3)%nat with (S (2 * length r + 4)) by lia. cbn [acr_next].
  apply seek_any. lia.
Qed.

Lemma SEEK_eq x toks st :
  SEEK x toks st =
  if c_lastT st >=? x then Some (c_lvt st, toks, st)
  else match NEXT toks st with
       | None => None
       | Some (false, toks', st') => Some (false, toks', st')
       | Some (true, toks', st') => SEEK x toks' st'
       end.
Proof.
  unfold SEEK at 1. cbn [acr_seek]. destruct (c_lastT st >=? x); [reflexivity|].
  fold (NEXT toks st). destruct (NEXT toks st) as [[[b t1] s1]|] eqn:E; [|reflexivity].
  destruct b; [|reflexivity]. apply seek_any.
  pose proof (acr_next_shorter _ _ _ _ _ E). unfold acr_fuel. lia.
Qed.

Lemma acr_run_any : forall m n toks st, (length toks < m)%nat -> (length toks < n)%nat ->
  acr_run m toks st = acr_run n toks st.
Proof.
  induction m as [|m IH]; intros n toks st Hm Hn; [lia|]. destruct n as [|n]; [lia|].
  cbn [acr_run]. destruct (acr_next (acr_fuel toks) toks st) as [[[b t1] s1]|] eqn:E; [|reflexivity].
  destruct b; [|reflexivity]. pose proof (acr_next_shorter _ _ _ _ _ E).
  rewrite (IH n t1 s1) by lia. reflexivity.
Qed.

Lemma acr_run_eq n toks st : (length toks < n)%nat ->
  acr_run n toks st =
  match NEXT toks st with
  | None => None
  | Some (false, _, st') => Some ([], st')
  | Some (true, toks', st') =>
      match acr_run (S (length toks')) toks' st' with
      | None => None
      | Some (out, fin) => Some ((c_lastT st', c_totalV st') :: out, fin)
      end
  end.
Proof.
  intros Hn. destruct n as [|n]; [lia|]. cbn [acr_run]. fold (NEXT toks st).
  destruct (NEXT toks st) as [[[b t1] s1]|] eqn:E; [|reflexivity].
  destruct b; [|reflexivity]. pose proof (acr_next_shorter _ _ _ _ _ E).
  rewrite (acr_run_any n (S (length t1)) t1 s1) by lia. reflexivity.
Qed.

(* reading with Next until ValNone always terminates within the rounds given *)
Lemma acr_run_total : forall k toks st, (length toks <= k)%nat -> acr_run (S (length toks)) toks st <> None.
Proof.
  induction k as [|k IH]; intros toks st Hk.
  - destruct toks; [|cbn in Hk; lia]. cbn. discriminate.
  - rewrite acr_run_eq by lia.
    destruct (NEXT toks st) as [[[b t1] s1]|] eqn:E.
    + destruct b; [|discriminate]. pose proof (acr_next_shorter _ _ _ _ _ E).
      specialize (IH t1 s1 ltac:(lia)). destruct (acr_run (S (length t1)) t1 s1) as [[out fin]|]; [discriminate|congruence].
    + exfalso. revert E. unfold NEXT. apply (proj1 (acr_enough _)). unfold acr_fuel. lia.
Qed.

(* expandXorChunkIterator keeps a series that does not go back in time *)
Lemma expand_xor_id : forall (l : list (Z * Z)) lastT,
  Forall (fun s => lastT <= fst s) l -> StronglySorted Z.le (map fst l) -> expand_xor lastT l = l.
Proof.
  induction l as [|[t v] r IH]; intros lastT Hl Hs; [reflexivity|].
  apply Forall_cons_iff in Hl as [Ht Hl]. cbn [fst] in Ht. cbn [map] in Hs.
  apply StronglySorted_inv in Hs as [Hs Hle]. cbn [expand_xor].
  replace (t >=? lastT) with true by (symmetry; apply Z.geb_le; lia).
  f_equal. apply IH; [|exact Hs]. rewrite Forall_map in Hle. exact Hle.
Qed.

Section AggrLoop.
Variable cw : Z -> Z -> Z.

(* the counter sub-chunk downsampleFloatAggrBatch writes: the samples its inner iterator yields,
   re-downsampled like a batch, closed with the iterator's lastV *)
Lemma float_aggr_batch_counter res part :
  match acr_run (S (length (toks_of (present k_counter part)))) (toks_of (present k_counter part)) acr0 with
  | None => float_aggr_batch cw res part = None
  | Some (emitted, fin) =>
      exists k2, float_aggr_batch cw res part = Some k2 /\
        k_counter k2 =
        match expand_xor 0 emitted with
        | [] => None
        | first :: rest =>
            let '(out, lastT) := downsample_batch cw res (first :: rest) in
            Some (first :: proj a_counter out ++ [(lastT, c_lastV fin)])
        end
  end.
Proof.
  unfold float_aggr_batch.
  destruct (generic_aggregate cw k_count a_sum res part) as [[m1 x1] cnt].
  destruct (generic_aggregate cw k_sum a_sum res part) as [[m2 x2] sm].
  destruct (generic_aggregate cw k_min (fun a => oz (a_min a)) res part) as [[m3 x3] mn].
  destruct (generic_aggregate cw k_max (fun a => oz (a_max a)) res part) as [[m4 x4] mx].
  destruct (acr_run _ _ acr0) as [[emitted fin]|]; [|reflexivity].
  destruct (expand_xor 0 emitted) as [|first rest]; [eexists; split; reflexivity|].
  destruct (downsample_batch cw res (first :: rest)). eexists. split; reflexivity.
Qed.

Lemma float_aggr_batch_total res part : float_aggr_batch cw res part <> None.
Proof.
  pose proof (float_aggr_batch_counter res part) as F.
  pose proof (acr_run_total _ (toks_of (present k_counter part)) acr0 (le_n _)) as T.
  destruct (acr_run _ _ acr0) as [[emitted fin]|]; [|congruence].
  destruct F as (k2 & -> & _). discriminate.
Qed.

(* every round takes at least one chunk when the batch size is at least 1 *)
Lemma aggr_loop_total res bs : (1 <= bs)%nat -> forall fuel chks,
  (length chks <= fuel)%nat -> aggr_loop cw fuel res bs chks <> None.
Proof.
  intros Hb. induction fuel as [|f IH]; intros chks Hl.
  - destruct chks; [discriminate|cbn in Hl; lia].
  - destruct chks as [|k0 r]; [discriminate|]. cbn [aggr_loop].
    set (j := Nat.min bs (length (k0 :: r))).
    pose proof (float_aggr_batch_total res (firstn j (k0 :: r))) as T.
    destruct (float_aggr_batch cw res (firstn j (k0 :: r))) as [kk|]; [|congruence].
    assert (Hj : (1 <= j)%nat) by (unfold j; cbn [length]; lia).
    assert (Hs : (length (skipn j (k0 :: r)) <= f)%nat) by (rewrite skipn_length; cbn [length] in *; lia).
    specialize (IH _ Hs). destruct (aggr_loop cw f res bs (skipn j (k0 :: r))); [discriminate|congruence].
Qed.

Lemma downsample_aggr_total res nc chks : exists out, downsample_aggr cw res nc chks = Some out.
Proof.
  unfold downsample_aggr.
  pose proof (aggr_loop_total res _ (Nat.le_max_r (length chks / nc) 1) (length chks) chks (le_n _)) as T.
  destruct (aggr_loop cw (length chks) res (Nat.max (length chks / nc) 1) chks) as [out|]; [eexists; reflexivity|congruence].
Qed.

End AggrLoop.

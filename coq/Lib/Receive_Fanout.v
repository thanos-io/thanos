(* fanoutForward (pkg/receive/handler.go) keeps counters per series and updates
   them for the series ids of every response. Model/C22.v and Model/C23.v
   describe that loop with different counters (S) and their own copies of the
   outcome type (K), and otherwise the same bookkeeping: the quorum arithmetic,
   the counters after a list of responses, and one response per replica when the
   writes go to distinct destinations are proved here once, for any K and S.
   The definitions below repeat the models' text, so a model's [apply_resp],
   [kinds_for], [ids_of] ... is convertible with the one here and a lemma
   applies to it by [exact] / [apply]. [rewrite] matches names: a fact that is
   rewritten with is stated on the model's own constants, in Proofs/C22.v and
   Proofs/C23.v. *)
From Coq Require Import ZArith List Bool Lia Permutation.
Import ListNotations.
From Verif Require Import Lib.ListFacts.

(* Handler.writeQuorum on a variable: Go's integer division is Z.quot, the
   specifications use Z.div; the replication factor is positive *)
Lemma quorum_arith : forall rf, (1 <= rf)%Z ->
  let q := (if rf =? 2 then 1 else Z.quot rf 2 + 1)%Z in
  (q = (if rf =? 2 then 1 else rf / 2 + 1) /\ 1 <= q <= rf /\ 2 * q <= rf + 2 /\ (rf <> 2 -> rf < 2 * q))%Z.
Proof.
  intros rf H. cbn zeta. rewrite Z.quot_div_nonneg by lia.
  destruct (Z.eqb_spec rf 2); [lia|].
  pose proof (Z.div_mod rf 2 ltac:(lia)). pose proof (Z.mod_pos_bound rf 2 ltac:(lia)). lia.
Qed.

Lemma Forall_nth_iff {A} (P : A -> Prop) l d :
  Forall P l <-> forall i, i < length l -> P (nth i l d).
Proof.
  rewrite Forall_forall. split.
  - intros H i Hi. apply H, nth_In, Hi.
  - intros H x Hx. apply (In_nth _ _ d) in Hx as [i [Hi <-]]. apply H, Hi.
Qed.

Lemma Exists_nth_iff {A} (P : A -> Prop) l d :
  Exists P l <-> exists i, i < length l /\ P (nth i l d).
Proof.
  rewrite Exists_exists. split.
  - intros [x [Hx Hf]]. apply (In_nth _ _ d) in Hx as [i [Hi <-]]. eauto.
  - intros [i [Hi Hf]]. eauto using nth_In.
Qed.

Lemma forallb_pointwise {A} (f g : A -> bool) l : (forall x, f x = g x) -> forallb f l = forallb g l.
Proof. intro H. induction l as [|x l IH]; [reflexivity|]. cbn [forallb]. rewrite H, IH. reflexivity. Qed.

Lemma forallb_seq (f : nat -> bool) n : forallb f (seq 0 n) = true <-> forall s, s < n -> f s = true.
Proof.
  rewrite forallb_forall. split; intros H s Hs; apply H; [apply in_seq; lia|apply in_seq in Hs; lia].
Qed.

Lemma forallb_seq_false (f : nat -> bool) n : forallb f (seq 0 n) = false -> exists s, s < n /\ f s = false.
Proof.
  intro H. assert (G : exists s, In s (seq 0 n) /\ f s = false).
  { induction (seq 0 n) as [|x l IH]; [discriminate|]. cbn [forallb] in H.
    destruct (f x) eqn:E; [|exists x; split; [left; reflexivity|exact E]].
    destruct (IH H) as [y [Hy Hf]]. exists y. split; [right; exact Hy|exact Hf]. }
  destruct G as [s [Hin Hf]]. apply in_seq in Hin. exists s. split; [lia|exact Hf].
Qed.

Lemma filter_length_cons {A} (f : A -> bool) x l :
  Z.of_nat (length (filter f (x :: l))) = (Z.b2z (f x) + Z.of_nat (length (filter f l)))%Z.
Proof. cbn [filter]. destruct (f x); cbn [Z.b2z length]; lia. Qed.

Fixpoint upd_nth {A} (n : nat) (f : A -> A) (l : list A) : list A :=
  match l, n with
  | [], _ => []
  | x :: r, O => f x :: r
  | x :: r, S m => x :: upd_nth m f r
  end.

Lemma upd_nth_length {A} n (f : A -> A) l : length (upd_nth n f l) = length l.
Proof. revert n. induction l as [|x l IH]; intros [|n]; cbn; auto. Qed.

Lemma upd_nth_nth {A} (f : A -> A) d l : forall n s, s < length l ->
  nth s (upd_nth n f l) d = if Nat.eqb s n then f (nth s l d) else nth s l d.
Proof.
  induction l as [|x l IH]; intros n s Hs; [cbn in Hs; lia|].
  destruct n as [|n], s as [|s]; cbn; auto. apply IH. cbn in Hs. lia.
Qed.

Section Counters.
  Context {K S : Type} (bump : K -> S -> S) (s0 : S).

  Definition apply_resp (st : list S) (r : list nat * K) : list S :=
    fold_left (fun st id => upd_nth id (bump (snd r)) st) (fst r) st.

  (* the outcomes series s received, in arrival order *)
  Definition kinds_for (s : nat) (rs : list (list nat * K)) : list K :=
    flat_map (fun r => repeat (snd r) (count_occ Nat.eq_dec (fst r) s)) rs.

  Definition bumps (ks : list K) (x : S) : S := fold_left (fun x k => bump k x) ks x.

  Definition reach (n : nat) (l : list (list nat * K)) : list S := fold_left apply_resp l (repeat s0 n).

  Lemma apply_ids_length k ids : forall st,
    length (fold_left (fun st id => upd_nth id (bump k) st) ids st) = length st.
  Proof. induction ids as [|i ids IH]; intro st; cbn; [reflexivity|]. rewrite IH. apply upd_nth_length. Qed.

  Lemma fold_apply_length l : forall st, length (fold_left apply_resp l st) = length st.
  Proof. induction l as [|r l IH]; intro st; cbn; [reflexivity|]. rewrite IH. apply apply_ids_length. Qed.

  Lemma reach_length n l : length (reach n l) = n.
  Proof. unfold reach. rewrite fold_apply_length. apply repeat_length. Qed.

  Lemma apply_ids_nth k ids : forall st s, s < length st ->
    nth s (fold_left (fun st id => upd_nth id (bump k) st) ids st) s0
    = bumps (repeat k (count_occ Nat.eq_dec ids s)) (nth s st s0).
  Proof.
    induction ids as [|i ids IH]; intros st s Hs; [reflexivity|].
    cbn [fold_left]. rewrite IH by (rewrite upd_nth_length; exact Hs).
    rewrite upd_nth_nth by exact Hs. cbn [count_occ].
    destruct (Nat.eq_dec i s) as [->|Hne].
    - rewrite Nat.eqb_refl. reflexivity.
    - destruct (Nat.eqb_spec s i) as [->|_]; [congruence|reflexivity].
  Qed.

  Lemma fold_apply_nth l : forall st s, s < length st ->
    nth s (fold_left apply_resp l st) s0 = bumps (kinds_for s l) (nth s st s0).
  Proof.
    induction l as [|r l IH]; intros st s Hs; [reflexivity|].
    cbn [fold_left kinds_for flat_map]. rewrite IH by (unfold apply_resp; rewrite apply_ids_length; exact Hs).
    unfold apply_resp at 1. rewrite apply_ids_nth by exact Hs.
    unfold bumps. rewrite fold_left_app. reflexivity.
  Qed.

  (* series s sees its own outcomes only: its counters after the responses l *)
  Lemma reach_nth n l s : s < n -> nth s (reach n l) s0 = bumps (kinds_for s l) s0.
  Proof.
    intro Hs. unfold reach. rewrite fold_apply_nth by (rewrite repeat_length; exact Hs).
    rewrite nth_repeat. reflexivity.
  Qed.
End Counters.

(* distributeTimeseriesToReplicas sends series s of n, for replica r, to node
   [pl s r]; a write to (node, r) carries the ids of the series placed there *)
Section Placement.
  Variables (pl : nat -> nat -> nat) (n : nat).

  Definition ids_of (node r : nat) : list nat := filter (fun s => Nat.eqb (pl s r) node) (seq 0 n).

  Lemma count_occ_ids_of node r s : s < n ->
    count_occ Nat.eq_dec (ids_of node r) s = if Nat.eqb (pl s r) node then 1 else 0.
  Proof.
    intro Hs. unfold ids_of. destruct (Nat.eqb (pl s r) node) eqn:E.
    - apply NoDup_count_occ'; [apply NoDup_filter, seq_NoDup|]. apply filter_In. split; [apply in_seq; lia|exact E].
    - apply count_occ_not_In. intro Hin. apply filter_In in Hin as [_ H]. congruence.
  Qed.

  Definition hits (s : nat) (d : nat * nat) : bool := Nat.eqb (pl s (snd d)) (fst d).

  (* the number of responses series s gets = the number of writes whose destination holds it *)
  Lemma responses_hits {K} (ws : list (nat * nat * K)) s : s < n ->
    length (kinds_for s (map (fun w => (ids_of (fst (fst w)) (snd (fst w)), snd w)) ws))
    = length (filter (hits s) (map fst ws)).
  Proof.
    intro Hs. induction ws as [|[[node r] k] ws IH]; [reflexivity|].
    cbn [map kinds_for flat_map fst snd filter]. rewrite app_length, repeat_length.
    fold (kinds_for s (map (fun w : nat * nat * K => (ids_of (fst (fst w)) (snd (fst w)), snd w)) ws)).
    rewrite IH, (count_occ_ids_of node r s Hs). unfold hits at 2. cbn [fst snd].
    destruct (Nat.eqb (pl s r) node); reflexivity.
  Qed.

  (* distinct destinations that are exactly the placements of the series on
     distinct replicas: series s is on one of them per replica, namely
     (pl s r, r) *)
  Lemma hits_once_per_replica replicas ds : NoDup replicas -> NoDup ds ->
    (forall d, In d ds <-> exists s r, s < n /\ In r replicas /\ d = (pl s r, r)) ->
    forall s, s < n -> length (filter (hits s) ds) = length replicas.
  Proof.
    intros Hnd Hds Hkeys s Hs.
    rewrite <- (map_length (fun r => (pl s r, r)) replicas).
    apply Permutation_length, NoDup_Permutation.
    - apply NoDup_filter, Hds.
    - apply FinFun.Injective_map_NoDup; [|exact Hnd]. intros r r' E. congruence.
    - intro d. rewrite filter_In, Hkeys, in_map_iff. unfold hits. split.
      + intros [[s' [r [_ [Hr ->]]]] Hh]. cbn [fst snd] in Hh. apply Nat.eqb_eq in Hh. exists r. split; [congruence|exact Hr].
      + intros [r [<- Hr]]. split; [exists s, r; auto|]. cbn [fst snd]. apply Nat.eqb_refl.
  Qed.

  Lemma one_response_per_replica {K} replicas (ws : list (nat * nat * K)) : NoDup replicas ->
    NoDup (map fst ws) ->
    (forall d, In d (map fst ws) <-> exists s r, s < n /\ In r replicas /\ d = (pl s r, r)) ->
    forall s, s < n ->
    length (kinds_for s (map (fun w => (ids_of (fst (fst w)) (snd (fst w)), snd w)) ws)) = length replicas.
  Proof.
    intros Hnd Hw Hkeys s Hs. rewrite (responses_hits ws s Hs). exact (hits_once_per_replica replicas _ Hnd Hw Hkeys s Hs).
  Qed.
End Placement.

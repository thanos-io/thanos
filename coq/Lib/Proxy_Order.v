(* Shared by the proxy properties (C03, C06, ...): Go string order on byte
   strings, labels.Compare on label lists, and the proof that both are total
   orders. [lex_cmp] is the generic lexicographic comparison ("shorter prefix
   first"), [pair_cmp] the name-then-value comparison of one label. *)
From Coq Require Import NArith List Bool Lia.
Import ListNotations.

Definition str := list N.

Record OrdSpec {A} (cmp : A -> A -> comparison) : Prop := {
  cmp_eq : forall a b, cmp a b = Eq <-> a = b;
  cmp_opp : forall a b, cmp b a = CompOpp (cmp a b);
  cmp_lt_trans : forall a b c, cmp a b = Lt -> cmp b c = Lt -> cmp a c = Lt
}.

Fixpoint lex_cmp {A} (cmp : A -> A -> comparison) (a b : list A) : comparison :=
  match a, b with
  | [], [] => Eq
  | [], _ :: _ => Lt
  | _ :: _, [] => Gt
  | x :: a', y :: b' => match cmp x y with Eq => lex_cmp cmp a' b' | c => c end
  end.

Definition pair_cmp {A B} (ca : A -> A -> comparison) (cb : B -> B -> comparison) (p q : A * B) : comparison :=
  match ca (fst p) (fst q) with Eq => cb (snd p) (snd q) | c => c end.

(* Go's string comparison: bytewise lexicographic *)
Definition str_cmp : str -> str -> comparison := lex_cmp N.compare.
(* labels.Compare (slicelabels): per label name, then value; fewer labels first *)
Definition labels := list (str * str).
Definition lbl_cmp : labels -> labels -> comparison := lex_cmp (pair_cmp str_cmp str_cmp).

Lemma N_ord : OrdSpec N.compare.
Proof.
  split.
  - intros a b. apply N.compare_eq_iff.
  - intros a b. apply N.compare_antisym.
  - intros a b c H1 H2. rewrite N.compare_lt_iff in *. lia.
Qed.

Section Lex.
Context {A} (cmp : A -> A -> comparison) (H : OrdSpec cmp).

Lemma ord_refl a : cmp a a = Eq.
Proof. apply (cmp_eq _ H). reflexivity. Qed.

Lemma lex_ord : OrdSpec (lex_cmp cmp).
Proof.
  split.
  - induction a as [|x a IH]; intros [|y b]; cbn; split; intro E; try reflexivity; try discriminate.
    + destruct (cmp x y) eqn:C; try discriminate. apply (cmp_eq _ H) in C. apply IH in E. subst. reflexivity.
    + inversion E; subst. rewrite ord_refl. apply IH. reflexivity.
  - induction a as [|x a IH]; intros [|y b]; cbn; try reflexivity.
    rewrite (cmp_opp _ H x y). destruct (cmp x y); cbn; try reflexivity. apply IH.
  - induction a as [|x a IH]; intros [|y b] [|z c]; cbn; intros H1 H2; try discriminate; try reflexivity.
    destruct (cmp x y) eqn:C1; try discriminate.
    + apply (cmp_eq _ H) in C1. subst y.
      destruct (cmp x z) eqn:C2; try discriminate; try reflexivity. eapply IH; eauto.
    + destruct (cmp y z) eqn:C2; try discriminate.
      * apply (cmp_eq _ H) in C2. subst z. rewrite C1. reflexivity.
      * rewrite (cmp_lt_trans _ H _ _ _ C1 C2). reflexivity.
Qed.
End Lex.

Lemma pair_ord {A B} (ca : A -> A -> comparison) (cb : B -> B -> comparison) :
  OrdSpec ca -> OrdSpec cb -> OrdSpec (pair_cmp ca cb).
Proof.
  intros Ha Hb. split.
  - intros [a1 b1] [a2 b2]. unfold pair_cmp. cbn. split; intro E.
    + destruct (ca a1 a2) eqn:C; try discriminate. apply (cmp_eq _ Ha) in C. apply (cmp_eq _ Hb) in E. subst. reflexivity.
    + inversion E; subst. rewrite (ord_refl _ Ha). apply (ord_refl _ Hb).
  - intros [a1 b1] [a2 b2]. unfold pair_cmp. cbn. rewrite (cmp_opp _ Ha a1 a2).
    destruct (ca a1 a2); cbn; try reflexivity. apply (cmp_opp _ Hb).
  - intros [a1 b1] [a2 b2] [a3 b3]. unfold pair_cmp. cbn. intros H1 H2.
    destruct (ca a1 a2) eqn:C1; try discriminate.
    + apply (cmp_eq _ Ha) in C1. subst a2. destruct (ca a1 a3) eqn:C2; try discriminate; try reflexivity.
      eapply (cmp_lt_trans _ Hb); eauto.
    + destruct (ca a2 a3) eqn:C2; try discriminate.
      * apply (cmp_eq _ Ha) in C2. subst a3. rewrite C1. reflexivity.
      * rewrite (cmp_lt_trans _ Ha _ _ _ C1 C2). reflexivity.
Qed.

Lemma str_ord : OrdSpec str_cmp.
Proof. apply lex_ord. apply N_ord. Qed.

Lemma lbl_ord : OrdSpec lbl_cmp.
Proof. apply lex_ord. apply pair_ord; apply str_ord. Qed.

Section Facts.
Context {A} (cmp : A -> A -> comparison) (H : OrdSpec cmp).

Definition cle (a b : A) : Prop := cmp a b <> Gt.

Lemma cmp_gt_lt a b : cmp a b = Gt <-> cmp b a = Lt.
Proof. rewrite (cmp_opp _ H a b). destruct (cmp a b); cbn; split; congruence. Qed.

Lemma cle_refl a : cle a a.
Proof. unfold cle. rewrite (ord_refl _ H). discriminate. Qed.

Lemma cle_trans a b c : cle a b -> cle b c -> cle a c.
Proof.
  unfold cle. intros H1 H2 G.
  destruct (cmp a b) eqn:C1; try congruence.
  - apply (cmp_eq _ H) in C1. subst. congruence.
  - destruct (cmp b c) eqn:C2; try congruence.
    + apply (cmp_eq _ H) in C2. subst. congruence.
    + rewrite (cmp_lt_trans _ H _ _ _ C1 C2) in G. discriminate.
Qed.

Lemma cle_total a b : cle a b \/ cle b a.
Proof.
  unfold cle. destruct (cmp a b) eqn:C; [left|left|right]; try congruence.
  apply cmp_gt_lt in C. congruence.
Qed.

Lemma not_lt_cle a b : cmp a b <> Lt -> cle b a.
Proof. unfold cle. intros N G. apply cmp_gt_lt in G. congruence. Qed.

Lemma lt_le_trans a b c : cmp a b = Lt -> cle b c -> cmp a c = Lt.
Proof.
  unfold cle. intros H1 H2. destruct (cmp b c) eqn:C; try congruence.
  - apply (cmp_eq _ H) in C. subst. exact H1.
  - eapply (cmp_lt_trans _ H); eauto.
Qed.

Lemma le_lt_trans a b c : cle a b -> cmp b c = Lt -> cmp a c = Lt.
Proof.
  unfold cle. intros H1 H2. destruct (cmp a b) eqn:C; try congruence.
  - apply (cmp_eq _ H) in C. subst. exact H2.
  - eapply (cmp_lt_trans _ H); eauto.
Qed.

Lemma cle_antisym a b : cle a b -> cle b a -> a = b.
Proof.
  unfold cle. intros H1 H2. apply (cmp_eq _ H).
  destruct (cmp a b) eqn:C; try congruence.
  exfalso. apply H2. apply cmp_gt_lt. exact C.
Qed.
End Facts.

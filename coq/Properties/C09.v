(* C09 — Series request limits are enforced. Three levels: one Limiter (pkg/store/limiter.go)
   under every sequence of Reserve calls; the limiting server wrapper limitedServer under every
   stream of responses; and the reservation schedule of BucketStore.Series — ExpandPostings /
   nextBatch in bucket.go — with eagerly and lazily expanded postings and the request's own
   Limit field, for all blocks, batch sizes and limit values.
   Where a limit is in force the theorems assume that the uint64 counters do not wrap:
   "total < 2^64" for the Limiter and the server (those names say _partial for that reason),
   [nowrap] for the store (the reserved totals stay below 2^64); C09_limiter_pred and
   C09_server_pred make the same test inside the predicate.
   Property theorems only; each is closed by [exact] of a lemma of Proofs/C09.v.
   Full statement kept visible: "a Series call that succeeds never returns more series
   than the series limit or more chunks than the chunk limit, and a request that would
   exceed a limit fails instead of returning truncated data", for all block contents,
   selectors, limit values, lazy postings on/off. *)
From Coq Require Import String.
From Coq Require Import ZArith NArith List Bool.
Import ListNotations.
From Verif Require Import Lib.Corr Gen.C09 Model.C09 Proofs.C09.
Open Scope N_scope.

(* Limiter: for every limit > 0 and every sequence of Reserve(n) calls whose total stays
   below 2^64 (the atomic counter wraps there): all calls succeed iff the total is within
   the limit; after a failed call every later call fails; each answer is "prefix sum <= limit". *)
Theorem C09_limiter_sound_partial : forall limit nums, limit <> 0 -> sum_n nums < two64 ->
  let oks := reserves (new_limiter limit) nums in
  length oks = length nums /\
  (forallb (fun b => b) oks = true <-> sum_n nums <= limit) /\
  (forall l1 l2, oks = l1 ++ false :: l2 -> Forall (fun b => b = false) l2) /\
  limiter_pred limit 0 nums oks = true.
Proof. exact limiter_sound. Qed.
Print Assumptions C09_limiter_sound_partial.

(* limit 0 disables the limiter *)
Theorem C09_limiter_unlimited : forall nums l, lim l = 0 -> reserves l nums = map (fun _ => true) nums.
Proof. exact limiter_unlimited. Qed.
Print Assumptions C09_limiter_unlimited.

(* limitedServer in front of any store: for every stream of series / batch / other
   responses, what reaches the client is a prefix whose series count and
   chunks*MaxSamplesPerChunk are within the limits; Series returns nil exactly when the
   totals of the whole stream are within the limits, and then the prefix is the whole stream. *)
Theorem C09_server_bound_partial : forall sl cl rs, tot_s rs < two64 -> tot_c rs * samples_per_chunk < two64 ->
  let n := fst (stream (new_limiter sl) (new_limiter cl) rs) in
  let fin := snd (stream (new_limiter sl) (new_limiter cl) rs) in
  let pre := firstn (N.to_nat n) rs in
  within sl (tot_s pre) = true /\ within cl (tot_c pre * samples_per_chunk) = true /\
  fin = within sl (tot_s rs) && within cl (tot_c rs * samples_per_chunk) /\
  (fin = true -> n = N.of_nat (length rs)).
Proof. exact server_sound. Qed.
Print Assumptions C09_server_bound_partial.

(* a stream whose totals exceed a limit ends in an error: never a silently shortened answer *)
Theorem C09_no_silent_truncation_partial : forall sl cl rs, tot_s rs < two64 -> tot_c rs * samples_per_chunk < two64 ->
  (sl <> 0 /\ sl < tot_s rs) \/ (cl <> 0 /\ cl < tot_c rs * samples_per_chunk) ->
  snd (stream (new_limiter sl) (new_limiter cl) rs) = false.
Proof. exact server_no_silent_truncation. Qed.
Print Assumptions C09_no_silent_truncation_partial.

(* BucketStore.Series. A request = the blocks selected for it, each seen by its block client as
   the fetched postings in order with, per posting, "passes the lazily applied matchers" and
   "chunks in the time range" (Model/C09.v: blockq). Both expansion modes are covered:
   eager (ExpandPostings truncates to the request's Limit and reserves len(postings); nextBatch
   reserves chunks per sent series) and lazy (nextBatch additionally reserves seriesMatched per
   batch). All block clients share the request's two limiters.
   For all blocks, every mix of eager and lazy blocks, every batch size >= 1, every request
   Limit, chunks skipped or not, all limit values: a request that succeeds sends at most the
   limits (sent <= reserved <= limit). [nowrap] = the reserved totals stay below 2^64. *)
Theorem C09_store_bound : forall sl cl bsz skip reqlim blocks, (1 <= bsz)%nat -> nowrap bsz skip reqlim blocks ->
  store_ok sl cl bsz skip reqlim blocks = true ->
  within sl (returned_series bsz skip reqlim blocks) = true /\
  within cl (sum_n (chunk_reservations bsz skip reqlim blocks)) = true.
Proof. exact store_bound. Qed.
Print Assumptions C09_store_bound.

(* No silent truncation (request Limit 0, i.e. the caller did not ask for a cut): on success the
   block clients send every series the blocks hold for the request with all its chunks in range;
   and if that result exceeds a limit the request is refused (the reservations that the result
   needs are made before the data is sent) — in both expansion modes. *)
Theorem C09_store_no_silent_truncation : forall sl cl bsz skip blocks, (1 <= bsz)%nat -> nowrap bsz skip 0 blocks ->
  returned_series bsz skip 0 blocks = true_series blocks /\
  sum_n (chunk_reservations bsz skip 0 blocks) = true_chunks skip blocks /\
  ((sl <> 0 /\ sl < true_series blocks) \/ (cl <> 0 /\ cl < true_chunks skip blocks) ->
   store_ok sl cl bsz skip 0 blocks = false).
Proof. exact store_no_silent_truncation. Qed.
Print Assumptions C09_store_no_silent_truncation.

Theorem C09_store_pred : forall sl cl bsz skip blocks sres cres tseries, (1 <= bsz)%nat -> nowrap bsz skip 0 blocks ->
  tseries <= true_series blocks ->
  pred_ok (CStore sl cl bsz skip 0 blocks (store_ok sl cl bsz skip 0 blocks) (negb (store_ok sl cl bsz skip 0 blocks)) sres cres
                  tseries (true_chunks skip blocks) tseries (true_chunks skip blocks)) = true.
Proof. exact store_case_pred. Qed.
Print Assumptions C09_store_pred.

(* through the predicates the check evaluates on the implementation's observables *)
Theorem C09_limiter_pred : forall limit nums, pred_ok (CLimiter limit nums (reserves (new_limiter limit) nums)) = true.
Proof. exact limiter_case_pred. Qed.
Print Assumptions C09_limiter_pred.

Theorem C09_server_pred : forall sl cl rs,
  pred_ok (CServer sl cl rs (fst (stream (new_limiter sl) (new_limiter cl) rs))
                            (snd (stream (new_limiter sl) (new_limiter cl) rs))) = true.
Proof. exact server_case_pred. Qed.
Print Assumptions C09_server_pred.

(* The source facts the model rests on, regenerated from limiter.go on every run:
   MaxSamplesPerChunk, the control flow of Reserve, and that Send reserves series, then samples,
   then forwards. *)
Theorem C09_source_shape :
  MaxSamplesPerChunk = 120%Z /\
  reserveEvents =
    [("if", "l == nil"); ("return", "nil"); ("endif", ""); ("if", "l.limit == 0"); ("return", "nil"); ("endif", "");
     ("call", "l.reserved.Add"); ("if", "reserved > l.limit"); ("call", "l.failedOnce.Do"); ("call", "errors.Errorf");
     ("return", "errors.Errorf(""limit %v violated (got %v)"", l.limit, reserved)"); ("endif", ""); ("return", "nil")]%string /\
  (exists pre post, sendEvents = pre ++
     [("call", "i.seriesLimiter.Reserve"); ("if", "err != nil"); ("call", "errors.Wrapf");
      ("return", "errors.Wrapf(err, ""failed to send series"")"); ("endif", "");
      ("call", "i.samplesLimiter.Reserve"); ("if", "err != nil"); ("call", "errors.Wrapf");
      ("return", "errors.Wrapf(err, ""failed to send samples"")"); ("endif", "");
      ("call", "i.Store_SeriesServer.Send"); ("return", "i.Store_SeriesServer.Send(response)")]%string ++ post /\ post = []).
Proof. exact source_shape. Qed.
Print Assumptions C09_source_shape.

(* the three Reserve calls of a block client (the third only with lazily expanded postings) *)
Theorem C09_store_source_shape :
  blockClientReservations =
    ["blockSeriesClient.ExpandPostings: seriesLimiter.Reserve(uint64(len(b.lazyPostings.postings)))";
     "blockSeriesClient.nextBatch: b.chunksLimiter.Reserve(uint64(len(b.chkMetas)))";
     "blockSeriesClient.nextBatch: b.seriesLimiter.Reserve(uint64(seriesMatched))"]%string.
Proof. exact store_source_shape. Qed.
Print Assumptions C09_store_source_shape.

(* Non-vacuity: limit 5; the third call crosses it and later calls keep failing; a stream
   of 2 series (3 chunks) against limits 2 series / 360 samples passes, against 359 fails
   after forwarding the first response. *)
Example C09_nonvacuous :
  reserves (new_limiter 5) [2; 3; 1; 0] = [true; true; false; false] /\
  stream (new_limiter 2) (new_limiter 360) [RSeries 1; ROther; RBatch [None; Some 2]] = (3, true) /\
  stream (new_limiter 2) (new_limiter 359) [RSeries 1; ROther; RBatch [None; Some 2]] = (2, false) /\
  sum_n [2; 3; 1; 0] < two64 /\
  (* two blocks: 3 matched series (one without chunks in range) and 2; series limit 5 is
     needed although 4 series are returned; chunk limit 7 = 3+2+1+1 *)
  (let bs := [mkB false [(true, 3); (true, 0); (true, 2)]; mkB true [(true, 1); (false, 2); (true, 1)]] in
   (* eager block: 3 postings reserved, 2 sent; lazy block, batch size 2: batches reserve 1 and 1 *)
   series_reservations 2 false 0 bs = [3; 1; 1] /\ chunk_reservations 2 false 0 bs = [3; 2; 1; 1] /\
   returned_series 2 false 0 bs = 4 /\ true_series bs = 4 /\
   store_ok 5 7 2 false 0 bs = true /\ store_ok 4 7 2 false 0 bs = false /\ store_ok 5 6 2 false 0 bs = false /\
   (* request Limit 1: the eager block keeps 1 posting; each batch of the lazy block stops after its first match *)
   series_reservations 2 false 1 bs = [1; 1; 1] /\ returned_series 2 false 1 bs = 3 /\ nowrap 2 false 0 bs).
Proof. vm_compute. repeat split; reflexivity. Qed.

(* C28 — A block is visible in object storage only when all its files are.
   Property theorems only; each is closed by [exact] of a lemma of Proofs/C28.v.
   The orders of the bucket mutations inside block.upload, block.Delete /
   deleteDirRec and ensureBlockIsReplicated / ensureObjectReplicated
   ([upload_phases], [delete_phases], [replicate_phases]) are computed from the
   call lists of Gen/C28.v, regenerated from the source on every run.

   Vocabulary (Lib/Crash_Block.v, Lib/Crash_BlockFacts.v):
     bucket           association list  (block number, file) -> object
     univ             block number -> its files and sizes (a ULID names one content for ever)
     binv U b         every chunk/index object of b has the size U gives it, and a
                      meta.json in b lists exactly U's files and all of them are in b
     visible_complete b   a meta.json in b => every file it lists is in b with the listed size
     cut crash l      the first k operations of l when the process dies after k of them *)
From Coq Require Import ZArith NArith List Bool.
Import ListNotations.
From Verif Require Import Lib.Corr Lib.Crash_Store Lib.Crash_Block Lib.Crash_BlockFacts Lib.Crash_BlockProgs.
From Verif Require Import Gen.C28 Model.C28 Proofs.C28.

(* Any sequence of uploads, deletions, deletion markings (on either bucket) and
   replications, of any blocks with any number of segment files, each cut by a
   crash after any number of mutating operations or not at all, starting from
   empty buckets: in EVERY bucket state passed through (all prefixes of all op
   logs) a block whose meta.json is present has all the files it lists with the
   recorded sizes. [run_states] = None only when an order oracle is not a
   permutation. *)
Theorem C28_every_crash_point_visible_complete : forall U acts all,
  wf_univ_b U = true -> run_states U ([], []) acts = Some all ->
  forall b, In b all -> visible_complete b.
Proof. exact all_prefixes_visible_complete. Qed.
Print Assumptions C28_every_crash_point_visible_complete.

(* Link to the check: a case is what the real code did (op logs, bucket listing
   after every mutating operation, whether the call returned nil). If the model
   reproduces it (corr_ok) then the property predicate evaluated on those real
   listings holds: visible => complete in every listing; a Delete of a marked
   block keeps the mark until everything else is gone; a returned upload /
   delete / mark / replication has made the block visible / gone / marked /
   identical in the target. *)
Theorem C28_accepted_case_satisfies_property : forall c,
  corr_ok c = true -> safe_case c = true -> pred_ok c = true.
Proof. exact corr_implies_pred. Qed.
Print Assumptions C28_accepted_case_satisfies_property.

(* [safe_case]: every two-actor action (ARepDel: replication interleaved with the deletion of the
   origin block) in the case has a deleter that removes the index before any chunk file and a
   target that does not hold the index yet; see C28_replicate_during_delete_safe and
   C28_replicate_delete_race_refuted.
   [run_states] and [model_steps] are undefined on scenarios that violate this. *)

(* ... and the model accepts its own run on every input on which it is defined. *)
Theorem C28_model_run_is_accepted : forall U acts steps,
  wf_univ_b U = true -> model_steps U ([], []) acts = Some steps ->
  corr_ok (CScen U steps) = true /\ pred_ok (CScen U steps) = true.
Proof. exact model_case_ok. Qed.
Print Assumptions C28_model_run_is_accepted.

(* block.Upload from any bucket satisfying the invariant, any crash point k. *)
Theorem C28_upload_prefix_safe : forall ph U b id order cid lbl l k,
  upload_phases = Some ph -> wf_univ U -> binv U b -> upload_ops ph U id order cid lbl = Some l ->
  visible_complete (bapply_ops b (firstn k l)).
Proof. exact upload_prefix_safe. Qed.
Print Assumptions C28_upload_prefix_safe.

(* Crash at any point k of an upload, then upload again: safe at every point j
   of the retry, and the retry ends with the block visible and complete. *)
Theorem C28_reupload_after_crash : forall ph U b id order cid lbl l k order' cid' lbl' l' bl,
  upload_phases = Some ph -> wf_univ U -> binv U b -> ublock U id = Some bl ->
  upload_ops ph U id order cid lbl = Some l ->
  upload_ops ph U id order' cid' lbl' = Some l' ->
  let crashed := bapply_ops b (firstn k l) in
  (forall j, visible_complete (bapply_ops crashed (firstn j l')))
  /\ bget (bapply_ops crashed l') (id, FMeta) = Some (MetaO cid' (files_of bl) lbl')
  /\ visible_complete (bapply_ops crashed l').
Proof. exact reupload_after_crash. Qed.
Print Assumptions C28_reupload_after_crash.

(* block.Delete, any crash point k: no visible incomplete block, and a block that
   carried a deletion mark keeps it until nothing else of the block is left
   (directory-marker objects, which the code deletes after the mark, aside). *)
Theorem C28_delete_prefix_safe : forall ph U b id order l k,
  delete_phases = Some ph -> wf_univ U -> binv U b -> delete_ops ph b id order = Some l ->
  let b' := bapply_ops b (firstn k l) in
  visible_complete b'
  /\ (bget b (id, FDelMark) <> None ->
      bget b' (id, FDelMark) <> None \/ forall f, is_dirmarker f = false -> bget b' (id, f) = None).
Proof. exact delete_prefix_safe. Qed.
Print Assumptions C28_delete_prefix_safe.

(* a Delete that is not interrupted (also: re-run after a crash) removes everything *)
Theorem C28_delete_completes : forall ph b id order l,
  delete_phases = Some ph -> delete_ops ph b id order = Some l ->
  forall f, is_dirmarker f = false -> bget (bapply_ops b l) (id, f) = None.
Proof. exact delete_completes. Qed.
Print Assumptions C28_delete_completes.

(* ensureBlockIsReplicated, any crash point k, any prior content of the target
   that satisfies the invariant (in particular the leftovers of an earlier cut
   replication of the same block): safe, and the invariant is kept (so a retry is
   covered by the same theorem). *)
Theorem C28_replicate_prefix_safe : forall ph U src dst id k,
  replicate_phases = Some ph -> wf_univ U -> binv U src -> binv U dst ->
  visible_complete (bapply_ops dst (firstn k (replicate_ops ph src dst id)))
  /\ binv U (bapply_ops dst (firstn k (replicate_ops ph src dst id))).
Proof. exact replicate_prefix_safe. Qed.
Print Assumptions C28_replicate_prefix_safe.

Theorem C28_replicate_completes : forall ph U src dst id om,
  replicate_phases = Some ph -> binv U src -> bget src (id, FMeta) = Some om ->
  same_content om (bget (bapply_ops dst (replicate_ops ph src dst id)) (id, FMeta)) = true.
Proof. exact replicate_completes. Qed.
Print Assumptions C28_replicate_completes.

(* TWO ACTORS. ensureBlockIsReplicated origin -> target while block.Delete removes the same
   block from the origin, the deleter's operations taking effect before ANY of the replicator's
   origin operations ([sched]: every interleaving of the two operation sequences; a Get that
   finds its object gone makes the replicator return the error before meta.json). If the deleter
   removes the index before any chunk file (the order of a bucket that lists files before
   directories, like the in-memory one) and the target does not hold the index yet: at every
   point of the replication the target satisfies the property, and a replication that returns
   nil has made the block visible (and complete). The origin side is block.Delete
   (C28_delete_prefix_safe). *)
Theorem C28_replicate_during_delete_safe : forall ph U src dst id sched order dels ops ok,
  delete_phases = Some ph -> wf_univ U -> binv U src -> binv U dst ->
  delete_ops ph src id order = Some dels ->
  index_first order = true -> bhas dst (id, FIndex) = false ->
  repdel_ops src dst id (combine sched dels) = (ops, ok) ->
  (forall k, visible_complete (bapply_ops dst (firstn k ops)))
  /\ (ok = true -> bhas (bapply_ops dst ops) (id, FMeta) = true).
Proof. exact replicate_during_delete_safe. Qed.
Print Assumptions C28_replicate_during_delete_safe.

(* REFUTED without "index before chunks": on a bucket that lists "chunks/" before "index" (plain
   lexicographic order: S3, GCS, Azure) the deleter removes meta.json and chunks/000001 between
   the replicator's Get of meta.json and its listing of chunks/; the replicator copies what is
   left, still finds the index and uploads meta.json: the target block is visible and lacks
   chunks/000001. Reproduced on the real code with a lexicographically listing bucket
   (corpus/C28/replicate-while-origin-deleted-lexicographic-race.json; known finding
   replicate-races-delete-lexicographic-listing). *)
Theorem C28_replicate_delete_race_refuted :
  exists st ops,
    sinv race_U st /\ bhas (snd st) (0%N, FIndex) = false
    /\ action_ops race_U st (ARepDel 0 [1; 1]%nat race_order) = Some (ops, true)
    /\ visible_complete_b (bapply_ops (snd st) ops) = false
    /\ index_first race_order = false.
Proof. exact replicate_delete_race_refuted. Qed.
Print Assumptions C28_replicate_delete_race_refuted.

(* ---- non-vacuity: a block with three segment files, upload cut after two
   operations (concurrent order 3,1,2), retried; marked; delete cut after three
   operations, retried; a second block replicated with a crash and a retry. ---- *)
Definition ex_U : univ :=
  [(0%N, mkblk [(1%N, 20%Z); (2%N, 16%Z); (3%N, 9%Z)] 35%Z 0%N);
   (1%N, mkblk [(1%N, 5%Z)] 7%Z 1%N)].
Definition ex_acts : list (action * option nat) :=
  [(AUpload false 0 [3; 1; 2]%N 0, Some 2%nat);
   (AUpload false 0 [1; 2; 3]%N 1, None);
   (AMark false 0 40, None);
   (ADelete false 0 [FIndex; FChunk 1; FChunk 2; FChunk 3], Some 3%nat);
   (ADelete false 0 [FChunk 2; FChunk 3], None);
   (AUpload false 1 [1]%N 2, None);
   (AReplicate 1, Some 1%nat);
   (AReplicate 1, None)].

Example C28_nonvacuous :
  wf_univ_b ex_U = true
  /\ (exists all, run_states ex_U ([], []) ex_acts = Some all /\ length all = 30%nat)
  /\ (exists steps, model_steps ex_U ([], []) ex_acts = Some steps /\ corr_ok (CScen ex_U steps) = true)
  /\ upload_phases = Some [PChunks; PIndex; PMeta]
  /\ delete_phases = Some [DMeta; DRest; DMark; DDirs]
  /\ replicate_phases = Some [RChunks; RIndex; RMeta].
Proof.
  split; [vm_compute; reflexivity|].
  split; [eexists; split; [vm_compute; reflexivity|vm_compute; reflexivity]|].
  split; [eexists; split; [vm_compute; reflexivity|vm_compute; reflexivity]|].
  repeat split; vm_compute; reflexivity.
Qed.

(* non-vacuity of the two-actor theorem: the origin holds block 0 (two chunk files, marked); the
   deleter (index first) removes meta.json before the replicator lists chunks/, and the index and
   chunks/000001 before the replicator's 4th origin operation: the replicator copies both chunk
   files, finds the index gone and stops without meta.json. *)
Example C28_race_nonvacuous :
  let src := [kv 0 (FChunk 1) (Blob 11); kv 0 (FChunk 2) (Blob 7); kv 0 FDelMark (Blob 40); kv 0 FIndex (Blob 9);
              kv 0 FMeta (MetaO 0 [(FChunk 1, 11%Z); (FChunk 2, 7%Z); (FIndex, 9%Z); (FMeta, 0%Z)] 0)] in
  let a := ARepDel 0 [1; 3; 3]%nat [FIndex; FChunk 1; FChunk 2] in
  action_safe (src, []) a = true
  /\ action_ops race_U (src, []) a = Some ([up 0 (FChunk 1) (Blob 11); up 0 (FChunk 2) (Blob 7)], false)
  /\ action_ops race_U (src, []) (ARepDel 0 [6; 6]%nat [FIndex; FChunk 1; FChunk 2])
     = Some ([up 0 (FChunk 1) (Blob 11); up 0 (FChunk 2) (Blob 7); up 0 FIndex (Blob 9);
              up 0 FMeta (MetaO 0 [(FChunk 1, 11%Z); (FChunk 2, 7%Z); (FIndex, 9%Z); (FMeta, 0%Z)] 0)], true).
Proof. cbv zeta. repeat split; vm_compute; reflexivity. Qed.

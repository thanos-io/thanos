(* C48 — Bucket rewrite deletes exactly the requested data.
   The theorems describe the code WITH repo_patches/C48-fix.patch. [re] is the
   regular-expression match of labels.Matcher (any function). A request applies
   to a series when every matcher names a label the series carries and matches
   it; [spec_intervals] collects the intervals of the applying requests,
   [whole_deleted] says that an applying request has no intervals. *)
From Coq Require Import NArith ZArith List Bool Lia Sorted.
Import ListNotations.
From Verif Require Import Lib.Corr Lib.Misc_Cmp Gen.C48 Model.C48 Proofs.C48 Proofs.C48_complete.
Open Scope Z_scope.

(* Never removes a sample outside the requested intervals or from a series the
   selectors do not match: for every series of the block that is not wholly
   deleted the rewritten block contains the series, every rewritten sample is
   an original one, and every original sample outside the intervals of the
   applying requests survives. No assumption on the order, overlap or adjacency
   of the requested intervals. *)
Theorem C48_keeps_outside : forall re reqs ss s,
  In s ss -> series_ok s -> whole_deleted re reqs (fst s) = false ->
  exists ocs, In (fst s, ocs) (rewrite re reqs ss)
    /\ (forall sm, In sm (concat (map snd ocs)) -> In sm (concat (snd s)))
    /\ (forall sm, In sm (concat (snd s)) ->
          covered (spec_intervals re reqs (fst s)) (fst sm) = false ->
          In sm (concat (map snd ocs))).
Proof. exact keeps_outside. Qed.
Print Assumptions C48_keeps_outside.

(* Every series of the rewritten block is a series of the original one that no
   applying request deletes wholly; a series vanishes iff such a request exists. *)
Theorem C48_series_kept_iff : forall re reqs ss,
  (forall ls ocs, In (ls, ocs) (rewrite re reqs ss) ->
     exists s, In s ss /\ fst s = ls /\ whole_deleted re reqs ls = false)
  /\ (forall s, In s ss -> whole_deleted re reqs (fst s) = false ->
     exists ocs, In (fst s, ocs) (rewrite re reqs ss)).
Proof.
  intros re reqs ss. split.
  - intros ls ocs H. destruct (rewrite_in re reqs ss ls ocs H) as [s [ivs [H1 [H2 [_ [_ H5]]]]]].
    exists s. auto.
  - intros s Hs W. destruct (rewrite_keeps re reqs ss s Hs W) as [ivs [_ H]]. eexists. exact H.
Qed.
Print Assumptions C48_series_kept_iff.

(* Exactness: for well-formed blocks and requests whose intervals are non-empty
   (Mint <= Maxt; any order, overlap or adjacency), the rewritten block is
   EXACTLY the filter specification: series wholly deleted vanish, every other
   series keeps, in order, precisely the samples outside the intervals of the
   applying requests, and every rewritten chunk is non-empty with
   MinTime/MaxTime equal to its first/last sample. This is the boolean predicate
   the check evaluates on the implementation's own output. *)
Theorem C48_exact : forall reqs rt ss,
  Forall series_ok ss -> reqs_ok reqs ->
  pred_ok (CDel reqs rt ss (rewrite (re_of rt) reqs ss) false) = true.
Proof. intros reqs rt ss H1 H2. simpl. apply rewrite_exact; assumption. Qed.
Print Assumptions C48_exact.

(* The same for the end-to-end path (Compactor.WriteSeries from a real block into
   a new block, read back from disk), where a series left without samples is not
   written at all. *)
Theorem C48_exact_block : forall reqs rt ss,
  Forall series_ok ss -> reqs_ok reqs ->
  pred_ok (CBlock reqs rt ss (filter has_chunks (rewrite (re_of rt) reqs ss)) false) = true.
Proof. intros reqs rt ss H1 H2. simpl. apply rewrite_exact_block; assumption. Qed.
Print Assumptions C48_exact_block.

(* Readable form of the removal half: the samples of a rewritten series are the
   original ones not covered by an interval of an applying request; so every
   sample inside such an interval is removed. *)
Theorem C48_removes_inside : forall re reqs s ivs,
  series_ok s -> reqs_ok reqs ->
  del_loop re reqs (fst s) [] = Some ivs ->
  concat (map snd (series_chunks ivs (snd s)))
  = filter (fun sm => negb (covered (spec_intervals re reqs (fst s)) (fst sm))) (concat (snd s)).
Proof. intros re reqs s ivs Hs Hr E. exact (proj1 (series_rewritten re reqs s ivs Hs Hr E)). Qed.
Print Assumptions C48_removes_inside.

(* [rewrite_unfixed] (the code without repo_patches/C48-fix.patch) does not
   satisfy the statement: a chunk whose samples are all deleted by two
   different intervals (no single interval covers the chunk) ends the series
   silently; the next chunk's samples (t = 30, 40), outside every interval,
   are lost. Same witness: corpus/C48/01. *)
Theorem C48_unfixed_refuted :
  rewrite_unfixed (fun _ _ => false) w_reqs w_series = [([([97%N], [120%N])], [])]
  /\ covered (spec_intervals (fun _ _ => false) w_reqs [([97%N], [120%N])]) 30 = false
  /\ rewrite (fun _ _ => false) w_reqs w_series = [([([97%N], [120%N])], [(30, 40, [(30, 3); (40, 4)])])].
Proof. exact unfixed_loses_samples. Qed.
Print Assumptions C48_unfixed_refuted.

(* Tie T: in the source, the emptied-chunk branch of delChunkSeriesIterator.Next
   moves on to the next chunk. *)
Theorem C48_emptied_branch : emptied_branch_ok = true.
Proof. exact emptied_branch. Qed.
Print Assumptions C48_emptied_branch.

(* Non-vacuity: a well-formed series to which the request applies. *)
Example C48_nonvacuous :
  series_ok (hd ([], []) w_series) /\ whole_deleted (fun _ _ => false) w_reqs [([97%N], [120%N])] = false
  /\ spec_intervals (fun _ _ => false) w_reqs [([97%N], [120%N])] = [(10, 10); (20, 20)].
Proof.
  split; [|vm_compute; split; reflexivity].
  repeat constructor; try discriminate; simpl; lia.
Qed.

(* C30 — Compaction planning is safe and converges.
   Property theorems only; each is closed by [exact] of a lemma of Proofs/C30.v,
   C30_regime.v or C30_iter.v.
   [plan] models tsdbBasedPlanner.plan of pkg/compact/planner.go; the window
   start and the two window tests inside it come from Gen/C30.v, regenerated
   from the Go source on every run. *)
From Coq Require Import ZArith List Bool Lia.
Import ListNotations.
From Verif Require Import Lib.Corr Lib.Compact_List Gen.C30 Model.C30 Proofs.C30 Proofs.C30_regime Proofs.C30_iter.
Open Scope Z_scope.

(* The planner never panics on a non-empty group when at least one range is
   configured (on an empty group the Go code indexes metasByMinTime[len-1]:
   the model returns None there and the callers never plan an empty group). *)
Theorem C30_plan_total : forall ranges marks l,
  l <> [] -> ranges <> [] -> exists p, plan ranges marks l = Some p.
Proof. exact plan_total. Qed.
Print Assumptions C30_plan_total.

(* Clause "at least two, or a single block with many tombstones": for every
   group, mark set and range list. *)
Theorem C30_size : forall ranges marks l p, plan ranges marks l = Some p ->
  p = [] \/ (2 <= length p)%nat \/
  exists m t, p = [m] /\ heavy m = true /\ mid_range ranges = Some t /\ t <= maxt m - mint m.
Proof. exact plan_size. Qed.
Print Assumptions C30_size.

(* Clause "never includes blocks marked no-compact". *)
Theorem C30_no_nocompact : forall ranges marks l p, plan ranges marks l = Some p ->
  Forall (fun m => marked marks m = false) p.
Proof. exact plan_no_nocompact. Qed.
Print Assumptions C30_no_nocompact.

(* Clause "names blocks of one group": the plan is a subsequence of the list handed in. *)
Theorem C30_one_group : forall ranges marks l p, plan ranges marks l = Some p -> sublist p l.
Proof. exact plan_sublist. Qed.
Print Assumptions C30_one_group.

(* Clause "for non-overlapping blocks never includes the newest block": when no
   not-excluded block starts before the end of an earlier one, the plan is a
   subsequence of the group without its last (= newest, max MinTime) block; with
   distinct ULIDs the newest block's id is not planned. *)
Theorem C30_newest_excluded : forall ranges marks l p,
  plan ranges marks l = Some p -> disjoint_sorted (filter (unmarked marks) l) ->
  sublist p (removelast l) /\ (NoDup (map bid l) -> ~ In (bid (last l dummy)) (map bid p)).
Proof. exact plan_newest_excluded. Qed.
Print Assumptions C30_newest_excluded.

(* Clause "always fits into one configured time range": a plan of two or more
   non-overlapping blocks (sorted by MinTime, positive ranges) lies inside one
   aligned window [iv*k, iv*k+iv] of a configured range iv of ranges[1:].
   Negative timestamps included (Go's truncating division, see t0_spec). *)
Theorem C30_fits_range : forall ranges marks l p,
  plan ranges marks l = Some p -> disjoint_sorted (filter (unmarked marks) l) ->
  positive_ranges ranges -> sorted_mint l -> (2 <= length p)%nat ->
  exists iv k, In iv (tl ranges) /\ in_window (iv * k) iv p.
Proof. exact plan_disjoint_window. Qed.
Print Assumptions C30_fits_range.

(* selectOverlappingMetas finds nothing exactly when the blocks are pairwise
   non-overlapping in list order. *)
Theorem C30_overlap_detection : forall l, select_overlapping l = [] <-> disjoint_sorted l.
Proof. exact select_overlapping_nil. Qed.
Print Assumptions C30_overlap_detection.

(* Convergence: plan / apply (planned blocks replaced by one block spanning them)
   reaches a state where the planner has nothing to do after at most
   2*|blocks| + #tombstone-heavy steps, for every group (aligned or not,
   overlapping or not), and in that state no two not-excluded blocks overlap. *)
Theorem C30_converges : forall ranges marks l newid,
  ranges <> [] -> l <> [] -> wf l ->
  exists h fin, iterate (S (measure l)) ranges marks l newid = Some (h, fin) /\
    plan ranges marks fin = Some [] /\ (length h <= measure l)%nat /\
    disjoint_sorted (filter (unmarked marks) fin).
Proof. exact converges. Qed.
Print Assumptions C30_converges.

(* The same clauses through the boolean predicate that the check evaluates on
   the real planner's output: the model's plan satisfies pred_ok, so
   "corr_ok on a case" transfers the clauses to the implementation's plan. *)
Theorem C30_plan_pred : forall ranges marks l,
  l <> [] -> ranges <> [] -> positive_ranges ranges -> sorted_mint l -> NoDup (map bid l) ->
  exists p, plan ranges marks l = Some p /\
    corr_ok (CPlan ranges marks l (Some (map bid p))) = true /\
    pred_ok (CPlan ranges marks l (Some (map bid p))) = true.
Proof. exact plan_pred_ok. Qed.
Print Assumptions C30_plan_pred.

(* largeTotalIndexSizeFilter.plan (plan, and while the planned blocks' summed
   index size reaches the limit mark the biggest one no-compact and plan again)
   terminates for every group and limit: each round marks a block that was
   unmarked, so |group| + 1 rounds suffice. *)
Theorem C30_index_filter_terminates : forall ranges marks lim l,
  exists res ms, idx_plan (S (length l)) ranges marks lim l = Some (res, ms).
Proof. exact index_filter_terminates. Qed.
Print Assumptions C30_index_filter_terminates.

(* Non-vacuity: aligned blocks 0-20,20-40,40-60,60-80 with ranges 20/60: the
   first three are planned (window [0,60]), the newest is left out; a second
   instance with negative times and a no-compact mark. *)
Example C30_nonvacuous :
  let b i a z := mk_meta i a z false 0 10 1 in
  let l := [b 1 0 20; b 2 20 40; b 3 40 60; b 4 60 80] in
  option_map (map bid) (plan [20; 60] [] l) = Some [1; 2; 3]
  /\ disjoint_sorted (filter (unmarked []) l) /\ sorted_mint l /\ positive_ranges [20; 60]
  /\ option_map (map bid) (plan [20; 60] [2] [b 1 (-60) (-40); b 2 (-40) (-20); b 3 (-20) 0; b 4 0 20; b 5 20 40]) = Some []
  /\ option_map (map bid) (plan [20; 60] [9] [b 1 (-60) (-40); b 2 (-40) (-20); b 3 (-20) 0; b 4 0 20]) = Some [1; 2; 3].
Proof.
  cbv zeta. split; [vm_compute; reflexivity|]. split.
  { simpl. repeat split; repeat constructor; simpl; lia. }
  split. { simpl. repeat split; repeat constructor; simpl; lia. }
  split. { repeat constructor. }
  split; vm_compute; reflexivity.
Qed.

(* Non-vacuity of convergence: three replicated overlapping streams collapse in two steps. *)
Example C30_converges_nonvacuous :
  let b i a z := mk_meta i a z false 0 10 1 in
  let l := [b 1 0 20; b 2 0 20; b 3 20 40; b 4 25 40; b 5 40 60] in
  option_map fst (iterate (S (measure l)) [20; 60] [] l 100) = Some [[1; 2]; [3; 4]].
Proof. vm_compute. reflexivity. Qed.

(* Clause "repeatedly planning and applying plans ends ... with non-overlapping blocks
   no longer than the largest range".

   History invariant 1 (any positive ranges): if the group is sorted by MinTime,
   blocks have positive length, the not-excluded blocks do not overlap and every
   block lies inside one aligned window of SOME configured range ("aligned"),
   then one plan/apply step keeps all of that ... *)
Theorem C30_regime_step : forall ranges marks l p newid,
  positive_ranges ranges -> Reg ranges marks l -> plan ranges marks l = Some p -> p <> [] ->
  Reg ranges marks (apply_plan l p newid).
Proof. exact reg_step. Qed.
Print Assumptions C30_regime_step.

(* ... hence plan/apply to the fixpoint ends, within the measure, in a state that is
   again in the regime: non-overlapping, aligned, and every block no longer than
   the largest range. *)
Theorem C30_aligned_history : forall ranges marks l newid,
  ranges <> [] -> positive_ranges ranges -> l <> [] -> wf l -> Reg ranges marks l ->
  exists h fin, iterate (S (measure l)) ranges marks l newid = Some (h, fin) /\
    plan ranges marks fin = Some [] /\ (length h <= measure l)%nat /\
    Reg ranges marks fin /\
    disjoint_sorted (filter (unmarked marks) fin) /\
    Forall (fun m => maxt m - mint m <= maxr ranges) fin.
Proof. exact regime_history. Qed.
Print Assumptions C30_aligned_history.

(* History invariant 2 (every configured range divides the largest one, as with
   Thanos' 2h/8h/2d/14d): for ALL groups — overlapping or not, excluded blocks or
   not — whose blocks each lie inside one window of the largest range, plan/apply
   to the fixpoint keeps every block inside one window of the largest range; at
   the fixpoint the not-excluded blocks do not overlap and no block is longer
   than the largest range.  (Vertical merges of aligned blocks stay inside the
   window: overlapping blocks of positive length share their window.) *)
Theorem C30_window_history : forall ranges marks l newid,
  ranges <> [] -> positive_ranges ranges -> Forall (fun iv => (iv | maxr ranges)) ranges ->
  l <> [] -> wf l -> Win ranges l ->
  exists h fin, iterate (S (measure l)) ranges marks l newid = Some (h, fin) /\
    plan ranges marks fin = Some [] /\ (length h <= measure l)%nat /\
    disjoint_sorted (filter (unmarked marks) fin) /\
    Forall (in_some_win (maxr ranges)) fin /\
    Forall (fun m => maxt m - mint m <= maxr ranges) fin.
Proof. exact window_history. Qed.
Print Assumptions C30_window_history.

(* When the largest range IS exceeded: only outside those regimes.  For every
   largest range R > 1 the misaligned overlapping chain [0,R), [R-1,2R-1) — each
   block exactly R long, sorted, positive — is planned as a whole (vertical
   merge) and replaced by a block 2R-1 > R long; the input is not in the regime. *)
Theorem C30_overlap_can_exceed : forall R, 1 < R ->
  plan [R] [] (chain R) = Some (chain R)
  /\ Forall (fun m => maxt m - mint m <= maxr [R]) (chain R)
  /\ sorted_mint (chain R) /\ Forall pos (chain R)
  /\ maxt (hull (chain R) 3) - mint (hull (chain R) 3) = 2 * R - 1
  /\ maxr [R] < maxt (hull (chain R) 3) - mint (hull (chain R) 3)
  /\ ~ Reg [R] [] (chain R).
Proof. exact overlap_can_exceed. Qed.
Print Assumptions C30_overlap_can_exceed.

(* Whole histories through the boolean predicate of the check (case CIter): the
   model's history satisfies it, including the window clause when the input is in
   the window regime; "corr_ok on the case" transfers this to the real planner's history. *)
Theorem C30_iter_pred : forall ranges marks l newid,
  ranges <> [] -> positive_ranges ranges -> l <> [] -> wf l -> sorted_mint l -> fresh_ok l newid ->
  exists h fin, iterate (S (measure l)) ranges marks l newid = Some (h, fin) /\
    corr_ok (CIter ranges marks l newid h) = true /\ pred_ok (CIter ranges marks l newid h) = true.
Proof. exact iter_pred_ok. Qed.
Print Assumptions C30_iter_pred.

(* Non-vacuity of the regimes: replicated aligned 2h-style blocks with ranges 20/60/180. *)
Example C30_regimes_nonvacuous :
  let b i a z := mk_meta i a z false 0 10 1 in
  let l := [b 1 0 20; b 2 0 20; b 3 20 40; b 4 40 60; b 5 60 80; b 6 60 120; b 7 180 200] in
  win_regime [20; 60; 180] l = true
  /\ option_map fst (iterate (S (measure l)) [20; 60; 180] [] l 100) = Some [[1; 2]; [5; 6]; [100; 3; 4]]
  /\ Reg [20; 60; 180] [] [b 1 0 20; b 3 20 40; b 4 40 60; b 7 180 200].
Proof.
  cbv zeta. split; [vm_compute; reflexivity|]. split; [vm_compute; reflexivity|].
  unfold Reg, sorted_mint, sdisj, srel, pos, aligned. simpl. repeat split; repeat constructor; simpl; try lia.
  - exists 20, 0. simpl. intuition lia.
  - exists 20, 1. simpl. intuition lia.
  - exists 20, 2. simpl. intuition lia.
  - exists 20, 9. simpl. intuition lia.
Qed.

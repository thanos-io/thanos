(* C31 — Only blocks fully covered by another block are hidden as duplicates.
   Property theorems only; each is closed by [exact] of a lemma of Proofs/C31.v.
   [hidden l b] = block b is removed from the metas map (and reported by
   DuplicateIDs) by DefaultDeduplicateFilter.Filter run on the blocks l. *)
From Coq Require Import ZArith List Bool Permutation.
Import ListNotations.
From Verif Require Import Lib.Corr Gen.C31 Model.C31 Proofs.C31.
Open Scope Z_scope.

(* A hidden block has a KEPT block of the SAME compaction group that was built
   from all of the hidden block's sources.  All block sets with distinct ULIDs
   (the filter works on a map keyed by ULID). *)
Theorem C31_hidden_covered : forall l b, NoDup (map bid l) -> In b l -> hidden l b = true ->
  exists p, In p l /\ grp p = grp b /\ hidden l p = false /\ incl (srcs b) (srcs p).
Proof. exact hidden_covered. Qed.
Print Assumptions C31_hidden_covered.

(* The kept blocks together still cover every source, group by group. *)
Theorem C31_kept_cover : forall l b s, NoDup (map bid l) -> In b l -> In s (srcs b) ->
  exists p, In p l /\ grp p = grp b /\ hidden l p = false /\ In s (srcs p).
Proof. exact kept_cover. Qed.
Print Assumptions C31_kept_cover.

(* The outcome does not depend on the listing order (map iteration order): the
   sort key (more sources first, then higher compaction level, then smaller ULID) is total on
   distinct ULIDs. *)
Theorem C31_order_independent : forall l l', Permutation l l' -> NoDup (map bid l) ->
  forall b, hidden l b = hidden l' b.
Proof. exact order_independent. Qed.
Print Assumptions C31_order_independent.

(* ... nor on the order in which the groups are handed to the concurrent
   workers: groups are filtered independently, the result is the union. *)
Theorem C31_concurrency_independent : forall keys keys' l, Permutation keys keys' ->
  forall i, In i (dups_in_order keys l) <-> In i (dups_in_order keys' l).
Proof. exact schedule_independent. Qed.
Print Assumptions C31_concurrency_independent.

(* The boolean predicate the check evaluates on the real filter's output holds
   of the model's output for every block set with distinct ULIDs. *)
Theorem C31_model_pred : forall l conc, NoDup (map bid l) ->
  run_pred l (conc, map bid (kept l), dups l) = true.
Proof. exact model_run_pred. Qed.
Print Assumptions C31_model_pred.

(* the value the correspondence check compares the real filter's output with *)
Theorem C31_model_view : forall l, model_view l = (map bid (kept l), dups l).
Proof. exact model_view_spec. Qed.
Print Assumptions C31_model_view.

(* Statelessness across syncs: for a history of Filter calls on one long-lived filter
   instance, the outcome of the n-th call is the stateless outcome on the n-th block set,
   whatever the instance remembered (its field duplicateIDs) before — so every clause
   above holds after every sync, also when covering blocks disappear between syncs. *)
Theorem C31_history_stateless : forall prev ls n l, nth_error ls n = Some l ->
  nth_error (run_history prev ls) n = Some (map bid (kept l), dups l).
Proof. exact history_nth. Qed.
Print Assumptions C31_history_stateless.

(* Source fact (regenerated from fetcher.go): Filter and filterGroup use the receiver only
   for concurrency, the mutex, filterGroup and the ASSIGNMENT of duplicateIDs; they read
   nothing a previous call wrote. *)
Theorem C31_filter_reads_no_previous_result : filter_reads_no_previous_result = true.
Proof. exact filter_stateless_fact. Qed.
Print Assumptions C31_filter_reads_no_previous_result.

(* Non-vacuity: two replicas' level-1 blocks 1,2,3 and their compactions:
   block 10 = {1,2,3} hides 11 = {1,2} and the sources; 12 = {3,4} stays (4 is
   not covered); another group is untouched. *)
Example C31_nonvacuous :
  let l := [mk_blk 1 0 [1] 1; mk_blk 2 0 [2] 1; mk_blk 3 0 [3] 1; mk_blk 10 0 [1; 2; 3] 1;
            mk_blk 11 0 [2; 1] 1; mk_blk 12 0 [3; 4] 1; mk_blk 20 1 [1] 1] in
  NoDup (map bid l) /\ dups l = [11; 1; 2; 3] /\ map bid (kept l) = [10; 12; 20]
  /\ hidden l (mk_blk 11 0 [2; 1] 1) = true.
Proof.
  cbv zeta. split; [|vm_compute; auto].
  simpl. repeat constructor; simpl; intuition congruence.
Qed.

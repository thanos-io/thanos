(* C22 — An acknowledged remote write reached quorum for every series.
   Property theorems only. [fanout n q ft rs] models fanoutForward's response
   loop (counters, canReturnEarly, channel close) for n series, success
   threshold q, failure threshold ft and the replica responses rs IN ARRIVAL
   ORDER (each response names the series of one (node, replica) write).
   [successes_of s rs] = replicas that stored series s; [responses_of s rs] =
   responses that concern s. Hypothesis made explicit everywhere: every series
   gets exactly nrep responses before the channel closes (sendWrites' contract)
   and q + ft = nrep + 1 (proved of the handler's own thresholds below).
   writeQuorum, the failureThreshold expression and the shape of the loop's
   decisions come from Gen/C22.v, regenerated from handler.go on every run. *)
From Coq Require Import ZArith List Bool String.
Import ListNotations.
From Verif Require Import Lib.Corr Gen.C22 Model.C22 Proofs.C22 Proofs.C22_dist Proofs.C22_send Proofs.C22_timeout.
Open Scope Z_scope.

(* canReturnEarly and the decisions of fanoutForward's response loop still have
   the shape the hand model was written from. *)
Theorem C22_source_shape : shape_ok = true.
Proof. exact shape_holds. Qed.
Print Assumptions C22_source_shape.

(* Acknowledged <-> every series was stored by at least q replicas; for any
   number of series spread over any nodes, any outcome per (node, replica) and
   ANY arrival order. *)
Theorem C22_ack_iff_quorum : forall n nrep q ft rs, q + ft = nrep + 1 ->
  (forall s, (s < n)%nat -> responses_of s rs = nrep) ->
  (fanout n q ft rs = Some Ack <-> forall s, (s < n)%nat -> successes_of s rs >= q).
Proof. exact fanout_ack_iff_quorum. Qed.
Print Assumptions C22_ack_iff_quorum.

(* ... and the acknowledgement is never early: it is issued after a consumed
   prefix of the responses in which every series already has q successes. *)
Theorem C22_ack_implies_quorum_in_consumed_prefix : forall n nrep q ft rs, q + ft = nrep + 1 ->
  (forall s, (s < n)%nat -> responses_of s rs = nrep) ->
  fanout n q ft rs = Some Ack ->
  exists k, (k <= List.length rs)%nat /\ quorum_everywhere n q (firstn k rs) = true.
Proof. exact fanout_ack_after_quorum. Qed.
Print Assumptions C22_ack_implies_quorum_in_consumed_prefix.

(* If some series cannot reach quorum with all responses in, the request fails. *)
Theorem C22_no_quorum_fails : forall n nrep q ft rs s, q + ft = nrep + 1 ->
  (forall s, (s < n)%nat -> responses_of s rs = nrep) ->
  (s < n)%nat -> successes_of s rs < q -> fanout n q ft rs = Some Fail.
Proof. exact fanout_no_quorum_fails. Qed.
Print Assumptions C22_no_quorum_fails.

(* Whether the request is acknowledged does not depend on the arrival order. *)
Theorem C22_order_independent_ack : forall n nrep q ft rs rs', q + ft = nrep + 1 ->
  (forall s, (s < n)%nat -> responses_of s rs = nrep) -> Permutation.Permutation rs rs' ->
  fanout n q ft rs = fanout n q ft rs'.
Proof. exact fanout_order_independent. Qed.
Print Assumptions C22_order_independent_ack.

(* The handler's thresholds: for a fresh request q = writeQuorum rf of rf
   replicas (a majority unless rf = 2), for an already replicated request
   q = 1 of the 1 addressed replica; in both cases q + ft = nrep + 1. *)
Theorem C22_thresholds : forall rf rep, 1 <= rf -> 0 <= rep ->
  let q := success_threshold rf rep in let nrep := n_replicas rf rep in
  1 <= q <= nrep /\ q + failureThreshold_expr nrep q = nrep + 1.
Proof. exact handler_thresholds. Qed.
Print Assumptions C22_thresholds.

Theorem C22_quorum_is_majority : forall rf, 1 <= rf -> rf <> 2 -> 2 * writeQuorum rf > rf.
Proof. exact writeQuorum_majority. Qed.
Print Assumptions C22_quorum_is_majority.

(* Whole request (replica header, distribution of series to writes) and the
   predicate the check evaluates on the real handler: an acknowledged request
   has quorum everywhere, already in the responses delivered by the time the
   handler returned (any delivered count from the consumed prefix on); a failed
   one lacks quorum for some series. An already replicated request (rep <> 0)
   is the instance with threshold 1 on the one addressed replica. *)
Theorem C22_request_pred : forall rf rep place ws, 1 <= rf -> 0 <= rep ->
  (forall s, (s < List.length place)%nat -> responses_of s (resps_of place ws) = n_replicas rf rep) ->
  exists o, handle rf rep place ws = Some o
    /\ (o = OAck -> rep <= rf ->
        quorum_everywhere (List.length place) (success_threshold rf rep) (resps_of place ws) = true
        /\ exists k, (k <= List.length ws)%nat /\ forall d hg obs obsr, (k <= d)%nat ->
             pred_ok (CAck rf rep place ws hg obs obsr 200 d) = true)
    /\ (o = OFail -> quorum_everywhere (List.length place) (success_threshold rf rep) (resps_of place ws) = false).
Proof. exact handle_pred. Qed.
Print Assumptions C22_request_pred.

(* ---- the forward timeout ----
   [loop_ev] is the response loop with the ctx.Done event (forward timeout or
   cancellation) as an input at any position; peers that never answer
   contribute no response, so with hung peers the events end with ECtxDone.
   A loop whose next event is ctx.Done returns ctx.Err() — never an Ack —
   whatever was received before: *)
Theorem C22_timeout_never_acks : forall q ft st tail, loop_ev q ft st (ECtxDone :: tail) = EvTimedOut.
Proof. exact ctx_done_times_out. Qed.
Print Assumptions C22_timeout_never_acks.

(* Without that event the loop is the one of the theorems above. *)
Theorem C22_loop_without_timeout : forall q ft rs st, loop_ev q ft st (map EResp rs) = ev_of (loop q ft st rs).
Proof. exact loop_ev_no_ctx. Qed.
Print Assumptions C22_loop_without_timeout.

(* With hung peers (any number, any position, no assumption on how many
   responses arrive) an acknowledgement can only come from the early return:
   after a consumed prefix in which every series is decided and has its quorum. *)
Theorem C22_hung_peers_ack_only_after_quorum : forall q ft n rs tail,
  loop_ev q ft (repeat sst0 n) (map EResp rs ++ ECtxDone :: tail) = EvAck ->
  exists k, (1 <= k <= List.length rs)%nat
    /\ can_return_early q ft (reach n (firstn k rs)) = true
    /\ quorum_everywhere n q (firstn k rs) = true.
Proof. exact loop_ev_hang_ack. Qed.
Print Assumptions C22_hung_peers_ack_only_after_quorum.

Theorem C22_hung_peers_without_quorum_not_acked : forall q ft n rs tail s, (s < n)%nat -> successes_of s rs < q ->
  loop_ev q ft (repeat sst0 n) (map EResp rs ++ ECtxDone :: tail) <> EvAck.
Proof. exact hang_without_quorum_not_ack. Qed.
Print Assumptions C22_hung_peers_without_quorum_not_acked.

(* Whole request with hung peers and the predicate of the check; without hung
   peers handle_ev is handle. *)
Theorem C22_request_pred_hung_peers : forall rf rep place ws, 1 <= rf -> 0 <= rep ->
  exists o, handle_ev rf rep place ws true = Some o
    /\ (o = OAck -> rep <= rf ->
        exists k, (k <= List.length ws)%nat /\ forall d hg obs obsr, (k <= d)%nat ->
          pred_ok (CAck rf rep place ws hg obs obsr 200 d) = true).
Proof. exact handle_ev_hang_pred. Qed.
Print Assumptions C22_request_pred_hung_peers.

Theorem C22_request_without_hung_peers : forall rf rep place ws, handle_ev rf rep place ws false = handle rf rep place ws.
Proof. exact handle_ev_no_hang. Qed.
Print Assumptions C22_request_without_hung_peers.

(* ---- where the responses come from ----
   distributeTimeseriesToReplicas: the groups have distinct (node, replica)
   keys, the keys are exactly the placements of the series on the request's
   replicas, and every group carries, in request order, the series the hashring
   places there. *)
Theorem C22_distribution : forall place replicas, NoDup replicas ->
  NoDup (keys (distribute place replicas))
  /\ (forall d, In d (keys (distribute place replicas)) <->
        exists s r, (s < List.length place)%nat /\ In r replicas /\ d = (placed place s r, r))
  /\ (forall node r, In (node, r) (keys (distribute place replicas)) ->
        group_ids (distribute place replicas) (node, r) = Some (ids_of place node r)).
Proof.
  intros place replicas H. split; [apply distribute_keys_nodup|]. split; [apply distribute_keys_in|].
  intros node r. apply distribute_group_ids. exact H.
Qed.
Print Assumptions C22_distribution.

(* The order of the bookkeeping calls (wg.Add / wg.Done / response sends / pool
   submission / wg.Wait / close) in sendWrites, tryWrite, sendWrite,
   prepareRemoteWrite, buildWork, RemoteWriteAsync, TryRemoteWriteAsync and the
   sender goroutine of fanoutForward is the modelled one. *)
Theorem C22_send_protocol_shape : send_shape_ok = true.
Proof. exact send_shape_holds. Qed.
Print Assumptions C22_send_protocol_shape.

(* Every interleaving of the sender (first non-blocking pass with connection
   errors / accepted / rejected submissions, second blocking pass, wg.Wait,
   close) with the pool workers (response, then completion callback): the
   WaitGroup counter never goes negative, nothing is sent on the closed
   channel, the channel never holds more than one response per destination
   (its capacity), and when it is closed it holds exactly one response per
   destination. *)
Theorem C22_exactly_one_response_per_write : forall D ls s, srun (sinit D) ls = Some s ->
  sbad s = false /\ 0 <= swg s
  /\ (List.length (schan s) <= List.length D)%nat
  /\ (sph s = PClosed -> Permutation.Permutation (schan s) D).
Proof. exact sender_safe. Qed.
Print Assumptions C22_exactly_one_response_per_write.

Theorem C22_sender_can_complete : forall D, exists ls s, srun (sinit D) ls = Some s /\ sph s = PClosed.
Proof. exact closing_run_exists. Qed.
Print Assumptions C22_sender_can_complete.

(* Hence the hypothesis of the theorems above is a consequence of the model:
   responses that are the channel content of a complete sender run over the
   distribution's groups give every series one response per replica ... *)
Theorem C22_one_response_per_replica : forall rf rep place ws ls s, 0 <= rf ->
  srun (sinit (keys (distribute place (replicas_of rf rep)))) ls = Some s ->
  sph s = PClosed -> schan s = map write_dest ws ->
  forall x, (x < List.length place)%nat -> responses_of x (resps_of place ws) = n_replicas rf rep.
Proof. exact sender_gives_one_response_per_replica. Qed.
Print Assumptions C22_one_response_per_replica.

(* ... and the whole-request theorem holds without that hypothesis. *)
Theorem C22_request_pred_from_sender : forall rf rep place ws ls s, 1 <= rf -> 0 <= rep ->
  srun (sinit (keys (distribute place (replicas_of rf rep)))) ls = Some s ->
  sph s = PClosed -> schan s = map write_dest ws ->
  exists o, handle rf rep place ws = Some o
    /\ (o = OAck -> rep <= rf ->
        quorum_everywhere (List.length place) (success_threshold rf rep) (resps_of place ws) = true
        /\ exists k, (k <= List.length ws)%nat /\ forall d hg obs obsr, (k <= d)%nat ->
             pred_ok (CAck rf rep place ws hg obs obsr 200 d) = true)
    /\ (o = OFail -> quorum_everywhere (List.length place) (success_threshold rf rep) (resps_of place ws) = false).
Proof. exact handle_pred_sender. Qed.
Print Assumptions C22_request_pred_from_sender.

(* Non-vacuity: rf 3 (q 2), two series on 4 nodes; series 1 is stored once only -> fails;
   with its second replica succeeding -> acknowledged, and each series got 3 responses. *)
Example C22_nonvacuous :
  let place := [[0;1;2];[1;2;3]]%nat in
  handle 3 0 place [(0,0,KOk);(1,0,KOk);(1,1,KConflict);(2,1,KUnavailGrpc);(2,2,KOk);(3,2,KOther)]%nat = Some OFail
  /\ handle 3 0 place [(0,0,KOk);(1,0,KOk);(1,1,KConflict);(2,1,KOk);(2,2,KOk);(3,2,KOther)]%nat = Some OAck
  /\ responses_of 1%nat (resps_of place [(0,0,KOk);(1,0,KOk);(1,1,KConflict);(2,1,KOk);(2,2,KOk);(3,2,KOther)]%nat) = 3
  /\ distribute place (replicas_of 3 0) = [((0,0),[0]); ((1,1),[0]); ((2,2),[0]); ((1,0),[1]); ((2,1),[1]); ((3,2),[1])]%nat
  /\ option_map schan (srun (sinit [(0,0);(1,1);(2,2)]%nat)
        [S1Accept; S1Reject; S1ConnFail; S1End; SWorkSend (0,0)%nat; S2Accept; S2End; SWorkSend (1,1)%nat; SWorkDone (1,1)%nat; SWorkDone (0,0)%nat; SClose])
      = Some [(2,2);(0,0);(1,1)]%nat
  /\ handle_ev 3 0 [[0;1;2]]%nat [(0,0,KOk)]%nat true = Some OFail
  /\ handle_ev 3 0 [[0;1;2]]%nat [(0,0,KOk);(2,2,KOk)]%nat true = Some OAck.
Proof. vm_compute. repeat split; reflexivity. Qed.

(* C23 — Failed replicated writes report retryable and permanent failures
   correctly. Property theorems only; each is closed by [exact] of a lemma from
   Proofs/C23*.v. [fan_status n q ft rs] is the HTTP status the model of
   fanoutForward + replicationErrors.Cause + writeErrors.Cause + the status
   switch of handleV1HTTP produces for n series, success threshold q, failure
   threshold ft and the replica responses rs IN ARRIVAL ORDER; the threshold
   handed to newReplicationErrors, writeQuorum, the failureThreshold
   expression, the switch arms and the expectedErrors orders come from
   Gen/C23.v, regenerated from pkg/receive/handler.go on every run.
   All theorems: any number of series, any replication factor, any outcome per
   (node, replica) among success / conflict / gRPC-unavailable / backoff-
   unavailable / not-ready / unknown error, any arrival order. *)
From Coq Require Import ZArith List Bool String.
Import ListNotations.
From Verif Require Import Lib.Corr Gen.C23 Model.C23 Proofs.C23 Proofs.C23_order Proofs.C23_dist.
Open Scope Z_scope.

(* 409 only if conflicts alone put quorum out of reach for some series. *)
Theorem C23_409_only_if_conflicts_block_quorum : forall n q ft rs,
  1 <= ft -> fan_status n q ft rs = Some 409 ->
  exists s, (s < n)%nat /\ conflicts_of s rs >= ft.
Proof. exact fan_409. Qed.
Print Assumptions C23_409_only_if_conflicts_block_quorum.

(* A failed write that a retry can still fix (no series has ft conflicts) is a 503. *)
Theorem C23_503_when_retryable : forall n q ft rs st,
  1 <= ft -> fan_status n q ft rs = Some st -> st <> 200 ->
  (forall s, (s < n)%nat -> conflicts_of s rs < ft) -> st = 503.
Proof. exact fan_503. Qed.
Print Assumptions C23_503_when_retryable.

(* The fan-out never answers 500, whatever the replicas return (and the model
   is defined on every input: the source still has the modelled skeleton). *)
Theorem C23_never_500_for_conflict_unavailable : forall n q ft rs,
  1 <= ft -> exists st, fan_status n q ft rs = Some st /\ (st = 200 \/ st = 409 \/ st = 503).
Proof. exact fan_never_500. Qed.
Print Assumptions C23_never_500_for_conflict_unavailable.

(* The status does not depend on the order in which replica responses arrive,
   when every series gets one response per replica and the thresholds are the
   ones the handler computes (q + ft = nrep + 1, q <= ft + 1). *)
Theorem C23_order_independent_status : forall n nrep q ft rs rs',
  1 <= q -> 1 <= ft -> q + ft = nrep + 1 -> q <= ft + 1 ->
  (forall s, (s < n)%nat -> responses_of s rs = nrep) ->
  Permutation.Permutation rs rs' ->
  fan_status n q ft rs = fan_status n q ft rs'.
Proof. exact fan_order_independent. Qed.
Print Assumptions C23_order_independent_status.

(* The handler's own thresholds meet those side conditions for every replication factor. *)
Theorem C23_handler_thresholds : forall rf rep, 1 <= rf -> 0 <= rep ->
  let q := success_threshold rf rep in
  let nrep := n_replicas rf rep in
  let ft := failureThreshold_expr nrep q in
  1 <= q /\ 1 <= ft /\ q + ft = nrep + 1 /\ q <= ft + 1 /\ ft = spec_ft nrep q.
Proof. exact handler_thresholds. Qed.
Print Assumptions C23_handler_thresholds.

(* The decisions of replicationErrors.Cause, writeErrors.Cause and canReturnEarly
   still have the if/return shape the hand model was written from. *)
Theorem C23_source_shape : skeleton_ok = true.
Proof. exact skeleton_holds. Qed.
Print Assumptions C23_source_shape.

(* The exact status, as a function of what the replicas answered and not of
   the order: 200 iff every series reached quorum; else 409 iff every series
   that missed quorum collected >= ft conflicts; else 503. (Subsumes the four
   status theorems above, C23_409_only_if_conflicts_block_quorum to
   C23_order_independent_status, under their side conditions; in particular a series whose
   conflicts tie with its unavailable responses at the threshold is a 409 in
   every arrival order.) *)
Theorem C23_status_is_spec : forall n nrep q ft rs,
  1 <= ft -> q + ft = nrep + 1 -> q <= ft + 1 ->
  (forall s, (s < n)%nat -> responses_of s rs = nrep) ->
  fan_status n q ft rs = Some (spec_status n q ft rs).
Proof. exact fan_status_is_spec. Qed.
Print Assumptions C23_status_is_spec.

(* Whole request (replica header, bad replica, placement by the hashring,
   distribution of series to (node, replica) writes, one response per write):
   the model is defined and the boolean predicate the check evaluates on the
   implementation's own status — the specification above with the quorum
   stated independently of the source — holds of the model's status. *)
Theorem C23_request_pred : forall rf rep place ws, 1 <= rf -> 0 <= rep ->
  (forall s, (s < List.length place)%nat -> responses_of s (resps_of place ws) = n_replicas rf rep) ->
  exists st, handle rf rep place ws = Some st /\ pred_ok (CFan rf rep place ws st) = true.
Proof. exact handle_pred. Qed.
Print Assumptions C23_request_pred.

(* The same with the side condition replaced by the shape of the forwarded
   writes: distinct (node, replica) destinations that are exactly the hashring
   placements of the request's series on its replicas (C22 proves that the
   model of distributeTimeseriesToReplicas + sendWrites produces exactly one
   response for each of them). *)
Theorem C23_request_pred_structural : forall rf rep place ws, 1 <= rf -> 0 <= rep ->
  NoDup (map write_dest ws) ->
  (forall d, In d (map write_dest ws) <->
     exists s r, (s < List.length place)%nat /\ In r (replicas_of rf rep) /\ d = (placed place s r, r)) ->
  exists st, handle rf rep place ws = Some st /\ pred_ok (CFan rf rep place ws st) = true.
Proof. exact handle_pred_structural. Qed.
Print Assumptions C23_request_pred_structural.

(* The repaired defect, kept as a theorem about the model with the OLD choice
   es.threshold = successThreshold: replication factor 4, one series, two
   conflicts then two successes -> nil cause -> HTTP 500. *)
Theorem C23_success_threshold_refuted :
  let q := writeQuorum 4 in let ft := failureThreshold_expr 4 q in
  loop q q ft [sst0] [([0%nat], KConflict); ([0%nat], KConflict); ([0%nat], KOk); ([0%nat], KOk)]
    = Some (Failed CNil)
  /\ status_of CNil = Some 500.
Proof. exact success_threshold_refuted. Qed.
Print Assumptions C23_success_threshold_refuted.

(* Non-vacuity: rf 4 (q 3, ft 2), two series over 5 nodes; series 0 gets two
   conflicts -> 409; with one conflict and one unavailable instead -> 503;
   one series, two unavailable THEN two conflicts (the tie) -> 409. *)
Example C23_nonvacuous :
  handle 4 0 [[0;1;2;3];[1;2;3;4]]%nat
    [(1,1,KConflict);(0,0,KConflict);(2,2,KOk);(3,3,KOk);(1,0,KOk);(2,1,KOk);(3,2,KOk);(4,3,KOk)]%nat = Some 409
  /\ handle 4 0 [[0;1;2;3];[1;2;3;4]]%nat
    [(1,1,KConflict);(0,0,KUnavailGrpc);(2,2,KOk);(3,3,KOk);(1,0,KOk);(2,1,KOk);(3,2,KOk);(4,3,KOk)]%nat = Some 503
  /\ handle 4 0 [[0;1;2;3]]%nat [(0,0,KUnavailGrpc);(1,1,KUnavailSent);(2,2,KConflict);(3,3,KConflict)]%nat = Some 409
  /\ responses_of 0%nat (resps_of [[0;1;2;3];[1;2;3;4]]%nat
    [(1,1,KConflict);(0,0,KConflict);(2,2,KOk);(3,3,KOk);(1,0,KOk);(2,1,KOk);(3,2,KOk);(4,3,KOk)]%nat) = 4.
Proof. vm_compute. repeat split; reflexivity. Qed.

(* C15 — Store gateway picks blocks that cover the query at allowed resolutions.
   Property theorems only; each is closed by [exact] of a lemma of Proofs/C15.v.
   Model: Model/C15.v, bucketBlockSet.getFor of pkg/store/bucket.go WITH
   C15-fix.patch ([get_for_top true]); [get_for_top false] is the code before
   the fix. A block set is [wf_levels]: one list per resolution of
   s.resolutions (ResLevel2, ResLevel1, ResLevel0 — regenerated from the
   source), holding blocks of that resolution sorted by min time: what
   bucketBlockSet.add maintains. No other assumption on the layout: gaps,
   overlaps, nesting, equal ranges, partial downsampling, empty levels and
   degenerate blocks are all allowed; mint, maxt, maxres are arbitrary integers. *)
From Coq Require Import String.
From Coq Require Import ZArith NArith List Bool Permutation.
Import ListNotations.
From Verif Require Import Lib.Corr Gen.C15 Model.C15 Proofs.C15.
Open Scope Z_scope.

(* getFor always returns (no panic, also for a negative max resolution). *)
Theorem C15_total : forall levels mint maxt maxres,
  exists out, get_for_top true levels mint maxt maxres = Some out /\
    (mint <= maxt -> out = get_for true (drop_levels maxres resolutions levels) mint maxt).
Proof. exact top_some. Qed.
Print Assumptions C15_total.

(* Selected blocks never exceed the maximum resolution. *)
Theorem C15_res_bound : forall levels mint maxt maxres out, wf_levels levels ->
  get_for_top true levels mint maxt maxres = Some out -> Forall (fun b => bres b <= maxres) out.
Proof. exact res_bound. Qed.
Print Assumptions C15_res_bound.

(* Every selected block is a block of the set and overlaps [mint, maxt]
   (blocks are half-open [bmin, bmax)). *)
Theorem C15_overlap : forall levels mint maxt maxres out,
  get_for_top true levels mint maxt maxres = Some out ->
  Forall (fun b => bmin b <= maxt /\ mint < bmax b) out /\ incl out (concat levels).
Proof. exact overlap_and_member. Qed.
Print Assumptions C15_overlap.

(* No block is selected twice (blocks of the set have distinct ids). *)
Theorem C15_nodup : forall levels mint maxt maxres out, NoDup (map bid (concat levels)) ->
  get_for_top true levels mint maxt maxres = Some out -> NoDup (map bid out).
Proof. exact nodup_ids. Qed.
Print Assumptions C15_nodup.

(* Every instant of the range covered by a block of an allowed resolution is
   covered by a selected block. *)
Theorem C15_cover : forall levels mint maxt maxres out t b, wf_levels levels ->
  get_for_top true levels mint maxt maxres = Some out ->
  mint <= t <= maxt -> In b (concat levels) -> bres b <= maxres -> covers b t = true ->
  exists b', In b' out /\ covers b' t = true.
Proof. exact cover. Qed.
Print Assumptions C15_cover.

(* The same four clauses through the boolean predicate that the check evaluates
   on the implementation's own output, for every input whose per-level lists
   pass the layout conditions the check verifies on the real s.blocks. *)
Theorem C15_pred : forall input failed lids lv mint maxt maxres,
  nodup_n (map bid input) = true -> levels_ok input resolutions lv = true ->
  pred_ok (CGet input failed lids mint maxt maxres (option_map (map bid) (get_for_top true lv mint maxt maxres))) = true.
Proof. exact case_pred_ok. Qed.
Print Assumptions C15_pred.

(* The coverage clause of the predicate, decided at finitely many critical
   instants, means coverage of every instant. *)
Theorem C15_cover_check_sound : forall input sel mint maxt maxres,
  cover_check input sel mint maxt maxres = true ->
  forall t a, mint <= t <= maxt -> In a input -> allowed maxres a = true -> covers a t = true ->
  exists s, In s sel /\ covers s t = true.
Proof. exact cover_check_sound. Qed.
Print Assumptions C15_cover_check_sound.

(* The code before the fix: a 5m block [0,30) spanning the 1h block [10,20) is
   returned twice for the query [0,30] at max resolution 1h; and a negative max
   resolution indexes s.blocks out of range. (Replayed on the real code by
   corpus/C15/01 and 02.) *)
Theorem C15_unfixed_duplicates_refuted :
  wf_levels witness_levels /\ NoDup (map bid (concat witness_levels)) /\
  exists out, get_for_top false witness_levels 0 30 ResLevel2 = Some out /\ ~ NoDup (map bid out).
Proof. exact unfixed_duplicates_refuted. Qed.
Print Assumptions C15_unfixed_duplicates_refuted.

Theorem C15_unfixed_panics_refuted :
  get_for_top false witness_levels 0 30 (-1) = None /\ get_for_top true witness_levels 0 30 (-1) = Some [].
Proof. exact unfixed_panics. Qed.
Print Assumptions C15_unfixed_panics_refuted.

(* Histories. The set is driven by add / remove / getFor calls (ids of added blocks new). The
   model keeps one list per resolution: add inserts at its place in (min, max) order (append +
   sort, up to the order of equal ranges), remove deletes preserving the order (source fact
   C15_remove_shape). EVERY reachable state is a well-formed set (right resolutions, sorted by
   min time, ids distinct) holding exactly the blocks added and not removed — and therefore in
   every reachable state every getFor satisfies the four clauses against the blocks currently
   in the set. *)
Theorem C15_reachable_clauses : forall ops, fresh_ids [] ops = true ->
  let lv := fst (hstate_run ops) in let cur := snd (hstate_run ops) in
  wf_levels lv /\ NoDup (map bid (concat lv)) /\ Permutation (concat lv) cur /\
  forall mint maxt maxres out, get_for_top true lv mint maxt maxres = Some out ->
    Forall (fun b => bres b <= maxres) out /\
    Forall (fun b => bmin b <= maxt /\ mint < bmax b) out /\ incl out cur /\
    NoDup (map bid out) /\
    (forall t b, mint <= t <= maxt -> In b cur -> bres b <= maxres -> covers b t = true ->
       exists b', In b' out /\ covers b' t = true).
Proof. exact reachable_clauses. Qed.
Print Assumptions C15_reachable_clauses.

(* sortedness is needed: on the level that a swap-with-last removal of the oldest of four blocks
   leaves behind, getFor returns nothing for [-2,10] although the block 10-20 covers instant 10;
   the order-preserving removal returns that block *)
Theorem C15_unsorted_level_refuted :
  let lv := [[]; []; [mkBlock 4 30 40 0; mkBlock 2 10 20 0; mkBlock 3 20 30 0]] in
  sorted_by blk_le (nth 2 lv []) = false /\
  get_for_top true lv (-2) 10 0 = Some [] /\
  covers (mkBlock 2 10 20 0) 10 = true /\
  get_for_top true (mremove 1 (fold_left (madd resolutions) [mkBlock 1 0 10 0; mkBlock 2 10 20 0; mkBlock 3 20 30 0; mkBlock 4 30 40 0] mset_init)) (-2) 10 0
    = Some [mkBlock 2 10 20 0].
Proof. exact unsorted_level_refuted. Qed.
Print Assumptions C15_unsorted_level_refuted.

Theorem C15_remove_shape : removeAssigns = ["s.blocks[i] = append(bs[:j], bs[j+1:]...)"]%string.
Proof. exact remove_shape. Qed.
Print Assumptions C15_remove_shape.

(* The source facts the model rests on, regenerated from bucket.go on every run: the order of
   s.resolutions; the tests, start assignments, recursive-call arguments and appends of getFor;
   the comparison of add's sort. *)
Theorem C15_source_shape :
  resolutions = [ResLevel2; ResLevel1; ResLevel0] /\ ResLevel2 > ResLevel1 /\ ResLevel1 > ResLevel0 /\
  getForIfs = ["mint > maxt"; "i >= len(s.blocks)"; "b.meta.MaxTime <= mint"; "b.meta.MinTime > maxt";
               "i+1 < len(s.resolutions)"; "len(blockMatchers) == 0 || b.matchRelabelLabels(blockMatchers)";
               "i+1 < len(s.resolutions)"]%string /\
  getForStartAssigns = ["mint"; "b.meta.MaxTime"]%string /\
  getForRecursiveArgs = ["start, b.meta.MinTime - 1, s.resolutions[i+1], blockMatchers";
                         "start, maxt, s.resolutions[i+1], blockMatchers"]%string /\
  getForAppends = ["appendNewBlocks(bs, s.getFor(start, b.meta.MinTime-1, s.resolutions[i+1], blockMatchers))";
                   "append(bs, b)";
                   "appendNewBlocks(bs, s.getFor(start, maxt, s.resolutions[i+1], blockMatchers))"]%string /\
  addSortLess = ["if bs[j].meta.MinTime == bs[k].meta.MinTime"; "return bs[j].meta.MaxTime < bs[k].meta.MaxTime";
                 "return bs[j].meta.MinTime < bs[k].meta.MinTime"]%string.
Proof. exact source_shape. Qed.
Print Assumptions C15_source_shape.

(* Non-vacuity: a well-formed set with a gap at 1h, nesting at 1h, a spanning
   5m block and raw blocks; the fixed getFor returns each needed block once. *)
Example C15_nonvacuous :
  let lv := [[mkBlock 1 0 100 ResLevel2; mkBlock 2 10 20 ResLevel2; mkBlock 3 150 160 ResLevel2];
             [mkBlock 4 90 200 ResLevel1];
             [mkBlock 5 0 50 ResLevel0; mkBlock 6 195 260 ResLevel0]] in
  wf_levels lv /\ NoDup (map bid (concat lv)) /\
  option_map (map bid) (get_for_top true lv 5 250 ResLevel2) = Some [1; 2; 5; 4; 3; 6]%N /\
  option_map (map bid) (get_for_top false lv 5 250 ResLevel2) = Some [1; 2; 5; 4; 3; 4; 6]%N /\
  option_map (map bid) (get_for_top true lv 5 250 (ResLevel1 - 1)) = Some [5; 6]%N.
Proof.
  cbn zeta. split; [unfold wf_levels, resolutions; repeat constructor|].
  split; [cbn; repeat constructor; cbn; intuition discriminate|]. vm_compute. repeat split; reflexivity.
Qed.

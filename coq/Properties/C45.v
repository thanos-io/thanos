(* C45 — Rules API label filters follow Prometheus semantics.
   Property theorems only; proofs are in Proofs/C45.v, C45_dedup.v, C45_sort.v. [re] (anchored regex
   match of labels.Matcher) and [templ] (text/template classification of a
   label value) are arbitrary functions: the theorems hold for every choice. *)
From Coq Require Import NArith ZArith List Bool String.
Import ListNotations.
From Coq Require Import Sorted Permutation.
From Verif Require Import Lib.Corr Lib.Misc_Cmp Gen.C45 Model.C45 Proofs.C45 Proofs.C45_dedup Proofs.C45_sort.

(* With one or more selector sets, a rule's labels pass the filter iff the
   non-templated labels satisfy ALL selectors of AT LEAST ONE set. *)
Theorem C45_or_of_ands : forall re templ sets ls,
  sets <> [] ->
  (matches re templ sets ls = true <-> exists s, In s sets /\ satisfies re templ s ls).
Proof. exact matches_iff. Qed.
Print Assumptions C45_or_of_ands.

(* The same through the boolean specification used by the check. *)
Theorem C45_matches_spec : forall re templ sets ls,
  matches re templ sets ls = spec_match re templ sets ls.
Proof. exact matches_eq_spec. Qed.
Print Assumptions C45_matches_spec.

(* filterRulesByMatchers keeps exactly the selected rules, in order, and drops emptied groups. *)
Theorem C45_filter_rules : forall re templ sets gs,
  sets <> [] ->
  filter_rules re templ sets gs
  = filter (fun g => negb (is_nil (g_rules g)))
      (map (fun g => Group (g_key g) (filter (fun r => spec_match re templ sets (r_labels r)) (g_rules g))) gs).
Proof. exact filter_rules_spec. Qed.
Print Assumptions C45_filter_rules.

(* The loop as it stood before the repair (return false on the first failing
   selector of any set) is AND across sets: it agrees with the specification
   for a single set (all the existing tests reach) and not in general. *)
Theorem C45_unfixed_single_set : forall re templ s ls,
  matches_unfixed re templ [s] ls = spec_match re templ [s] ls.
Proof. exact matches_unfixed_single. Qed.
Print Assumptions C45_unfixed_single_set.

Theorem C45_unfixed_refuted :
  exists re templ sets ls,
    spec_match re templ sets ls = true /\ matches_unfixed re templ sets ls = false.
Proof. exact unfixed_refuted. Qed.
Print Assumptions C45_unfixed_refuted.

(* Tie T: in the source, the loop over the selector sets of `matches` returns
   only `true` from inside the loop and `false` after it; `matchesAll` returns
   `false` inside its loop over selectors and `true` after it; filterRulesByMatchers
   calls only len / r.GetLabels / matches, and matches for every rule outside any
   `if` (the verdict of a rule depends on that rule and the selectors only:
   C45_filter_rules). *)
Theorem C45_loop_shape : loop_shape_ok = true /\ filter_per_rule_ok = true.
Proof. exact (conj loop_shape filter_per_rule). Qed.
Print Assumptions C45_loop_shape.


(* What GRPCClient.Rules returns (no name/group/file filter), for all rule
   groups, selector sets, replica label lists, [re], [templ]:
   - one group per group key and, inside a group, no two rules that are equal
     up to replica labels (Rule.Compare = 0): both lists are strictly increasing;
   - every returned rule is a selected input rule of a group with that key,
     with its replica labels removed;
   - every selected input rule is represented, in the group with its key, by a
     rule equal to it up to replica labels. *)
Theorem C45_dedup_one_per_rule : forall re templ sets replica gs,
  let out := rules_api re templ sets replica gs in
  StronglySorted (clt group_cmp) out
  /\ (forall g', In g' out -> StronglySorted (clt rule_cmp) (g_rules g'))
  /\ (forall g' r', In g' out -> In r' (g_rules g') ->
        exists g r, In g gs /\ g_key g = g_key g' /\ In r (g_rules g)
                    /\ selected re templ sets r /\ r' = strip replica r)
  /\ (forall g r, In g gs -> In r (g_rules g) -> selected re templ sets r ->
        exists g' r', In g' out /\ g_key g' = g_key g /\ In r' (g_rules g')
                      /\ rule_cmp (strip replica r) r' = Eq).
Proof.
  intros re templ sets replica gs out. split; [apply api_groups_distinct|].
  split; [apply api_rules_distinct|]. split; [apply api_sound | apply api_complete].
Qed.
Print Assumptions C45_dedup_one_per_rule.

(* sort.Slice is not stable and the model uses a stable insertion sort: it does
   not matter. For well-formed rules, dedupRules gives the same list for EVERY
   arrangement of the stripped rules that is sorted by Rule.Compare (every correct
   sorting algorithm), and for every order in which the rules of merged groups
   were appended. *)
Theorem C45_dedup_any_sort : forall replica rs sorted,
  Forall rule_wf rs ->
  Permutation (map (strip replica) rs) sorted -> StronglySorted (cle rule_cmp) sorted ->
  dedup_rules replica rs = dedup_sorted sorted.
Proof. exact dedup_rules_any_sort. Qed.
Print Assumptions C45_dedup_any_sort.

Theorem C45_dedup_order_independent : forall replica rs1 rs2,
  Forall rule_wf rs1 -> Permutation rs1 rs2 ->
  dedup_rules replica rs1 = dedup_rules replica rs2.
Proof.
  intros replica rs1 rs2 Hwf Hp.
  rewrite (dedup_rules_any_sort replica rs1 (isort rule_cmp (map (strip replica) rs2)) Hwf).
  - reflexivity.
  - rewrite <- isort_perm. apply Permutation_map. exact Hp.
  - apply isort_sorted. apply rule_cmp_good.
Qed.
Print Assumptions C45_dedup_order_independent.

(* The same through the boolean predicates that the check evaluates on the
   implementation's own output: the model's output satisfies them on every input. *)
Theorem C45_rules_pred : forall sets rt tpl replica gs,
  pred_ok (CRules sets rt tpl replica gs (rules_api (re_of rt) (templ_of tpl) sets replica gs)) = true.
Proof. intros. apply api_pred_holds. Qed.
Print Assumptions C45_rules_pred.

Theorem C45_matches_pred : forall sets rt tpl ls,
  pred_ok (CMatch sets rt tpl ls (matches (re_of rt) (templ_of tpl) sets ls)) = true.
Proof. intros. simpl. rewrite matches_eq_spec. apply Bool.eqb_reflx. Qed.
Print Assumptions C45_matches_pred.

(* Rule.Compare and RuleGroup.Compare are total preorders (what sort.Slice and
   the neighbour-merging loops rely on). *)
Theorem C45_compare_total_preorder : good_cmp rule_cmp /\ good_cmp group_cmp.
Proof. exact (conj rule_cmp_good group_cmp_good). Qed.
Print Assumptions C45_compare_total_preorder.

(* Non-vacuity: two sets, the second one satisfied. *)
Example C45_nonvacuous :
  matches ex_re ex_templ ex_sets [([97%N], [121%N])] = true /\ ex_sets <> [].
Proof. split; [vm_compute; reflexivity | discriminate]. Qed.

(* Non-vacuity for the pipeline: two replicas of one alerting rule (replica label
   114 = "r") in two groups with the same key, two selector sets; one rule is
   returned, the firing one. *)
Definition ex_gs : list group :=
  [Group [103%N] [Rule Alerting [49%N] [([97%N],[121%N]); ([114%N],[49%N])] [117%N] 60 1 100];
   Group [103%N] [Rule Alerting [49%N] [([97%N],[121%N]); ([114%N],[50%N])] [117%N] 60 2 200;
                  Rule Recording [50%N] [([97%N],[122%N])] [117%N] 0 0 100]].
Example C45_pipeline_nonvacuous :
  rules_api ex_re ex_templ ex_sets [[114%N]] ex_gs
  = [Group [103%N] [Rule Alerting [49%N] [([97%N],[121%N])] [117%N] 60 2 200]].
Proof. vm_compute. reflexivity. Qed.

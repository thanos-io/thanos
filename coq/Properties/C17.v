(* C17 — Pooled buffers are released exactly once and pool budgets hold: the BucketedPool
   accounting, the ShardMatcher buffer life cycle, and requests as interleavings of
   "response set created / dropped unopened / closed from one of the call sites" events, the
   call sites taken from the source (loser tree exhaustion and Close, the proxy's deferred
   Close, the store gateway's error path; both retrieval strategies end in ShardMatcher.Close).
   Property theorems only; each is closed by [exact] of a lemma of Proofs/C17.v.
   Models WITH C17-fix.patch ([true]); [false] = before the fix. *)
From Coq Require Import String.
From Coq Require Import NArith List Bool.
Import ListNotations.
From Verif Require Import Lib.Corr Gen.C17 Model.C17 Proofs.C17.
Open Scope N_scope.

(* BucketedPool: for every bucket layout, every budget and every history of Get(size) /
   Put(outstanding slice, capacity unchanged, each returned at most once): UsedBytes is
   exactly the sum of the capacities handed out and not yet returned; it never exceeds
   maxTotal (when maxTotal > 0); it is 0 once every slice is returned. *)
Theorem C17_pool_budget : forall sizes maxt ops,
  let st := pfinal true sizes maxt pinit ops in
  used st = sum_n (out st) /\ (maxt <> 0 -> used st <= maxt) /\ (out st = [] -> used st = 0).
Proof. exact pool_invariant. Qed.
Print Assumptions C17_pool_budget.

(* the same after every single call, through the predicate the check evaluates on the
   real pool's answers *)
Theorem C17_pool_pred : forall sizes maxt ops,
  pred_ok (CPool sizes maxt ops (prun true sizes maxt pinit ops)) = true.
Proof. exact pool_case_pred. Qed.
Print Assumptions C17_pool_pred.

(* before the fix the limit was tested against the requested size but the bucket capacity
   was charged: maxTotal 10, buckets 8/16, Get(9) => 16 used (corpus/C17/01) *)
Theorem C17_capacity_budget_unfixed_refuted :
  used (pfinal false [8; 16] 10 pinit [PGet 9]) = 16 /\ pget true [8; 16] 10 pinit 9 = None.
Proof. exact pool_unfixed_refuted. Qed.
Print Assumptions C17_capacity_budget_unfixed_refuted.

(* ShardMatcher buffers: for every history of Matcher() / Close() calls on one sync.Pool —
   any number of Close calls per matcher, in any order, sync.Pool.Get returning any pooled
   buffer or a new one — no buffer is in the pool twice and no buffer is both in the pool
   and held by an open matcher: two live requests never share a buffer. *)
Theorem C17_single_put : forall ops st, mrun true minit ops = Some st ->
  NoDup (mpool st ++ somes (held st)).
Proof. exact shard_single_put. Qed.
Print Assumptions C17_single_put.

Theorem C17_shard_pred : forall ops st, mrun true minit ops = Some st ->
  pred_ok (CShard ops (sort_n (mpool st))) = true.
Proof. exact shard_case_pred. Qed.
Print Assumptions C17_shard_pred.

(* Requests. For ANY number of concurrent requests on one store and any interleaving of their
   events — a response set is created (its matcher takes a buffer), or created and dropped
   because the store refused the stream, or closed from any of the call sites (loser tree on
   exhaustion, loser tree Close, the proxy's deferred Close, the gateway's error path), each any
   number of times — every reachable state has each buffer at most once in the pool and no
   pooled buffer is still held by an open response set. *)
Theorem C17_requests_single_put : forall es st, pxrun true pxinit es = Some st ->
  NoDup (mpool (px_m st) ++ somes (held (px_m st))).
Proof. exact px_single_put. Qed.
Print Assumptions C17_requests_single_put.

Theorem C17_proxy_pred : forall reqs k nfail sharded st,
  pxrun true pxinit (px_requests reqs k nfail sharded 0 0) = Some st ->
  pred_ok (CProxy reqs k nfail sharded (negb (nodup_n (mpool (px_m st))))) = true.
Proof. exact proxy_case_pred. Qed.
Print Assumptions C17_proxy_pred.

(* before the fix, at the level of requests: exhausted in the loser tree, then the deferred Close *)
Theorem C17_requests_unfixed_refuted :
  option_map (fun st => mpool (px_m st))
    (pxrun false pxinit [EvOpen 0 true 0; EvClose 0 0 CSExhausted; EvClose 0 0 CSDeferred]) = Some [0; 0] /\
  option_map (fun st => mpool (px_m st))
    (pxrun true pxinit [EvOpen 0 true 0; EvOpenFail 0 true 1; EvOpen 1 true 2; EvClose 0 0 CSExhausted; EvClose 1 0 CSErrorPath;
                        EvClose 0 0 CSDeferred; EvClose 1 0 CSTreeClose; EvClose 1 0 CSDeferred]) = Some [2; 0].
Proof. exact px_unfixed_refuted. Qed.
Print Assumptions C17_requests_unfixed_refuted.

(* Tie T for the request model: the close call sites of the loser tree, of ProxyStore.Series and
   of BucketStore.Series, no Close in newAsyncRespSet (a refused stream drops the matcher), and
   both retrieval strategies ending in shardMatcher.Close. *)
Theorem C17_close_sites_in_source :
  loserTreeCloseSites = ["Close: t.close(e.items)"; "moveNext: t.close(n.items)"]%string /\
  proxySeriesCloseCalls = ["defer respSet.Close"]%string /\
  bucketSeriesCloseCalls = ["defer blockClient.Close"; "call resp.Close"; "defer lt.Close"]%string /\
  newAsyncRespSetCloseCalls = []%string /\
  newAsyncRespSetOpenEvents =
    [("call", "storeInfo"); ("call", "grpc_opentracing.ClientAddContextTags"); ("call", "context.WithCancel");
     ("call", "shardInfo.Matcher"); ("call", "st.SupportsSharding"); ("if", "applySharding"); ("call", "st.String");
     ("call", "level.Debug"); ("call", "level.Debug().Log"); ("endif", ""); ("call", "st.Series"); ("if", "err != nil");
     ("call", "errors.Wrapf"); ("call", "cancel"); ("return", "nil, err"); ("endif", "")]%string /\
  In "s.Close"%string loserTreeCloseCalls /\
  In "l.shardMatcher.Close"%string lazyRespSetCloseCalls /\ In "l.shardMatcher.Close"%string eagerRespSetCloseCalls.
Proof. exact close_sites_in_source. Qed.
Print Assumptions C17_close_sites_in_source.

(* before the fix every Close put the buffer again: closed twice (as ProxyStore.Series does,
   see C17_source_shape) the buffer is in the pool twice and the next two matchers share it
   (corpus/C17/02) *)
Theorem C17_double_put_unfixed_refuted :
  option_map mpool (mrun false minit [MNew true 0; MClose 0; MClose 0]) = Some [0; 0] /\
  option_map (fun st => somes (held st)) (mrun false minit [MNew true 0; MClose 0; MClose 0; MNew true 0; MNew true 0])
    = Some [0; 0; 0] /\
  option_map mpool (mrun true minit [MNew true 0; MClose 0; MClose 0]) = Some [0].
Proof. exact shard_unfixed_refuted. Qed.
Print Assumptions C17_double_put_unfixed_refuted.

(* Tie T: the accounting statements of Get/Put, the two limit tests of the fixed Get, the
   body of ShardMatcher.Close (Put, then s.buffers = nil), and the two Close paths of the
   proxy: the deferred respSet.Close in ProxyStore.Series and the loser tree's close
   callback, both reaching shardMatcher.Close in lazyRespSet.Close / eagerRespSet.Close. *)
Theorem C17_source_shape :
  poolUsedTotalUpdates = ["p.usedTotal += uint64(cap(*b))"; "p.usedTotal += uint64(sz)"; "p.usedTotal = 0";
                          "p.usedTotal -= uint64(sz)"]%string /\
  In ("if", "p.maxTotal > 0 && p.usedTotal+uint64(bktSize) > p.maxTotal")%string poolGetEvents /\
  In ("if", "p.maxTotal > 0 && p.usedTotal+uint64(sz) > p.maxTotal")%string poolGetEvents /\
  shardMatcherCloseEvents = [("if", "s == nil"); ("return", ""); ("endif", ""); ("if", "s.buffers != nil");
                             ("call", "s.buffers.Put"); ("endif", "")]%string /\
  shardMatcherCloseAssigns = ["s.buffers = nil"]%string /\
  In "respSet.Close"%string proxySeriesDefers /\ In "s.Close"%string loserTreeCloseCalls /\
  In "l.shardMatcher.Close"%string lazyRespSetCloseCalls /\ In "l.shardMatcher.Close"%string eagerRespSetCloseCalls.
Proof. exact source_shape. Qed.
Print Assumptions C17_source_shape.

(* Concurrent Get/Put on one pool. Get holds the pool's mutex from the budget test to the
   accounting and Put holds it for the subtraction (C17_get_critical_section), so a concurrent
   execution is an interleaving of atomic steps. For every set of threads and EVERY schedule:
   UsedBytes equals the capacities checked out by all threads together and never exceeds maxTotal. *)
Theorem C17_concurrent_budget : forall sizes maxt threads sched,
  let st := tfinal true sizes maxt (tinit threads) sched in
  t_used st = total_out (t_outs st) /\ (maxt <> 0 -> t_used st <= maxt).
Proof. exact concurrent_budget. Qed.
Print Assumptions C17_concurrent_budget.

Theorem C17_sched_pred : forall sizes maxt threads sched,
  pred_ok (CSched sizes maxt threads sched (trun true sizes maxt (tinit threads) sched)) = true.
Proof. exact sched_case_pred. Qed.
Print Assumptions C17_sched_pred.

(* a Get whose budget test and accounting are not one atomic step breaks the budget *)
Theorem C17_split_get_refuted :
  pget true [10; 20; 40; 80] 100 (mkP 0 []) 80 <> None /\
  pget true [10; 20; 40; 80] 100 (mkP 0 []) 80 <> None /\
  0 + charge [10; 20; 40; 80] 80 + charge [10; 20; 40; 80] 80 = 160 /\ 100 < 160 /\
  pget true [10; 20; 40; 80] 100 (mkP 80 [80]) 80 = None.
Proof. exact split_get_refuted. Qed.
Print Assumptions C17_split_get_refuted.

(* Tie T: the critical section of Get (Lock first, Unlock deferred, tests and accounting inline,
   no other lock operation) and of Put's subtraction *)
Theorem C17_get_critical_section :
  poolGetEvents =
    [("call", "p.mtx.Lock"); ("defer", "p.mtx.Unlock"); ("for", "range"); ("if", "sz > bktSize"); ("endif", "");
     ("call", "uint64"); ("if", "p.maxTotal > 0 && p.usedTotal+uint64(bktSize) > p.maxTotal");
     ("return", "nil, ErrPoolExhausted"); ("endif", ""); ("call", "p.buckets.Get"); ("if", "!ok"); ("call", "p.new");
     ("endif", ""); ("call", "cap"); ("call", "uint64"); ("return", "b, nil"); ("endfor", ""); ("call", "uint64");
     ("if", "p.maxTotal > 0 && p.usedTotal+uint64(sz) > p.maxTotal"); ("return", "nil, ErrPoolExhausted"); ("endif", "");
     ("call", "uint64"); ("call", "p.new"); ("return", "p.new(sz), nil")]%string /\
  (exists pre, poolPutEvents = pre ++ [("call", "p.mtx.Lock"); ("defer", "p.mtx.Unlock"); ("call", "uint64");
     ("if", "uint64(sz) >= p.usedTotal"); ("else", ""); ("call", "uint64"); ("endif", "")]%string).
Proof. exact get_critical_section. Qed.
Print Assumptions C17_get_critical_section.

(* When a response set gives its buffer back. Close runs in the request's goroutine while the
   response set's receive goroutine may still be handling messages (MatchesZLabels writes into the
   buffer). With Close as written — cancel the stream, WAIT for the receive goroutine, then
   shardMatcher.Close() (Put), then CloseSend (C17_close_stmts_in_source) — for EVERY interleaving
   and any number of messages still handled by the receiver, nothing writes into the buffer after
   it went back to the pool, i.e. after another request may own it. *)
Theorem C17_put_after_receiver : forall fuel sched writes,
  write_after_put false (trun_close fuel sched 0 close_fixed writes false) = false.
Proof. exact put_after_receiver. Qed.
Print Assumptions C17_put_after_receiver.

(* with the Put before the wait there is an interleaving that writes into a pooled buffer *)
Theorem C17_early_put_refuted :
  trun_close 10 (fun s => Nat.ltb s 2) 0 close_early_put 1 false
    = [TAct CCancel; TAct CPut; TWrite; TStop; TAct CCloseSend; TAct CWait] /\
  write_after_put false (trun_close 10 (fun s => Nat.ltb s 2) 0 close_early_put 1 false) = true.
Proof. exact early_put_refuted. Qed.
Print Assumptions C17_early_put_refuted.

Theorem C17_close_stmts_in_source :
  lazyCloseStmts = ["l.bufferedResponsesMtx.Lock()"; "l.closeSeries()"; "l.rb.close()"; "l.noMoreData = true";
                    "l.dataOrFinishEvent.Signal()"; "l.bufferedResponsesMtx.Unlock()"; "<-l.donec";
                    "l.shardMatcher.Close()"; "_ = l.cl.CloseSend()"]%string /\
  eagerCloseStmts = ["if l.closeSeries != nil { l.closeSeries() }"; "l.wg.Wait()"; "l.shardMatcher.Close()";
                     "_ = l.cl.CloseSend()"]%string.
Proof. exact close_stmts_in_source. Qed.
Print Assumptions C17_close_stmts_in_source.

Example C17_concurrent_nonvacuous :
  trun true [10; 20; 40; 80] 100 (tinit [[TGet 80; TPut 0%nat]; [TGet 80; TGet 20]]) [0; 1; 1; 0; 1]%nat
    = [(true, 80, 80); (false, 0, 80); (true, 20, 100); (true, 0, 20); (true, 0, 20)].
Proof. exact concurrent_nonvacuous. Qed.

Example C17_nonvacuous :
  prun true [10; 20; 40; 80] 100 pinit [PGet 40; PGet 19; PGet 50; PPut 0; PGet 50; PPut 0; PPut 0]
    = [(true, 40, 40); (true, 20, 60); (false, 0, 60); (true, 0, 20); (true, 80, 100); (true, 0, 80); (true, 0, 0)] /\
  option_map mpool (mrun true minit [MNew true 0; MNew true 1; MClose 1; MClose 1; MNew true 1; MClose 0]) = Some [0] /\
  option_map (fun st => mpool (px_m st)) (pxrun true pxinit (px_requests 2 3 1 true 0 0)) = Some [5; 4; 2; 1] /\
  option_map (fun st => mpool (px_m st)) (pxrun false pxinit (px_requests 1 2 0 true 0 0)) = Some [1; 1; 0; 0].
Proof. repeat split; vm_compute; reflexivity. Qed.

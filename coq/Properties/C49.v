(* C49 — Memcached key placement is consistent.
   [nextj b key] stands for the float64 expression of jumpHash; the general
   theorems hold for every function with [b < nextj b key] on the domain where
   the loop evaluates it, and C49_float_expression proves this for the IEEE-754
   binary64 semantics of the Go expression (Flocq).
   Keys carry their xxhash value. [nat_less] is natsort.Compare. *)
From Coq Require Import NArith ZArith List Bool Permutation String Lia.
Import ListNotations.
From Verif Require Import Lib.Corr Lib.Misc_Cmp Gen.C49 Model.C49 Proofs.C49 Proofs.C49_ieee Proofs.C49_prim Proofs.C49_natsort.
Open Scope Z_scope.

(* The hypothesis on [nextj] is only needed where the code evaluates the
   expression: on bucket numbers 0 <= b < N (N bounds the number of buckets) and
   64-bit keys. C49_float_expression proves it for the IEEE-754 binary64 reading
   of the Go expression with N = 2^53 - 1; the *_ieee theorems are the
   instances without any hypothesis left. *)
Definition nextj_ok (nextj : Z -> Z -> Z) (N : Z) : Prop :=
  forall b k, 0 <= b < N -> 0 <= k < two64 -> b < nextj b k.

(* jumpHash terminates (the fuel is never exhausted) with a bucket in [0, n). *)
Theorem C49_jump_range : forall nextj N, nextj_ok nextj N ->
  forall key n, 1 <= n <= N -> exists r, jump nextj key n = Some r /\ 0 <= r < n.
Proof. exact jump_range. Qed.
Print Assumptions C49_jump_range.

(* One more bucket: a key keeps its bucket or moves to the new one. *)
Theorem C49_jump_consistent : forall nextj N, nextj_ok nextj N ->
  forall key n, 1 <= n -> n + 1 <= N ->
  jump nextj key (n + 1) = jump nextj key n \/ jump nextj key (n + 1) = Some n.
Proof. exact jump_consistent. Qed.
Print Assumptions C49_jump_consistent.

(* Looked up alone or in a batch: with at least one server, PickServerForKeys
   succeeds and files under server [a] exactly the keys PickServer sends to [a]
   (order and multiplicity kept); with no server both fail. *)
Theorem C49_single_eq_batch : forall nextj N, 1 <= N -> nextj_ok nextj N ->
  forall addrs keys, Z.of_nat (List.length addrs) <= N ->
  (addrs <> [] ->
     exists m, pick_for_keys nextj addrs keys = Some m
       /\ forall a, mget m a = filter (fun k => ostr_eqb (pick nextj addrs k) (Some a)) keys)
  /\ (addrs = [] -> pick_for_keys nextj addrs keys = None /\ forall k, pick nextj addrs k = None).
Proof.
  intros nextj N HN H addrs keys HL. split.
  - intro Hne. eapply batch_eq_single; eauto.
  - intro E. subst. split; reflexivity.
Qed.
Print Assumptions C49_single_eq_batch.

(* Listing order: if natsort.Compare is a strict total order on the listed
   (distinct) servers — a decidable condition the check evaluates on every
   concrete list — SetServers stores the same order for every permutation of
   the list, hence every key is sent to the same server. *)
Theorem C49_order_independent : forall nextj servers servers2,
  nodup_b servers = true -> strict_total_b nat_less servers = true ->
  Permutation servers servers2 ->
  set_servers servers = set_servers servers2
  /\ forall k, pick nextj (set_servers servers) k = pick nextj (set_servers servers2) k.
Proof.
  intros nextj servers servers2 H1 H2 H3.
  pose proof (set_servers_order_independent _ _ H2 H3) as E. split; [exact E|]. intro k. rewrite E. reflexivity.
Qed.
Print Assumptions C49_order_independent.

(* natsort.Compare on "statefulset-like" names — a common prefix P that does not
   end with a digit, a run of digits, a common suffix S that does not begin with
   one (memcached-<n>.memcached.svc:11211, 10.0.0.<n>:11211, /run/mc-<n>.sock) —
   is the order of the numbers, provided they fit int64 and are pairwise
   different; so for every such list the stored order, hence every pick, does
   not depend on the listing order, without evaluating the comparison. *)
Theorem C49_natsort_statefulset : forall P S,
  match rev P with x :: _ => is_digit x = false | [] => True end ->
  match S with y :: _ => is_digit y = false | [] => True end ->
  forall d1 d2, okd d1 -> okd d2 -> digits_val d1 <> digits_val d2 ->
  nat_less (name P S d1) (name P S d2) = (digits_val d1 <? digits_val d2).
Proof. exact nat_less_names. Qed.
Print Assumptions C49_natsort_statefulset.

Theorem C49_order_independent_statefulset : forall nextj P S,
  match rev P with x :: _ => is_digit x = false | [] => True end ->
  match S with y :: _ => is_digit y = false | [] => True end ->
  forall ds, Forall okd ds -> NoDup (map digits_val ds) ->
  forall listed2, Permutation (map (name P S) ds) listed2 ->
  set_servers (map (name P S) ds) = set_servers listed2
  /\ forall k, pick nextj (set_servers (map (name P S) ds)) k = pick nextj (set_servers listed2) k.
Proof.
  intros nextj P S HP HS ds Hok Hnd l2 Hp.
  pose proof (names_order_independent P S HP HS ds Hok Hnd l2 Hp) as E.
  split; [exact E | intro k; rewrite E; reflexivity].
Qed.
Print Assumptions C49_order_independent_statefulset.

(* Adding a server that sorts last only moves keys onto it. *)
Theorem C49_add_last : forall nextj N, 1 <= N -> nextj_ok nextj N ->
  forall servers new_list new,
  Z.of_nat (List.length servers) + 1 <= N ->
  set_servers new_list = set_servers servers ++ [new] ->
  forall k, pick nextj (set_servers new_list) k = pick nextj (set_servers servers) k
            \/ pick nextj (set_servers new_list) k = Some new.
Proof. exact add_last. Qed.
Print Assumptions C49_add_last.

(* The same two facts through the boolean predicates that the check evaluates
   on the implementation's own outputs. *)
Theorem C49_jump_pred : forall nextj N, nextj_ok nextj N ->
  forall key tab outs, Z.of_nat (List.length outs) <= N ->
  map Some outs = map (jump nextj key) (seqZ 1 (List.length outs)) ->
  pred_ok (CJump key tab outs) = true.
Proof. exact jump_pred. Qed.
Print Assumptions C49_jump_pred.

Theorem C49_add_last_pred : forall nextj N, 1 <= N -> nextj_ok nextj N ->
  forall servers new keys tab,
  Z.of_nat (List.length servers) + 1 <= N ->
  set_servers (servers ++ [new]) = set_servers servers ++ [new] ->
  pred_ok (CAdd servers new keys tab
             (map (pick nextj (set_servers servers)) keys)
             (map (pick nextj (set_servers (servers ++ [new]))) keys)) = true.
Proof. exact add_pred. Qed.
Print Assumptions C49_add_last_pred.

(* The float64 expression of jumpHash under IEEE-754 binary64 semantics (Flocq:
   round to nearest even; exact conversion of integers below 2^53; truncating
   int64 conversion) exceeds b wherever the loop evaluates it. Depends on the
   classical real-number axioms of the standard library (through Flocq). *)
Theorem C49_float_expression : nextj_ok nextj_ieee (2 ^ 53 - 1).
Proof. exact nextj_ieee_dom. Qed.
Print Assumptions C49_float_expression.

(* The executable evaluation of the expression with Coq's primitive floats, with
   which the check re-computes every oracle value taken from the Go run, IS the
   IEEE-754 reading; so it satisfies the hypothesis too. Depends on the
   specification axioms of Coq's primitive integers/floats and on the classical
   reals (Flocq). *)
Theorem C49_prim_is_ieee : forall b key,
  0 <= b < 2 ^ 53 - 1 -> 0 <= key < two64 -> nextj_prim b key = nextj_ieee b key.
Proof. exact nextj_prim_ieee. Qed.
Print Assumptions C49_prim_is_ieee.

Theorem C49_float_expression_prim : nextj_ok nextj_prim (2 ^ 53 - 1).
Proof. intros b k Hb Hk. rewrite nextj_prim_ieee by assumption. apply nextj_ieee_dom; assumption. Qed.
Print Assumptions C49_float_expression_prim.

(* Instances with no hypothesis left: termination and range, consistency, and
   add-last for up to 2^53 - 2 buckets / servers. *)
Theorem C49_jump_ieee : forall key n, 1 <= n -> n + 1 <= 2 ^ 53 - 1 ->
  (exists r, jump nextj_ieee key n = Some r /\ 0 <= r < n)
  /\ (jump nextj_ieee key (n + 1) = jump nextj_ieee key n \/ jump nextj_ieee key (n + 1) = Some n).
Proof.
  intros key n H1 H2. split.
  - apply (jump_range nextj_ieee N64 nextj_ieee_dom). unfold N64. lia.
  - apply (jump_consistent nextj_ieee N64 nextj_ieee_dom); unfold N64; lia.
Qed.
Print Assumptions C49_jump_ieee.

Theorem C49_add_last_ieee : forall servers new_list new,
  Z.of_nat (List.length servers) + 1 <= 2 ^ 53 - 1 ->
  set_servers new_list = set_servers servers ++ [new] ->
  forall k, pick nextj_ieee (set_servers new_list) k = pick nextj_ieee (set_servers servers) k
            \/ pick nextj_ieee (set_servers new_list) k = Some new.
Proof. exact (add_last nextj_ieee N64 N64_pos nextj_ieee_dom). Qed.
Print Assumptions C49_add_last_ieee.

(* The property as worded ("adding a server only moves keys onto the new
   server", "regardless of the order servers are listed in") is false of the
   faithful model; both witnesses are replayed on the implementation
   (corpus/C49/04, 05) and recorded as known findings. *)
Theorem C49_add_not_last_refuted :
  pick (nextj_of w_tab) (set_servers [srv2; srv0]) w_key = Some srv0
  /\ pick (nextj_of w_tab) (set_servers ([srv2; srv0] ++ [srv1])) w_key = Some srv2.
Proof. exact add_middle_moves_between_old. Qed.
Print Assumptions C49_add_not_last_refuted.

Theorem C49_natsort_not_total_refuted :
  nat_less s1 s01 = true /\ nat_less s01 s1 = true /\ nat_less s1 s1 = true
  /\ set_servers [s1; s01] <> set_servers [s01; s1].
Proof. exact natsort_not_antisymmetric. Qed.
Print Assumptions C49_natsort_not_total_refuted.

(* Tie T: the float expression copied by the harness oracle, `b = j`, the
   branch conditions of PickServer / PickServerForKeys and the callee chain are
   those of the current source. *)
Theorem C49_source_facts : src_facts_ok = true.
Proof. exact src_facts. Qed.
Print Assumptions C49_source_facts.

(* Non-vacuity: a function meeting the hypothesis, a 3-server list on which
   natsort is a strict total order, and a jump through two buckets. *)
Example C49_nonvacuous :
  nextj_ok (fun b _ => b + 2) 100
  /\ jump (fun b _ => b + 2) 7 5 = Some 4
  /\ strict_total_b nat_less [srv2; srv0; srv1] = true /\ nodup_b [srv2; srv0; srv1] = true
  /\ set_servers [srv2; srv0; srv1] = [srv0; srv1; srv2].
Proof. split; [intros b k _ _; lia|]. vm_compute. repeat split; reflexivity. Qed.

(* Non-vacuity for the statefulset class: "/s" ++ digits, numbers 10, 9, 2. *)
Example C49_statefulset_nonvacuous :
  let P := [47; 115]%N in
  let ds := [[49; 48]; [57]; [50]]%N in
  Forall okd ds /\ NoDup (map digits_val ds)
  /\ set_servers (map (name P []) ds) = map (name P []) [[50]; [57]; [49; 48]]%N.
Proof.
  cbv zeta. split; [|split].
  - repeat constructor; try discriminate; vm_compute; congruence.
  - vm_compute. repeat constructor; simpl; intuition discriminate.
  - vm_compute. reflexivity.
Qed.

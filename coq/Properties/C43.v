(* C43 — Results-cache keys separate tenants and result-changing parameters.
   Model/C43.v mirrors pkg/queryfrontend/cache.go (with the tenant field escaped by
   escapeCacheKeyTenant: repo_patches/C43-fix.patch); byte strings are [list N].

   Full statement wanted: for all accepted tenants t1 t2 and cacheable requests r1 r2,
     key t1 r1 = key t2 r2 -> t1 = t2 /\ same_params r1 r2 = true.
   Proved: the tenant half for ALL inputs (C43_tenant_separation); the parameter half
   for range requests whose engine / replica-label strings avoid the separators
   (C43_range_injective, C43_range_pred), and for label / series requests except
   the parameters their key formats leave out (…_partial). The remaining cases are
   false of the code and are proved so (…_refuted). *)
From Coq Require Import ZArith NArith List Bool Permutation.
Import ListNotations.
From Verif Require Import Lib.Corr Gen.C43 Model.C43 Proofs.C43.
Open Scope Z_scope.

(* Requests of different tenants never share a key: every tenant string, every
   request of any of the three kinds, no side condition. *)
Theorem C43_tenant_separation : forall t1 r1 t2 r2,
  key t1 r1 = key t2 r2 -> t1 = t2.
Proof. exact tenant_separation. Qed.
Print Assumptions C43_tenant_separation.

(* Range requests: when engine and replica labels are free of ':' (and replica labels
   non-empty and free of ','), equal keys force equal tenant, query (ANY query text,
   colons included), step, split interval and window, resolution class, shard,
   lookback delta, engine, partial response, replica labels (as sorted lists) and analyze. *)
Theorem C43_range_injective : forall t1 r1 t2 r2,
  is_range r1 -> is_range r2 -> safe_range r1 -> safe_range r2 ->
  key t1 r1 = key t2 r2 -> t1 = t2 /\ range_same r1 r2.
Proof. exact range_injective. Qed.
Print Assumptions C43_range_injective.

(* the same through the boolean predicate the check evaluates on the implementation's keys *)
Theorem C43_range_pred : forall t1 r1 t2 r2,
  is_range r1 -> is_range r2 -> safe_range r1 -> safe_range r2 ->
  pred_ok (CPair t1 r1 (key t1 r1) t2 r2 (key t2 r2)) = true.
Proof. exact range_pred. Qed.
Print Assumptions C43_range_pred.

(* Label names/values requests: the key determines tenant, label name (free of ':'),
   the matchers' rendering and the window. partial: PartialResponse is not in the key. *)
Theorem C43_labels_injective_partial : forall t1 t2 l1 m1 st1 sp1 p1 l2 m2 st2 sp2 p2,
  no c_colon l1 -> no c_colon l2 ->
  key t1 (RLabels l1 m1 st1 sp1 p1) = key t2 (RLabels l2 m2 st2 sp2 p2) ->
  t1 = t2 /\ l1 = l2 /\ m1 = m2 /\ sp1 = sp2 /\ Z.quot st1 sp1 = Z.quot st2 sp2.
Proof. exact labels_injective. Qed.
Print Assumptions C43_labels_injective_partial.

(* Series requests: the key determines tenant, matchers' rendering and window.
   partial: PartialResponse and ReplicaLabels are not in the key. *)
Theorem C43_series_injective_partial : forall t1 t2 m1 st1 sp1 p1 rl1 m2 st2 sp2 p2 rl2,
  key t1 (RSeries m1 st1 sp1 p1 rl1) = key t2 (RSeries m2 st2 sp2 p2 rl2) ->
  t1 = t2 /\ m1 = m2 /\ sp1 = sp2 /\ Z.quot st1 sp1 = Z.quot st2 sp2.
Proof. exact series_injective. Qed.
Print Assumptions C43_series_injective_partial.

(* Keys of different request kinds are different (matters when one cache backend
   serves both the query-range and the labels tripperware). *)
Theorem C43_range_vs_other : forall t1 r1 t2 r2,
  is_range r1 -> ~ is_range r2 -> key t1 r1 <> key t2 r2.
Proof. exact range_vs_other. Qed.
Print Assumptions C43_range_vs_other.

Theorem C43_labels_vs_series : forall t1 t2 l1 m1 st1 sp1 p1 m2 st2 sp2 p2 rl2,
  no c_colon l1 -> hd_error l1 <> Some c_lbrack -> hd_error m2 = Some c_lbrack ->
  key t1 (RLabels l1 m1 st1 sp1 p1) <> key t2 (RSeries m2 st2 sp2 p2 rl2).
Proof. exact labels_vs_series. Qed.
Print Assumptions C43_labels_vs_series.

(* Max source resolution enters the key through its class; two values are in the same
   class exactly when they allow the same resolution levels (the list regenerated from
   the source), i.e. when the querier may read the same blocks. *)
Theorem C43_resolution_class : forall msr1 msr2,
  res_class msr1 = res_class msr2 <->
  (forall l, In l key_resolutions -> (l <=? msr1) = (l <=? msr2)).
Proof. exact resolution_class. Qed.
Print Assumptions C43_resolution_class.

(* replica labels enter as a sorted list: order does not matter, multiplicity does *)
Theorem C43_replicas_sorted_permutation : forall l, Permutation l (sort_strs l).
Proof. exact sort_strs_perm. Qed.
Print Assumptions C43_replicas_sorted_permutation.

(* tenants accepted by tenant.SingleResolver: no path separators, not "." / ".." — ':' is allowed *)
Theorem C43_tenant_accepted_spec : forall t,
  tenant_accepted t = true <->
  t <> [c_dot] /\ t <> [c_dot; c_dot] /\ ~ In c_slash t /\ ~ In c_bslash t.
Proof. exact tenant_accepted_spec. Qed.
Print Assumptions C43_tenant_accepted_spec.

(* The refutations below: their witnesses are replayed on the real code (corpus/C43). *)

Definition b_a : N := 97%N. Definition b_b : N := 98%N. Definition b_c : N := 99%N.
Definition rq (q : str) (eng : str) (reps : list str) : req :=
  RRange q 0 1000 3600000 0 None 0 eng false reps false.

(* the key as built BEFORE the fix: tenant "a:b" asking "c" and tenant "a" asking "b:c"
   (both accepted tenants) share a key *)
Theorem C43_unescaped_tenant_refuted :
  exists t1 t2 r1 r2, tenant_accepted t1 = true /\ tenant_accepted t2 = true /\ t1 <> t2 /\
    key_unescaped t1 r1 = key_unescaped t2 r2.
Proof.
  exists [b_a; c_colon; b_b], [b_a], (rq [b_c] [] []), (rq [b_b; c_colon; b_c] [] []).
  repeat split; try (vm_compute; reflexivity). discriminate.
Qed.
Print Assumptions C43_unescaped_tenant_refuted.

(* replica labels ["a,b"] vs ["a";"b"], and [""] vs []: same key *)
Theorem C43_replica_separator_refuted :
  exists t r1 r2, is_range r1 /\ is_range r2 /\ key t r1 = key t r2 /\ same_params r1 r2 = false.
Proof.
  exists [b_a], (rq [b_c] [] [[b_a; c_comma; b_b]]), (rq [b_c] [] [[b_a]; [b_b]]).
  repeat split; vm_compute; reflexivity.
Qed.
Print Assumptions C43_replica_separator_refuted.

Theorem C43_replica_empty_refuted :
  exists t r1 r2, is_range r1 /\ is_range r2 /\ key t r1 = key t r2 /\ same_params r1 r2 = false.
Proof.
  exists [b_a], (rq [b_c] [] [[]]), (rq [b_c] [] []).
  repeat split; vm_compute; reflexivity.
Qed.
Print Assumptions C43_replica_empty_refuted.

(* an engine string containing ':' can absorb fields: engine "e" + replica label "r:true:x"
   vs engine "e:true:r" + replica label "x" (partial response true in both) *)
Theorem C43_engine_separator_refuted :
  exists t r1 r2, is_range r1 /\ is_range r2 /\ key t r1 = key t r2 /\ same_params r1 r2 = false.
Proof.
  exists [b_a],
    (RRange [b_c] 0 1000 3600000 0 None 0 [101%N] true [[114; 58; 116; 114; 117; 101; 58; 120]%N] false),
    (RRange [b_c] 0 1000 3600000 0 None 0 [101; 58; 116; 114; 117; 101; 58; 114]%N true [[120%N]] false).
  repeat split; vm_compute; reflexivity.
Qed.
Print Assumptions C43_engine_separator_refuted.

(* series requests differing only in replica labels, labels requests differing only in
   partial response: same key *)
Theorem C43_series_replicas_refuted :
  exists t m st sp p rl1 rl2, sort_strs rl1 <> sort_strs rl2 /\
    key t (RSeries m st sp p rl1) = key t (RSeries m st sp p rl2).
Proof.
  exists [b_a], [c_lbrack; 93%N], 0, 3600000, false, [[b_a]], [].
  split; [vm_compute; discriminate | reflexivity].
Qed.
Print Assumptions C43_series_replicas_refuted.

Theorem C43_labels_series_partial_response_refuted :
  exists t l m st sp rl,
    key t (RLabels l m st sp true) = key t (RLabels l m st sp false) /\
    key t (RSeries m st sp true rl) = key t (RSeries m st sp false rl).
Proof.
  exists [b_a], [b_b], [c_lbrack; 93%N], 0, 3600000, []. split; reflexivity.
Qed.
Print Assumptions C43_labels_series_partial_response_refuted.

(* two different accepted tenants with ':' and '%', a query with colons, safe engine and
   replica labels: hypotheses of C43_range_injective hold and the keys are as in Go *)
Example C43_nonvacuous :
  let r := RRange [b_b; c_colon; b_c] 7200001 60000 3600000 300000 (Some (3, 1)) 0 [b_a] true [[b_b]; [b_a]] false in
  is_range r /\ safe_range r /\ tenant_accepted [b_a; c_colon; b_b] = true
  /\ key [b_a; c_colon; b_b] r
     = [102;101;58; 97;37;51;65;98; 58; 98;58;99; 58;54;48;48;48;48; 58;51;54;48;48;48;48;48; 58;50; 58;49;
        58;51;58;49; 58;48; 58;97; 58;116;114;117;101; 58;97;44;98; 58;102;97;108;115;101]%N
  /\ key [b_a] (rq [b_b; c_colon; b_c] [] []) <> key [b_a; c_colon; b_b] (rq [b_c] [] []).
Proof.
  cbv zeta. split; [exact I|]. split.
  - cbn. split.
    + unfold no, c_colon, b_a. cbn. intuition discriminate.
    + repeat constructor; unfold no, c_colon, c_comma, b_a, b_b; cbn; try discriminate; intuition discriminate.
  - split; [vm_compute; reflexivity|]. split; [vm_compute; reflexivity|]. vm_compute. discriminate.
Qed.

Example C43_labels_nonvacuous :
  no c_colon [b_a] /\ hd_error [b_a] <> Some c_lbrack
  /\ key [] (RLabels [b_a] [c_lbrack; 93%N] 5 3600000 false)
     = [102;101;58; 58; 97; 58;91;93; 58;51;54;48;48;48;48;48; 58;48]%N.
Proof.
  split; [unfold no, c_colon, b_a; cbn; intuition discriminate|].
  split; [cbn; unfold b_a, c_lbrack; congruence|]. vm_compute. reflexivity.
Qed.

Example C43_resolution_class_nonvacuous :
  res_class 3600000 = 0 /\ res_class 3599999 = 1 /\ res_class 300000 = 1 /\ res_class 299999 = 2
  /\ res_class 0 = 2 /\ res_class (-1) = 3.
Proof. vm_compute. repeat split; reflexivity. Qed.

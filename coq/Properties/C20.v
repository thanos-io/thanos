(* C20 — Adding a node to a ketama ring (no availability zones) only moves series onto the new node.
   Property theorems only. The statements are about [spec_answers]: the first rf
   distinct endpoints on the successor walk of the hash-sorted ring, starting
   at the first section with hash >= v (Model/C20.v). The check requires the
   implementation's GetN answers to equal both this specification and the
   loop-level model shared with C18/C19 on every generated case. Section and
   series hashes are arbitrary data of the statements. *)
From Coq Require Import ZArith List Bool Arith Lia Permutation.
Import ListNotations.
From Verif Require Import Lib.Corr Lib.Hashring_Ketama Lib.Hashring_Answers Gen.C20 Model.C20 Proofs.C20 Proofs.C20_Loop.
Close Scope Z_scope.

(* For every ring (any number of nodes and sections per node), every position
   p at which the new endpoint e is inserted into the endpoint list, every
   replication factor and every series hash v — assuming only that no two
   sections of the new ring share a hash:
   (1) every replica after the change is the new node or was a replica before
       (no series moves between pre-existing nodes);
   (2) at most one of the old replicas loses the series;
   (3) if the new node is not among the replicas, the replica list is unchanged (same order). *)
Theorem C20_only_onto_new : forall hs p e rf v,
  p <= length hs ->
  NoDup (map s_hash (sections_of 0 (nozone (ins p e hs)))) ->
  let A := spec_answers (spec_ring hs) rf v in
  let A' := spec_answers (spec_ring (ins p e hs)) rf v in
  (forall x, In x A' -> x = p \/ exists y, In y A /\ x = iota p y) /\
  length (filter (fun y => negb (mem (iota p y) A')) A) <= 1 /\
  (~ In p A' -> A' = map (iota p) A).
Proof. exact add_node_readable. Qed.
Print Assumptions C20_only_onto_new.

(* The same through the boolean predicate that the check evaluates on the
   implementation's own answers before/after. *)
Theorem C20_pred : forall hs p e rf v,
  p <= length hs ->
  NoDup (map s_hash (sections_of 0 (nozone (ins p e hs)))) ->
  only_onto_new p (spec_answers (spec_ring hs) rf v) (spec_answers (spec_ring (ins p e hs)) rf v) = true.
Proof. exact add_node_only_onto_new. Qed.
Print Assumptions C20_pred.

(* The structural fact behind it: the new ring with the new node's sections
   removed IS the old ring (endpoint positions renamed by iota). *)
Theorem C20_walk_filter : forall p e hs v,
  p <= length hs ->
  NoDup (map s_hash (sections_of 0 (nozone (ins p e hs)))) ->
  filter (fun x => negb (x =? p)) (map s_ep (rot_v (spec_ring (ins p e hs)) v))
  = map (iota p) (map s_ep (rot_v (spec_ring hs) v)).
Proof. exact walk_lists_related. Qed.
Print Assumptions C20_walk_filter.

(* The loop-level model — calculateSectionReplicas' index walk with `% len` and
   the lap counter, newKetamaHashring, ketamaHashring.GetN — computes exactly the
   specification on every zone-free ring in which each node owns a section and
   rf <= #nodes. *)
Theorem C20_loop_is_spec : forall hs rf v,
  rf <= length hs -> Forall (fun h => h <> []) hs -> hs <> [] ->
  loop_answers hs rf v = Some (spec_answers (spec_ring hs) rf v).
Proof. exact loop_is_spec. Qed.
Print Assumptions C20_loop_is_spec.

(* Hence the property for the loop-level model itself: both rings answer, and
   the answers before/after satisfy the predicate evaluated by the check. *)
Theorem C20_only_onto_new_loop : forall hs p e rf v,
  p <= length hs -> rf <= length hs -> hs <> [] ->
  Forall (fun h => h <> []) (ins p e hs) ->
  NoDup (map s_hash (sections_of 0 (nozone (ins p e hs)))) ->
  exists A A', loop_answers hs rf v = Some A /\ loop_answers (ins p e hs) rf v = Some A' /\
               only_onto_new p A A' = true.
Proof. exact add_node_loop. Qed.
Print Assumptions C20_only_onto_new_loop.

(* ---- the public constructor NewMultiHashring (one ketama hashring config) ----
   Source fact read on this run: every assignment to m.nodes appends onto m.nodes itself,
   so the constructor's final sort of m.nodes cannot reorder the endpoint slice the ring
   sections index into. *)
Theorem C20_nodes_not_aliased : nodes_copied = true.
Proof. exact nodes_copied_true. Qed.
Print Assumptions C20_nodes_not_aliased.

(* Placement depends on the SET of configured endpoints only: for every permutation of
   the endpoint list (addresses and their sections permuted together, any zones, any
   collision-free hashes) GetN of the multi-hashring answers the same addresses. *)
Theorem C20_multi_placement_depends_on_set_only : forall addrs eps perm,
  Permutation perm (seq 0 (length eps)) ->
  NoDup (map s_hash (sections_of 0 eps)) ->
  forall rf v, sections_of 0 eps <> [] ->
  multi_getn_gen true (permute (-1)%Z addrs perm) (permute (0%Z, []) eps perm) rf v
  = multi_getn_gen true addrs eps rf v.
Proof. exact multi_set_only. Qed.
Print Assumptions C20_multi_placement_depends_on_set_only.

(* Were m.nodes the ring's own slice, the sort would make placement depend on the list order. *)
Theorem C20_aliased_nodes_refuted :
  exists addrs eps perm rf v,
    Permutation perm (seq 0 (length eps)) /\ NoDup (map s_hash (sections_of 0 eps)) /\
    multi_getn_gen false (permute (-1)%Z addrs perm) (permute (0%Z, []) eps perm) rf v
    <> multi_getn_gen false addrs eps rf v.
Proof. exact aliased_order_dependent. Qed.
Print Assumptions C20_aliased_nodes_refuted.

(* Adding a node through the public constructor: [addrs] is the configured address list,
   distinct addresses in any order (it need not be sorted: NewMultiHashring sorts its own
   copy m.nodes), the new endpoint inserted at any position p. The answers, as positions
   in the configured lists, satisfy the predicate the check evaluates. *)
Theorem C20_only_onto_new_multi : forall addrs a_new hs p e rf v,
  p <= length hs -> length addrs = length hs ->
  NoDup addrs -> NoDup (ins p a_new addrs) ->
  NoDup (map s_hash (sections_of 0 (nozone (ins p e hs)))) ->
  only_onto_new p
    (map (answered_pos addrs) (spec_answers (spec_ring hs) rf v))
    (map (answered_pos (ins p a_new addrs)) (spec_answers (spec_ring (ins p e hs)) rf v)) = true.
Proof. exact add_node_multi. Qed.
Print Assumptions C20_only_onto_new_multi.

(* Non-vacuity: three nodes with two sections each, a node added in the middle;
   the series at hash 10 gains the new node (position 1) in place of old node 2. *)
Example C20_nonvacuous :
  let hs := [[5; 40]; [20; 70]; [30; 90]]%Z in
  let e := [12; 60]%Z in
  1 <= length hs /\ NoDup (map s_hash (sections_of 0 (nozone (ins 1 e hs)))) /\
  spec_answers (spec_ring hs) 2 10%Z = [1; 2] /\
  spec_answers (spec_ring (ins 1 e hs)) 2 10%Z = [1; 2] /\     (* new node, then old node 1 (now at position 2) *)
  spec_answers (spec_ring hs) 2 65%Z = [1; 2] /\
  spec_answers (spec_ring (ins 1 e hs)) 2 65%Z = [2; 3].       (* unchanged: old nodes 1 and 2 *)
Proof.
  split; [vm_compute; lia|]. split; [|vm_compute; repeat split; reflexivity].
  vm_compute. repeat (constructor; [simpl; intuition discriminate|]). constructor.
Qed.

Example C20_loop_nonvacuous :
  let hs := [[5; 40]; [20; 70]; [30; 90]]%Z in
  loop_answers hs 2 10%Z = Some [1; 2] /\ loop_answers (ins 1 [12; 60]%Z hs) 2 10%Z = Some [1; 2]
  /\ Forall (fun h => h <> []) (ins 1 [12; 60]%Z hs).
Proof. split; [vm_compute; reflexivity|]. split; [vm_compute; reflexivity|]. repeat constructor; discriminate. Qed.

Example C20_multi_nonvacuous :
  let addrs := [2; 0; 1]%Z in let eps := [(0, [5; 40]); (0, [20; 70]); (0, [30; 90])]%Z in
  Permutation [1; 2; 0] (seq 0 (length eps)) /\ NoDup (map s_hash (sections_of 0 eps)) /\
  multi_getn_gen true addrs eps 2 10%Z = Some [0; 1]%Z /\
  multi_getn_gen true (permute (-1)%Z addrs [1; 2; 0]) (permute (0%Z, []) eps [1; 2; 0]) 2 10%Z = Some [0; 1]%Z.
Proof.
  split; [apply NoDup_Permutation; [repeat constructor; simpl; intuition discriminate|apply seq_NoDup|intro x; simpl; intuition]|].
  split; [vm_compute; repeat constructor; simpl; intuition discriminate|]. split; vm_compute; reflexivity.
Qed.

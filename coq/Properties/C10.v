(* C10 — Store gateway answers equal a direct TSDB read of the same blocks.
   Property theorems only; each is closed by [exact] of a lemma from Proofs/C10*.v.
   Model: Model/C10.v (toPostingGroup, mergeKeys, matchersToPostingGroups, the set
   computed by ExpandedPostings/mergeFetchedPostings, decodeSeriesForTime's chunk
   selection, series without chunks dropped, external labels attached).
   The two chunk-selection tests and the list of toPostingGroup's tests come from Gen/C10.v
   (regenerated from pkg/store/bucket.go).
   The model describes the code WITH repo_patches/C10-fix.patch. *)
From Coq Require Import ZArith NArith List Bool Sorted Lia.
Import ListNotations.
From Verif Require Import Lib.Corr Lib.Storegw_Str Gen.C10 Model.C10 Proofs.C10 Proofs.C10_merge Proofs.C10_select Proofs.C10_part Proofs.C10_lazy Proofs.C10_cache.
Open Scope Z_scope.

(* Time filter: for every series whose chunks are ordered by start time (the TSDB index
   invariant) and every query range, the chunks returned are exactly the chunks
   overlapping [mint, maxt]; the early break loses nothing. *)
Theorem C10_time_filter : forall cs mint maxt,
  StronglySorted (fun a b => cmin_of a <= cmin_of b) cs ->
  chunks_for cs mint maxt = filter (overlaps mint maxt) cs.
Proof. exact chunks_for_filter. Qed.
Print Assumptions C10_time_filter.

(* Posting groups: for every matcher kind (=, !=, =~, !~, with set matches, ".*", ".+",
   empty value, or an arbitrary regular expression given by its truth function) and every
   label value v of the block (or "" = label absent), membership in the posting group built
   by toPostingGroup is exactly "the matcher matches v". *)
Theorem C10_group_sem : forall m vals v,
  coherent m -> smem [] vals = false -> (smem v vals = true \/ v = []) ->
  in_group (to_group m vals) v = m_fun m v.
Proof. exact group_sem. Qed.
Print Assumptions C10_group_sem.

(* mergeKeys: the merged group of two groups of the same label name denotes the
   intersection, for all strictly sorted key lists, and stays well-formed. *)
Theorem C10_merge_keys_sem : forall a b v, wf_group a -> wf_group b ->
  in_group (merge_keys a b) v = in_group a v && in_group b v.
Proof. exact merge_keys_sem. Qed.
Print Assumptions C10_merge_keys_sem.

Theorem C10_merge_keys_wf : forall a b, wf_group a -> wf_group b -> wf_group (merge_keys a b).
Proof. exact merge_keys_wf. Qed.
Print Assumptions C10_merge_keys_wf.

(* Selection: for every block index without an empty label name ([wf_index]), every non-empty
   list of coherent matchers in which equal matchers have equal truth functions ([consistent]): the series
   selected through posting groups (merged per label name, key-less groups dropped, the
   all-postings group added when needed, Without(Intersect(adds), Merge(removals))) are
   exactly the series of the index on which every matcher matches, in index order. *)
Theorem C10_expanded_eq_filter : forall idx ms,
  ms <> [] -> Forall coherent ms -> consistent ms -> wf_index idx ->
  select idx ms = filter (fun s : series => forallb (fun m => m_fun m (label_get (fst s) (m_name m))) ms) idx.
Proof. exact select_eq_filter. Qed.
Print Assumptions C10_expanded_eq_filter.

(* Lazy expanded postings: whatever subset of label names is marked lazy (their postings are
   not fetched; their matchers are re-checked on every candidate series), the condition a
   series must satisfy is the same as with every group fetched eagerly. *)
Theorem C10_lazy_equiv : forall idx ms gs (lazy : str -> bool),
  (forall g, In g gs -> good_group idx ms g) ->
  (forall m, In m ms -> exists g, In g gs /\ g_name g = m_name m) ->
  forall s, In s idx ->
  forallb (fun g => in_group g (gval s g)) (filter (fun g => negb (lazy (g_name g))) gs)
  && forallb (fun m => m_fun m (label_get (fst s) (m_name m))) (filter (fun m => lazy (m_name m)) ms)
  = forallb (fun g => in_group g (gval s g)) gs.
Proof. exact lazy_split_sem. Qed.
Print Assumptions C10_lazy_equiv.

(* ... and the groups built by matchersToPostingGroups meet those hypotheses. *)
Theorem C10_groups_good : forall idx ms, Forall coherent ms ->
  forall gs, matchers_to_groups idx ms = Some gs ->
  (forall g, In g gs -> good_group idx (dedup_matchers ms) g)
  /\ (forall m, In m (dedup_matchers ms) -> exists g, In g gs /\ g_name g = m_name m).
Proof. exact groups_good. Qed.
Print Assumptions C10_groups_good.

(* ... end to end: with ANY set of label names marked lazy (as long as one group with add
   keys is still fetched, which the heuristic guarantees) the lazily evaluated selection
   returns exactly the series of the eager selection. *)
Theorem C10_lazy_select_eq : forall idx ms lazy,
  ms <> [] -> Forall coherent ms -> consistent ms -> wf_index idx ->
  (forall gs, matchers_to_groups idx ms = Some gs ->
     existsb g_all gs && negb (existsb (fun g => negb (is_nil (g_add g))) gs) = false ->
     exists g, In g gs /\ g_add g <> [] /\ lazy (g_name g) = false) ->
  select_with idx ms lazy = select idx ms.
Proof. exact select_with_eq. Qed.
Print Assumptions C10_lazy_select_eq.

(* The lazy-marking heuristic (optimizePostingsFetchByDownloadedBytes), for EVERY estimated
   series size, every match ratio and key ratio (any rationals), every cardinality: among
   groups with distinct names it never marks lazy the first group (in cardinality order)
   that has add keys, so a group with add keys is always fetched. *)
Theorem C10_lazy_marking_keeps_add_group : forall idx sz mn md kn kd gs names,
  lazy_marking idx sz mn md kn kd gs = Some names ->
  NoDup (map g_name gs) ->
  (forall g, In g gs -> g_all g = false -> g_add g <> []) ->
  (exists g, In g gs /\ g_all g = false) ->
  exists g, In g gs /\ g_add g <> [] /\ smem (g_name g) names = false.
Proof. exact lazy_marking_ok. Qed.
Print Assumptions C10_lazy_marking_keeps_add_group.

(* ... hence, for the marking the real code makes for a query (model [real_marking], compared
   with the marking observed in ExpandedPostings on every generated case), the lazily
   evaluated selection is exactly the eager selection. *)
Theorem C10_lazy_heuristic_sound : forall idx ms sz mn md kn kd gs names,
  ms <> [] -> Forall coherent ms -> consistent ms -> wf_index idx ->
  matchers_to_groups idx ms = Some gs ->
  real_marking idx sz mn md kn kd gs = Some names ->
  select_with idx ms (fun n => smem n names) = select idx ms.
Proof. exact real_marking_sound. Qed.
Print Assumptions C10_lazy_heuristic_sound.

(* Gap-based partitioner (chunk and series range reads): for every list of ranges sorted by
   start and every max gap, the partition terminates within its fuel, the parts' element
   ranges are contiguous from 0 to the number of ranges, every part is non-empty, and every
   requested range lies inside the [Start, End] of the part that holds it (the predicate
   [parts_cover] that the check also evaluates on the implementation's own output). *)
Theorem C10_partition_covers : forall g rs, StronglySorted by_start rs ->
  exists ps, partition (length rs) g rs 0%nat = Some ps /\ parts_cover rs ps = true.
Proof. exact partition_covers. Qed.
Print Assumptions C10_partition_covers.

(* The whole answer: selected series, each with exactly its chunks overlapping the range,
   series without such chunks dropped, external labels attached. *)
Theorem C10_answer_eq_spec : forall idx ext ms mint maxt,
  ms <> [] -> Forall coherent ms -> consistent ms -> wf_index idx -> chunks_sorted idx ->
  answer idx ext true ms mint maxt = spec_answer idx ext ms mint maxt.
Proof. exact answer_eq_spec. Qed.
Print Assumptions C10_answer_eq_spec.

(* Expanded-postings cache over histories. The cache key is the matcher list only; if every
   entry is the value a cold store computes for its key (true of the empty cache, preserved
   by every query) then for EVERY history of queries - any matchers, any time ranges, in any
   order - every answer is the cold answer for ITS OWN range: finish (cold ms) mint maxt.
   [cold] may be the eager selection or the lazy one (C10_lazy_select_eq); what matters is
   that the cached value does not depend on the time range of the query that wrote it. *)
Theorem C10_cache_transparent : forall cold ext, key_respect cold ->
  forall h c, cache_inv cold c ->
  run_hist cold ext c h = map (fun q => finish ext (cold (q_ms q)) (q_mint q) (q_maxt q)) h.
Proof. exact cache_transparent. Qed.
Print Assumptions C10_cache_transparent.

(* One step: the answer and the preservation of the invariant. *)
Theorem C10_cache_step : forall cold ext c q, cache_inv cold c -> key_respect cold ->
  fst (query_step cold ext c q) = finish ext (cold (q_ms q)) (q_mint q) (q_maxt q)
  /\ cache_inv cold (snd (query_step cold ext c q)).
Proof. exact query_step_ok. Qed.
Print Assumptions C10_cache_step.

(* Connection with the check: histories with one matcher list, every store starting cold. *)
Theorem C10_case_pred : forall idx ext ms (hists : list (list (Z * Z))),
  ms <> [] -> Forall coherent ms -> consistent ms -> wf_index idx -> chunks_sorted idx ->
  let spec := fun mint maxt => spec_answer idx ext ms mint maxt in
  corr_ok (CSel idx ext true ms (map (mk_hist spec) hists) (mk_hist spec (concat hists))) = true
  /\ pred_ok (CSel idx ext true ms (map (mk_hist spec) hists) (mk_hist spec (concat hists))) = true.
Proof. exact case_ok. Qed.
Print Assumptions C10_case_pred.

(* Non-vacuity: a small index and coherent matchers; {a=~"a0|a0", a!~"a.+"} is the selector on
   which the unpatched code returned a series (duplicate set matches survived mergeKeys). *)
(* from here on [length], [concat] and [++] on literals are those of String *)
Require Import Coq.Strings.String Coq.Strings.Ascii.
Open Scope string_scope.
Definition s_ (x : String.string) : str := map (fun c => N.of_nat (Ascii.nat_of_ascii c)) (String.list_ascii_of_string x).
Definition ex_idx : list series :=
  [([(s_ "__name__", s_ "up"); (s_ "a", s_ "a0")], [(0, 100, 1); (101, 200, 2)]);
   ([(s_ "__name__", s_ "up"); (s_ "a", s_ "a1"); (s_ "b", s_ "x")], [(50, 60, 3)]);
   ([(s_ "__name__", s_ "up"); (s_ "b", s_ "y")], [(300, 400, 4)])].
Definition ex_m1 : matcher :=
  {| m_type := MRe; m_name := s_ "a"; m_value := s_ "a0|a0"; m_sets := [s_ "a0"; s_ "a0"];
     m_fun := fun v => smem v [s_ "a0"; s_ "a0"] |}.
(* a !~ "a.+" *)
Definition ex_m2 : matcher :=
  {| m_type := MNre; m_name := s_ "a"; m_value := s_ "a.+"; m_sets := [];
     m_fun := fun v => negb (match v with 97%N :: _ :: _ => true | _ => false end) |}.
Definition ex_m3 : matcher :=
  {| m_type := MNeq; m_name := s_ "b"; m_value := s_ "x"; m_sets := [];
     m_fun := fun v => negb (str_eqb v (s_ "x")) |}.
Example C10_nonvacuous :
  select ex_idx [ex_m1; ex_m2] = []
  /\ select ex_idx [ex_m1; ex_m3] = [nth 0 ex_idx ([], [])]
  /\ answer ex_idx [(s_ "ext1", s_ "v1")] true [ex_m3] 150 350
     = [([(s_ "__name__", s_ "up"); (s_ "a", s_ "a0"); (s_ "ext1", s_ "v1")], [(101, 200, 2)]);
        ([(s_ "__name__", s_ "up"); (s_ "b", s_ "y"); (s_ "ext1", s_ "v1")], [(300, 400, 4)])]
  /\ Forall coherent [ex_m1; ex_m2; ex_m3] /\ wf_index ex_idx /\ chunks_sorted ex_idx.
Proof.
  split; [vm_compute; reflexivity|]. split; [vm_compute; reflexivity|]. split; [vm_compute; reflexivity|].
  split; [|split].
  - assert (H1 : coherent ex_m1).
    { unfold coherent. cbn [ex_m1 m_type m_sets m_value m_fun]. repeat split; intros;
        first [ reflexivity
              | match goal with H : _ = _ |- _ => vm_compute in H; discriminate H end
              | match goal with H : ?x <> ?x |- _ => exfalso; apply H; reflexivity end ]. }
    assert (H2 : coherent ex_m2).
    { unfold coherent. cbn [ex_m2 m_type m_sets m_value m_fun]. repeat split; intros;
        first [ reflexivity
              | match goal with H : _ = _ |- _ => vm_compute in H; discriminate H end
              | match goal with H : ?x <> ?x |- _ => exfalso; apply H; reflexivity end ]. }
    assert (H3 : coherent ex_m3).
    { unfold coherent. cbn [ex_m3 m_type m_sets m_value m_fun]. intros; reflexivity. }
    constructor; [exact H1|]. constructor; [exact H2|]. constructor; [exact H3|]. constructor.
  - intros s Hs. simpl in Hs. repeat (destruct Hs as [<-|Hs]; [reflexivity|]). contradiction.
  - intros s Hs. simpl in Hs.
    repeat (destruct Hs as [<-|Hs]; [simpl; repeat (constructor; [|repeat constructor; unfold cmin_of; simpl; lia]); constructor|]).
    contradiction.
Qed.

Example C10_partition_nonvacuous :
  partition 4 10 [(0, 5); (3, 4); (14, 20); (40, 41)] 0%nat = Some [(0, 20, 0%nat, 3%nat); (40, 41, 3%nat, 4%nat)]
  /\ StronglySorted by_start [(0, 5); (3, 4); (14, 20); (40, 41)].
Proof.
  split; [vm_compute; reflexivity|].
  repeat (constructor; [|repeat (constructor; [unfold by_start; simpl; lia|]); try constructor]); constructor.
Qed.

Example C10_lazy_nonvacuous :
  select_with ex_idx [ex_m1; ex_m3] (fun n => str_eqb n (s_ "b")) = select ex_idx [ex_m1; ex_m3]
  /\ select_with ex_idx [ex_m1; ex_m3] (fun n => str_eqb n (s_ "b")) = [nth 0 ex_idx ([], [])].
Proof. split; vm_compute; reflexivity. Qed.

(* a narrow query (only the first series has a chunk there) followed by a wide one with the
   same matchers: the second answer still contains every selected series *)
Example C10_cache_nonvacuous :
  run_hist (select ex_idx) [] [] [([ex_m3], 0, 10); ([ex_m3], 0, 1000); ([ex_m3], 0, 10)]
  = [finish [] (select ex_idx [ex_m3]) 0 10; finish [] (select ex_idx [ex_m3]) 0 1000; finish [] (select ex_idx [ex_m3]) 0 10]
  /\ List.length (finish [] (select ex_idx [ex_m3]) 0 10) = 1%nat
  /\ List.length (finish [] (select ex_idx [ex_m3]) 0 1000) = 2%nat.
Proof. split; [vm_compute; reflexivity|]. split; vm_compute; reflexivity. Qed.

(* the heuristic on the example index: est. series size 1, match ratio 1/2: the bigger group
   (__name__, 3 postings) is marked lazy, the group of "a" is fetched *)
Definition ex_m4 : matcher :=
  {| m_type := MNeq; m_name := s_ "__name__"; m_value := []; m_sets := [];
     m_fun := fun v => negb (str_eqb v []) |}.
Example C10_heuristic_nonvacuous :
  exists gs, matchers_to_groups ex_idx [ex_m1; ex_m4] = Some gs
    /\ real_marking ex_idx 1 1 2 0 1 gs = Some [s_ "__name__"]
    /\ select_with ex_idx [ex_m1; ex_m4] (fun n => smem n [s_ "__name__"]) = [nth 0 ex_idx ([], [])].
Proof. eexists. split; [vm_compute; reflexivity|]. split; vm_compute; reflexivity. Qed.

(* C42 — The results cache never changes query results.
   Model/C42.v mirrors results_cache.go / query_range.go (minTime is taken over all series;
   partition continues on the request's grid after a lower-step extent) and the chain
   step-align -> [split-by-interval ->] results cache. It also holds the variants without these
   two points, [merge_response_first] and [partition_unaligned], for the refutations below.

   Proved for the model, for every deterministic downstream f (series may be absent anywhere),
   every sorted id list, every split interval, with or without the split middleware, and every
   history of range queries with step > 0 and 0 <= start <= end — any mixture of steps, so the
   lower-step cache path is included:
     C42_history: whatever fetched responses are non-storable (no-store header, @ modifier
     beyond the end), every answer equals direct evaluation of the (step-aligned) query, the run
     never fails, and the invariant "every cached extent is exact for its key" is preserved.
   Building blocks: extraction, MergeResponse of any number of exact pieces in any order
   (C42_merge_pieces_exact), partition cover (inside C42_do_cache_exact).
   Refuted for the two variants (both replayed on the real code, corpus/C42): the first-series
   minTime loses samples, the unaligned partition asks for off-grid timestamps.
   Model assumptions (not theorems): requests older than the freshness window, sort.Sort /
   sort.Slice as stable insertion sort (Go: at most 12 elements), parallelism 1. *)
From Coq Require Import ZArith List Bool Lia.
Import ListNotations.
From Verif Require Import Lib.Corr Gen.C41 Model.C41 Gen.C42 Model.C42 Proofs.C42 Proofs.C42_history.
Open Scope Z_scope.

(* extractMatrix applied to a response that is exact on the timestamps ts is exact on the
   timestamps that pass isTimestampAtStep (the function regenerated from the source) *)
Theorem C42_extract_exact : forall f a b m ts sids,
  extract a b m (eval_on f sids ts) = eval_on f sids (filter (isTimestampAtStep a b m) ts).
Proof. exact extract_eval_on. Qed.
Print Assumptions C42_extract_exact.

(* matrixMerge's per-series step: samples exact on ts1 merged with samples exact on ts2
   (ts2 agreeing with ts1 on their overlap) are exact on the union, absent samples included *)
Theorem C42_merge_stream_exact : forall f s ts1 ts2,
  incr ts1 -> incr ts2 -> compat ts1 ts2 ->
  merge_stream (samples_on f s ts1) (samples_on f s ts2) = samples_on f s (union_ts ts1 ts2).
Proof. exact merge_stream_exact. Qed.
Print Assumptions C42_merge_stream_exact.

(* MergeResponse (sort by minTime, then matrixMerge) of an exact response and an exact later
   response is exact on the union: the step of handleHit's extent-merge loop *)
Theorem C42_merge_exact_partial : forall f sids ts1 ts2,
  incr sids -> incr ts1 -> incr ts2 -> compat ts1 ts2 -> nonneg ts1 -> nonneg ts2 ->
  merge_response [eval_on f sids ts1; eval_on f sids ts2] = eval_on f sids (union_ts ts1 ts2).
Proof. exact merge_response_two. Qed.
Print Assumptions C42_merge_exact_partial.

(* a fully cached answer: MergeResponse of one exact piece is that piece *)
Theorem C42_merge_single : forall f sids ts, incr sids ->
  merge_response [eval_on f sids ts] = eval_on f sids ts.
Proof. exact merge_response_one. Qed.
Print Assumptions C42_merge_single.

(* direct evaluation is evaluation on the step grid (link between eval and eval_on) *)
Theorem C42_eval_grid : forall f sids a b st, eval f sids a b st = eval_on f sids (steps a b st).
Proof. exact eval_eval_on. Qed.
Print Assumptions C42_eval_grid.

(* lower-step entries (matching-step mode): whatever the cached extents are, every request
   sent downstream starts a whole number of steps after the request's start *)
Theorem C42_partition_on_grid : forall rs re st exts reqs cached, 0 < st ->
  partition rs re st exts = (reqs, cached) ->
  forall ab, In ab reqs -> on_grid rs st (fst ab).
Proof. exact partition_on_grid. Qed.
Print Assumptions C42_partition_on_grid.

(* MergeResponse (sort by minTime, then matrixMerge) of ANY number of exact pieces, given in ANY
   order, whose timestamps are intervals of the step grid, is exact on their union: no overlap
   or adjacency condition is needed *)
Theorem C42_merge_pieces_exact : forall f sids, incr sids -> forall st tss ts, 0 < st ->
  Forall (iv st) tss -> incr ts ->
  (forall t, In t ts <-> exists ts', In ts' tss /\ In t ts') ->
  merge_response (map (eval_on f sids) tss) = eval_on f sids ts.
Proof. exact merge_pieces_exact. Qed.
Print Assumptions C42_merge_pieces_exact.

(* resultsCache.Do on a step-aligned request, in a cache whose extents are all exact: the
   answer is direct evaluation and the new cache again holds only exact extents (hit, lower-step
   hit and miss paths) *)
Theorem C42_do_cache_exact : forall f sids, incr sids -> forall sto split c rs re st resp c',
  0 < st -> (st | rs) -> (st | re) -> 0 <= rs -> rs <= re -> cache_ok f sids c ->
  do_cache f sids sto split c rs re st = (resp, c') ->
  resp = eval f sids rs re st /\ cache_ok f sids c'.
Proof. exact do_cache_spec. Qed.
Print Assumptions C42_do_cache_exact.

(* [sto] says which fetched responses may be stored (no Cache-Control: no-store, no @ modifier
   beyond the request's end): it is arbitrary in these theorems — every fetched response goes
   into the answer whatever it says, only the extents written back depend on it.
   any history, from any cache of exact extents: it runs to the end, every answer equals direct
   evaluation, the invariant holds afterwards *)
Theorem C42_history : forall f sids, incr sids -> forall sto split use_split, 0 < split -> forall qs c,
  Forall query_ok qs -> cache_ok f sids c ->
  exists rs c', history f sids sto split use_split c qs = Some (rs, c')
    /\ rs = map (direct f sids) qs /\ cache_ok f sids c'.
Proof. exact history_exact. Qed.
Print Assumptions C42_history.

(* the same from the empty cache, through the predicate the check evaluates on the
   implementation's answers *)
Theorem C42_history_pred : forall d ns atm split use_split qs,
  incr (map fst d) -> 0 < split -> Forall query_ok qs ->
  exists rs c, history (f_of d) (map fst d) (sto_of ns atm) split use_split [] qs = Some (rs, c)
    /\ pred_ok (CHist split use_split d ns atm qs rs c) = true.
Proof. exact history_pred. Qed.
Print Assumptions C42_history_pred.

(* native-histogram samples: a model stream holds one kind of samples; series s of the code is
   the pair of model series 2s (floats) and 2s+1 (histograms). The theorems above quantify over
   all series ids, so they cover both kinds; this is the statement for such paired descriptions,
   with the source fact that SliceSamples and SliceHistogram both cut with `> minTs` *)
Definition both_kinds (l : list (Z * list (Z * Z) * list (Z * Z))) : list series_desc :=
  flat_map (fun x => [(2 * fst (fst x), snd (fst x)); (2 * fst (fst x) + 1, snd x)]) l.

Theorem C42_history_float_and_histogram : forall l ns atm split use_split qs,
  incr (map (fun x => fst (fst x)) l) -> 0 < split -> Forall query_ok qs ->
  slice_keeps_equal = false /\
  exists rs c, history (f_of (both_kinds l)) (map fst (both_kinds l)) (sto_of ns atm) split use_split [] qs = Some (rs, c)
    /\ pred_ok (CHist split use_split (both_kinds l) ns atm qs rs c) = true.
Proof. exact history_kinds. Qed.
Print Assumptions C42_history_float_and_histogram.

(* series 0 is born exactly where the cached extent starts; series 1 exists all along.
   Sorting by the first series' first timestamp leaves the cached (later) piece first and
   matrixMerge then drops series 1's earlier samples. *)
Definition w_f : downstream := f_of [(0, [(600000, 2000000)]); (1, [(-1000000, 2000000)])].

Theorem C42_first_series_order_refuted :
  let cached := eval w_f [0; 1] 600000 1200000 60000 in
  let fetched := eval w_f [0; 1] 0 600000 60000 in
  merge_response_first [cached; fetched] <> eval w_f [0; 1] 0 1200000 60000
  /\ merge_response [cached; fetched] = eval w_f [0; 1] 0 1200000 60000.
Proof. cbv zeta. split; [vm_compute; discriminate | vm_compute; reflexivity]. Qed.
Print Assumptions C42_first_series_order_refuted.

(* an extent [0, 90000] of the 30 s entry serving a 60 s request from 0: the next downstream
   request started at 90000, off the 0/60000/120000 grid *)
Theorem C42_lower_step_offgrid_refuted :
  exists exts reqs cached ab,
    partition_unaligned 0 300000 60000 exts = (reqs, cached) /\ In ab reqs /\ ~ on_grid 0 60000 (fst ab).
Proof.
  exists [(0, 90000, eval (f_of [(1, [(-1000000, 2000000)])]) [1] 0 90000 30000)].
  eexists. eexists. exists (90000, 300000).
  split; [vm_compute; reflexivity|]. split; [left; reflexivity|]. unfold on_grid. vm_compute. discriminate.
Qed.
Print Assumptions C42_lower_step_offgrid_refuted.

(* two overlapping step-60s ranges of a downstream with a series that comes and goes: the
   hypotheses of C42_merge_exact_partial hold and the union is the whole range *)
Example C42_nonvacuous :
  let f := f_of [(0, [(120000, 180000); (420000, 600000)]); (3, [(0, 900000)])] in
  let ts1 := steps 0 300000 60000 in let ts2 := steps 240000 600000 60000 in
  incr [0; 3] /\ incr ts1 /\ incr ts2 /\ compat ts1 ts2 /\ nonneg ts1 /\ nonneg ts2
  /\ union_ts ts1 ts2 = steps 0 600000 60000
  /\ merge_response [eval f [0; 3] 0 300000 60000; eval f [0; 3] 240000 600000 60000] = eval f [0; 3] 0 600000 60000.
Proof.
  cbv zeta. split; [apply incrb_incr; vm_compute; reflexivity|].
  split; [apply incrb_incr; vm_compute; reflexivity|].
  split; [apply incrb_incr; vm_compute; reflexivity|].
  split; [apply compatb_compat; vm_compute; reflexivity|].
  split; [apply nonnegb_nonneg; vm_compute; reflexivity|].
  split; [apply nonnegb_nonneg; vm_compute; reflexivity|].
  split; vm_compute; reflexivity.
Qed.

Example C42_partition_nonvacuous :
  fst (partition 0 300000 60000 [(0, 90000, eval (f_of [(1, [(-1000000, 2000000)])]) [1] 0 90000 30000)])
  = [(60000, 300000)].
Proof. vm_compute. reflexivity. Qed.

(* the hypotheses of C42_history on a concrete mixed-step history (lower-step path included) *)
Example C42_history_hyps_nonvacuous :
  incr [0; 3] /\ Forall query_ok [(600000, 1200000, 30000); (0, 900000, 60000); (300001, 4200000, 60000)]
  /\ cache_ok (f_of [(3, [(0, 9000000)])]) [0; 3] [].
Proof.
  split; [apply incrb_incr; vm_compute; reflexivity|]. split; [|apply cache_ok_empty].
  repeat constructor; cbn; lia.
Qed.

(* a three-query history through step-align, split and cache answers every query exactly *)
Example C42_history_nonvacuous :
  let d := [(0, [(0, 400000); (900000, 5000000)]); (3, [(-1000000, 9000000)])] in
  let qs := [(600000, 1200000, 60000); (0, 900000, 60000); (300000, 4200000, 60000)] in
  option_map fst (history (f_of d) [0; 3] (sto_of [(0, 300000)] (Some 1000000)) 3600000 true [] qs)
  = Some (map (direct (f_of d) [0; 3]) qs).
Proof. vm_compute. reflexivity. Qed.

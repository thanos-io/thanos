(* C27 — Tenants are routed to the hashring their configuration selects.
   Property theorems only. Model: Model/C27.v (multiHashring.GetN, tenantSet.match);
   the shape of the error handling in tenantSet.match and the lock order in GetN are
   read from the source on every run (Gen/C27.v). filepath.Match results are
   arbitrary data; the order of a list stands for Go's map iteration order. *)
From Coq Require Import ZArith List Bool Arith Permutation.
Import ListNotations.
From Verif Require Import Lib.Corr Gen.C27 Model.C27 Proofs.C27.
Close Scope Z_scope.

(* First match: the chosen hashring is the first config whose tenant set
   matches (a config without tenants matches everything); all earlier ones do
   not match. *)
Theorem C27_first_match : forall tenant cfgs k,
  route 0 cfgs tenant = RIdx k ->
  k < length cfgs /\
  tmatch tenant (nth k cfgs TOther) = MTrue /\
  forall j, j < k -> tmatch tenant (nth j cfgs TOther) = MFalse.
Proof. exact route_first_match. Qed.
Print Assumptions C27_first_match.

(* ... and an error means: nothing matches, or the first config that does not
   answer "no" contains a malformed pattern and none of its patterns matches. *)
Theorem C27_error_cases : forall tenant cfgs,
  route 0 cfgs tenant = RErr ->
  (forall j, j < length cfgs -> tmatch tenant (nth j cfgs TOther) = MFalse) \/
  (exists j, j < length cfgs /\ tmatch tenant (nth j cfgs TOther) = MErr /\
             forall j', j' < j -> tmatch tenant (nth j' cfgs TOther) = MFalse).
Proof. intros tenant cfgs. exact (route_err tenant cfgs 0). Qed.
Print Assumptions C27_error_cases.

(* The choice cannot depend on Go's map iteration order: permuting the entries
   of every tenant set (exact ids, glob patterns incl. malformed ones) leaves
   the route unchanged; inside a glob set "matches" wins over "malformed". *)
Theorem C27_map_order_irrelevant : forall tenant cfgs cfgs',
  Forall2 tset_perm cfgs cfgs' -> route 0 cfgs tenant = route 0 cfgs' tenant.
Proof. intros tenant cfgs cfgs'. exact (route_order_independent tenant cfgs cfgs' 0). Qed.
Print Assumptions C27_map_order_irrelevant.

Theorem C27_glob_match_spec : forall rs,
  glob_match rs = if existsb is_true rs then MTrue else if existsb is_none rs then MErr else MFalse.
Proof. exact glob_match_spec. Qed.
Print Assumptions C27_glob_match_spec.

(* The code before the repair (return on the first pattern error) did depend on that order. *)
Theorem C27_abort_on_error_refuted :
  exists rs rs', Permutation rs rs' /\ glob_loop true false rs <> glob_loop true false rs'.
Proof. exact abort_order_dependent. Qed.
Print Assumptions C27_abort_on_error_refuted.

(* Repeated and concurrent requests: for EVERY interleaving of the atomic steps
   of any number of GetN calls (cache lookup under the read lock; cache store
   of the computed route under the write lock, taken only after a match — source
   fact), starting from any cache holding only computed routes, every response
   is the route computed from the configuration. *)
Theorem C27_cache_transparent : forall compute evs cache,
  (forall p, In p cache -> snd p = compute (fst p)) ->
  forall t r, In (t, r) (exec compute cache evs) -> r = compute t.
Proof. exact exec_correct. Qed.
Print Assumptions C27_cache_transparent.

(* The source keys the cache by the full tenant name (m.cache[tenant], read from the
   source); histories are arbitrary event lists over arbitrarily many tenants. A cache
   that finds entries through a slot (hash) of the name without comparing names is
   NOT transparent: two tenants with different routes sharing a slot are enough. *)
Theorem C27_cache_keyed_by_tenant : cache_key_is_tenant = true.
Proof. exact cache_key_is_tenant_true. Qed.
Print Assumptions C27_cache_keyed_by_tenant.

Theorem C27_slot_cache_refuted : forall compute slot t1 t2 i,
  slot t1 = slot t2 -> compute t1 = RIdx i -> compute t2 <> RIdx i ->
  exists r, In (t2, r) (exec_gen compute false slot [] [Lookup t1; Store t1; Lookup t2]) /\ r <> compute t2.
Proof. exact slot_cache_misroutes. Qed.
Print Assumptions C27_slot_cache_refuted.

Theorem C27_store_guarded : store_guarded = true /\ err_aborts = false.
Proof. exact (conj store_guarded_true err_aborts_false). Qed.
Print Assumptions C27_store_guarded.

(* The model's answer, repeated any number of times, satisfies the predicate the
   check evaluates on the implementation's observations. *)
Theorem C27_pred : forall tenant cfgs n m,
  pred_ok (CRoute [Q tenant cfgs (repeat (route 0 cfgs tenant) (S n)) (repeat (route 0 cfgs tenant) m)]) = true.
Proof. exact pred_ok_model. Qed.
Print Assumptions C27_pred.

(* Non-vacuity: exact, glob (with a malformed pattern next to a matching one), default. *)
Example C27_nonvacuous :
  route 0 [TExact [5; 6]; TGlob [None; Some true]; TDefault]%Z 7%Z = RIdx 1
  /\ route 0 [TExact [5; 6]; TGlob [Some false; None]; TDefault]%Z 7%Z = RErr
  /\ route 0 [TExact [5; 6]; TGlob [Some false]; TDefault]%Z 7%Z = RIdx 2
  /\ Forall2 tset_perm [TGlob [None; Some true]] [TGlob [Some true; None]].
Proof. repeat split; try (vm_compute; reflexivity). constructor; [|constructor]. constructor. apply perm_swap. Qed.

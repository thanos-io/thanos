(* C06 — Partial-response strategy is honoured under store failures.
   Property theorems only (proofs: Lib/Proxy_Fail.v, Proofs/C06.v; the frame-timeout timer:
   Proofs/C06_Timer.v). The model is the
   executable model of ProxyStore.Series shared with C03 (array loser tree, lazy / eager
   response sets, de-duplicator, batching); the strategy tests `open_warn_mode`,
   `loop_abort_mode` and the limit test come from Gen/C06.v, regenerated from
   pkg/store/proxy.go on every run. A store's script may fail when it is opened
   (Series() returns an error) or after any number of frames (Recv error; a frame
   timeout is a Recv error of the cancelled stream). *)
From Coq Require Import ZArith NArith List Bool Permutation Sorted.
Import ListNotations.
From Verif Require Import Lib.Corr Lib.Proxy_Order Lib.Proxy_Model Lib.Proxy_Proofs Lib.Proxy_Fail
  Gen.C06 Model.C03 Proofs.C03_Inst Model.C06 Proofs.C06 Proofs.C06_Timer.
Open Scope Z_scope.

(* The two places where ProxyStore.Series consults the strategy decide alike. *)
Theorem C06_modes_consistent : forall disabled strategy,
  open_warn_mode disabled strategy = negb (loop_abort_mode disabled strategy).
Proof. exact modes_consistent. Qed.
Print Assumptions C06_modes_consistent.

(* ABORT (or partial response disabled): for every set of stores, every subset of
   failing stores, every failure point (at open, after k frames), lazy and eager
   retrieval, any batch size: if some queried store fails, the request fails. *)
Theorem C06_abort_fails : forall lazy wrl disabled strategy limit batch (scripts : list script),
  limit <= 0 ->
  disabled = true \/ strategy = ABORT ->
  (exists s w, In s scripts /\ fail_warning s = Some w) ->
  proxy6 lazy wrl disabled strategy limit batch scripts = None.
Proof. exact abort_fails6. Qed.
Print Assumptions C06_abort_fails.

(* WARN: for every set of stores, failing subset and failure points, the request
   succeeds; the warning made of each failed store's error reaches the client; and
   every series that a store whose stream opened delivered — in particular every series
   of every store that did not fail — is in the response under its (presented) label
   set with all its chunk keys. No sortedness assumption is needed for this. *)
Theorem C06_warn_succeeds : forall lazy wrl disabled strategy limit batch (scripts : list script),
  limit <= 0 ->
  disabled = false -> strategy <> ABORT ->
  exists frames,
    proxy6 lazy wrl disabled strategy limit batch scripts = Some frames
    /\ (forall s w, In s scripts -> fail_warning s = Some w -> In w (warns (unbatch frames)))
    /\ (forall s X cs, In s scripts -> sopen_err s = None -> In (X, cs) (presented (wrlb wrl) (rm_labels wrl) s) ->
          exists cs', In (X, cs') (sers (unbatch frames)) /\ forall c, In c cs -> In (ckey c) (map ckey cs')).
Proof. exact warn_succeeds6. Qed.
Print Assumptions C06_warn_succeeds.

(* The same through the Thanos querier (pkg/query/querier.go Select; deduplication off): with
   partial response off a failing store makes the series set fail; with partial response on it
   succeeds, every failed store's warning is among the annotations and every label set delivered
   by a store whose stream opened is among the series. *)
Theorem C06_querier_abort_fails : forall lazy batch (scripts : list script),
  (exists s w, In s scripts /\ fail_warning s = Some w) ->
  querier_select lazy false batch scripts = None.
Proof. exact querier_abort_fails. Qed.
Print Assumptions C06_querier_abort_fails.

Theorem C06_querier_warn_succeeds : forall lazy batch (scripts : list script),
  exists ls ws,
    querier_select lazy true batch scripts = Some (ls, ws)
    /\ (forall s w, In s scripts -> fail_warning s = Some w -> In w ws)
    /\ (forall s X cs, In s scripts -> sopen_err s = None -> In (X, cs) (presented false (rm_labels []) s) -> In X ls).
Proof. exact querier_warn_succeeds. Qed.
Print Assumptions C06_querier_warn_succeeds.

(* Failure kinds: both receivers (lazy and eager; tests regenerated from the source) treat a Recv
   error as the clean end of a stream only when it IS io.EOF. An error that merely wraps io.EOF
   (errors.Is would accept it: net/http `Post "...": EOF`), io.ErrUnexpectedEOF, a gRPC status, a
   context cancellation ... keeps the store a failing store, so the scripts the theorems above
   speak about are the scripts the receivers see, whatever the kind of the error. *)
Theorem C06_only_io_eof_ends_a_stream : forall lazy wrl wraps (scripts : list script),
  effective_all lazy wrl wraps scripts = scripts
  /\ forall w, recv_eos_lazy false w = false /\ recv_eos_eager false w = false.
Proof. exact only_io_eof_ends_a_stream. Qed.
Print Assumptions C06_only_io_eof_ends_a_stream.

(* The frame-timeout timer of a lazy receiver (handleRecvResponse), with the pause condition and
   its position regenerated from the source: it is paused after cl.Recv() returned and before the
   first (possibly blocking) append into the ring buffer, whatever the buffer state. Hence, for
   every timeout >= 1 tick, every buffer size, every batching of the store's responses and EVERY
   schedule of the consumer (it may stall for any time between pops): a store whose every Recv
   returns within the timeout is never cancelled — a slow reader cannot turn a healthy store into
   a failed one (which under the warn strategy would lose its remaining series). *)
Theorem C06_lazy_receiver_no_spurious_timeout : forall (A : Type) (T cap : nat) (frames : list (list A)) st,
  (1 <= T)%nat -> reach T cap timer_pause_cond (init frames) st -> cancelled st = false.
Proof. exact lazy_receiver_no_spurious_timeout. Qed.
Print Assumptions C06_lazy_receiver_no_spurious_timeout.

Theorem C06_timer_pause_position : timer_pause_after_recv_before_append = true /\ forall b, timer_pause_cond b = true.
Proof. exact (conj source_pause_position source_pauses_always). Qed.
Print Assumptions C06_timer_pause_position.

(* Pausing only when the buffer is already full before queuing is NOT enough: a frame of two
   responses, a buffer of one and a stalled consumer get a healthy store cancelled. *)
Theorem C06_pause_only_when_full_refuted :
  exists st, reach 1 1 (fun full : bool => full) (init [[0; 1]%nat]) st /\ cancelled st = true.
Proof. exact pause_only_when_full_refuted. Qed.
Print Assumptions C06_pause_only_when_full_refuted.

(* Non-vacuity: three stores; the first fails after one frame, the second cannot be
   opened, the third is healthy. ABORT fails; WARN succeeds with both warnings and with
   the healthy store's series (and the frame the first store delivered before failing). *)
Definition ex_c (t : Z) (h : N) : chunk := MkChunk t (t + 5) [Some (1, h, [h]); None; None; None; None; None].
Definition ex_l (v : N) : labels := [([97%N], [v])].
Definition ex6 : list script :=
  [ MkScript None [FSeries (ex_l 49) [ex_c 0 1]] (ERecvErr [33%N; 48%N]) true;
    MkScript (Some [33%N; 49%N]) [FSeries (ex_l 51) [ex_c 0 9]] EEof true;
    MkScript None [FSeries (ex_l 49) [ex_c 10 2]; FSeries (ex_l 50) [ex_c 0 4]] EEof true ].
Example C06_nonvacuous :
  proxy6 true [] false ABORT 0 0 ex6 = None
  /\ proxy6 false [] false WARN 0 0 ex6
     = Some [FWarn [33%N; 49%N]; FWarn [33%N; 48%N]; FSeries (ex_l 49) [ex_c 0 1; ex_c 10 2]; FSeries (ex_l 50) [ex_c 0 4]]
  /\ fail_warning (nth 0 ex6 (MkScript None [] EEof true)) = Some [33%N; 48%N]
  /\ WARN <> ABORT.
Proof. vm_compute. repeat split; congruence. Qed.

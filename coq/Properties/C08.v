(* C08 — Stores present external labels consistently (TSDBStore).
   Property theorems only; proofs in Proofs/C08_Labels.v (labels) and Proofs/C08.v (frames). Model: Model/C08.v (TSDBStore.Series:
   matchesExternalLabels as in C05, rmLabels, labelpb.ExtendSortedLabels, frame
   splitting); the frame-continuation test comes from Gen/C08.v, regenerated from
   pkg/store/tsdb.go on every run. [lfind l n] is labels.Get/Has: Some v when the label
   set has name n. External label sets are valid when names are distinct and values
   non-empty ([valid_ext]). *)
From Coq Require Import ZArith NArith List Bool.
Import ListNotations.
From Verif Require Import Lib.Corr Lib.Proxy_Order Gen.C08 Model.C05 Model.C08 Proofs.C08_Labels Proofs.C08.
Open Scope Z_scope.

(* For all external label sets, stored label sets (colliding or not) and replica-label
   lists: in the label set TSDBStore.Series sends, a label the request asked to drop is
   absent; otherwise an external label has the external value (it overrides a stored
   label of the same name); otherwise the stored label is kept. *)
Theorem C08_present_spec : forall ext drop stored m, valid_ext ext ->
  lfind (present ext drop stored) m
  = if in_drop drop m then None
    else match lfind ext m with Some v => Some v | None => lfind stored m end.
Proof. exact present_spec. Qed.
Print Assumptions C08_present_spec.

Theorem C08_ext_override : forall ext drop stored, valid_ext ext ->
  (forall n v, In (n, v) ext -> in_drop drop n = false -> lget (present ext drop stored) n = v)
  /\ (forall n, in_drop drop n = true -> lhas (present ext drop stored) n = false)
  /\ (forall n, in_drop drop n = false -> lhas ext n = false -> lget (present ext drop stored) n = lget stored n).
Proof. exact ext_override. Qed.
Print Assumptions C08_ext_override.

(* The two orders used in the code base — TSDBStore removes the replica labels from the stored
   and the external labels and then extends; the bucket store removes them from the external labels, extends, and removes them from the result — present
   the same labels. *)
Theorem C08_two_orders_agree : forall ext drop stored m, valid_ext ext ->
  lfind (present ext drop stored) m = lfind (present_bucket ext drop stored) m.
Proof. exact two_orders_agree. Qed.
Print Assumptions C08_two_orders_agree.

(* BucketStore.Series over any set of blocks (external labels + stored series): every returned
   series stands for a stored series of a block whose external labels do not contradict the
   selectors, under the bucket-order label set; with valid external labels it carries those of
   its block that were not dropped and none of the dropped labels. *)
Theorem C08_bucket_series_spec : forall blocks drop ms l,
  In l (bucket_series_labels blocks drop ms) ->
  exists ext stored sl, In (ext, stored) blocks /\ In sl stored /\ l = present_bucket ext drop sl
    /\ ext_loop mname mmatch ms ext <> None.
Proof. exact bucket_series_spec. Qed.
Print Assumptions C08_bucket_series_spec.

Theorem C08_bucket_ext_override : forall blocks drop ms l,
  (forall b, In b blocks -> valid_ext (fst b)) ->
  In l (bucket_series_labels blocks drop ms) ->
  exists ext stored, In (ext, stored) blocks
    /\ (forall n v, In (n, v) ext -> in_drop drop n = false -> lget l n = v)
    /\ (forall n, in_drop drop n = true -> lhas l n = false).
Proof. exact bucket_ext_override. Qed.
Print Assumptions C08_bucket_ext_override.

(* Frame splitting, for every frame limit (also limits smaller than one chunk or than the
   labels) and every chunk size list: the frames of a series repeat the full label set,
   each carries at least one chunk, and concatenated they give back the chunk list. *)
Theorem C08_frames_preserve : forall maxBytes lbls cs,
  concat (map snd (frames_of maxBytes false lbls cs)) = cs
  /\ Forall (fun f => fst f = lbls /\ snd f <> []) (frames_of maxBytes false lbls cs).
Proof. exact frames_preserve. Qed.
Print Assumptions C08_frames_preserve.

(* The frame budget (pins the regenerated loop condition): a chunk is added to a frame only
   while bytes are left, so every frame without its last chunk is strictly below the budget
   (the code comment's "minor inaccuracy ... max of full chunk size"). *)
Theorem C08_frames_budget : forall maxBytes lbls cs,
  let base := maxBytes - fold_right Z.add 0 (map label_size lbls) in
  Forall (fun f => removelast (snd f) <> [] -> fsum (removelast (snd f)) < base) (frames_of maxBytes false lbls cs).
Proof. exact frames_budget. Qed.
Print Assumptions C08_frames_budget.

(* The response: selectors that contradict the external labels give an empty response; every
   frame sent stands for a stored series, under the label set of C08_present_spec, with
   chunks of that series. *)
Theorem C08_series_spec : forall ext drop ms maxBytes skip stored fs,
  tsdb_series ext drop ms maxBytes skip stored = ROkFrames fs ->
  (matches_external_labels mname mmatch ms ext = None -> fs = [])
  /\ forall l f, In (l, f) fs ->
       exists sl cs, In (sl, cs) stored /\ l = present ext drop sl
                     /\ (skip = false -> f <> [] /\ incl f cs).
Proof. exact series_spec. Qed.
Print Assumptions C08_series_spec.

(* Non-vacuity: external labels {region="eu", replica="r0"}, stored series
   {a="1", region="us"} with three chunks, request dropping "replica", frame limit 60 (42 bytes left
   after the labels): region is overridden, replica dropped, the series is split into two frames.
   (97 "a", 49 "1"; region = 114 101 103 105 111 110; replica = 114 101 112 108 105 99 97) *)
Definition REGION : str := [114;101;103;105;111;110]%N.
Definition REPLICA : str := [114;101;112;108;105;99;97]%N.
Definition ex_ext : labels := [(REGION, [101;117]%N); (REPLICA, [114;48]%N)].
Definition ex_stored : labels := [([97]%N, [49]%N); (REGION, [117;115]%N)].
Example C08_nonvacuous :
  present ex_ext [REPLICA] ex_stored = [([97]%N, [49]%N); (REGION, [101;117]%N)]
  /\ map snd (frames_of 60 false (present ex_ext [REPLICA] ex_stored) [(0,3,30); (4,7,30); (8,11,30)])
     = [[(0,3,30); (4,7,30)]; [(8,11,30)]]
  /\ map snd (frames_of 100 false (present ex_ext [REPLICA] ex_stored) [(0,3,30); (4,7,30); (8,11,30)])
     = [[(0,3,30); (4,7,30); (8,11,30)]].
Proof. vm_compute. repeat split. Qed.

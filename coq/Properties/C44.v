(* C44 — Sharded query execution returns the unsharded result.
   Proved: (1) the shard matcher partitions the series, for every hash function;
   (2) the analyzer's answer is compatible with every grouping construct, for every query AST;
   (3) for the mini-PromQL with a denotational semantics in Model/C44.v — vector selectors with
   = / != matchers, sum / count / min / max aggregations with by / without and one-to-one
   + - * with on / ignoring, nested to any depth — C44_sound: whenever the analyzer says shardable (and the metric name is treated as
   below), evaluating the query on every shard and concatenating the results gives the
   unsharded result up to order, for every hash function, shard count and data set.
   Refuted: without(...) aggregations drop the metric name although the analyzer does not
   count __name__ among their labels; with series of two metric names the sharded result
   differs (C44_without_drops_name_refuted; reproduced on the real engine: corpus/C44).
   partial: functions, group_left/right, comparison and set operators and the other
   aggregations are outside the semantics (only (1) and (2) are proved for them); when the
   unsharded evaluation is an engine error nothing is claimed. *)
From Coq Require Import ZArith NArith List Bool Permutation.
Import ListNotations.
From Verif Require Import Lib.Corr Gen.C44 Model.C44 Proofs.C44 Proofs.C44_sound.

(* Every series belongs to exactly one shard: for any hash H, any sharding label set (by or
   without), any n >= 1 and any label list, exactly one index below n matches. *)
Theorem C44_partition : forall (H : str -> N) by_ set n ls, (0 < n)%N ->
  let i := shard_of H by_ set n ls in
  (i < n)%N /\ matches H by_ set n i ls = true /\ (forall j, matches H by_ set n j ls = true -> j = i).
Proof. exact exactly_one_shard. Qed.
Print Assumptions C44_partition.

(* Series that agree on the sharding labels (the same selected name/value pairs, in order)
   belong to the same shard, for any hash. *)
Theorem C44_same_labels_same_shard : forall (H : str -> N) by_ set n ls1 ls2,
  filter (fun l => selected by_ set (fst l)) ls1 = filter (fun l => selected by_ set (fst l)) ls2 ->
  shard_of H by_ set n ls1 = shard_of H by_ set n ls2.
Proof. exact same_projection_same_shard. Qed.
Print Assumptions C44_same_labels_same_shard.

(* the same through the predicate evaluated on the implementation's match results: both entry
   points of the matcher (MatchesZLabels, used by the proxy, and MatchesLabels, used by the
   shard-aware stores) are the model's function, so each puts the series on exactly one shard
   and both on the same one *)
Theorem C44_partition_pred : forall (H : str -> N) by_ set n ls tbl, (0 < n)%N ->
  let m := map (fun i => matches H by_ set n (N.of_nat i) ls) (seq 0 (N.to_nat n)) in
  pred_ok (CShard by_ set n ls tbl m m) = true.
Proof. exact shard_pred. Qed.
Print Assumptions C44_partition_pred.

(* For every query AST: if the analyzer answers "shard by S" then S lies inside every by(...)
   and on(...) label set of the query and avoids every without(...), ignoring(...)+__name__,
   label_replace/label_join destination and (under histogram_quantile) le; if it answers
   "shard without S" then the query has no by/on construct and S contains all those sets. *)
Theorem C44_scope_compatible_partial : forall e by_ S,
  analyze e = St by_ S -> compatible (all_scopes e) by_ S = true.
Proof. exact analyze_compatible. Qed.
Print Assumptions C44_scope_compatible_partial.

Theorem C44_scope_compatible_reading : forall ss by_ S L b,
  compatible ss by_ S = true -> In (L, b) ss ->
  if by_ then (if b then forall x, In x S -> In x L else forall x, In x S -> ~ In x L)
  else b = false /\ forall x, In x L -> In x S.
Proof. exact compatible_in. Qed.
Print Assumptions C44_scope_compatible_reading.

Theorem C44_analyze_pred : forall e by_ S, analyze e = St by_ S ->
  pred_ok (CAnalyze e (shardable (analyze e)) by_ S) = true.
Proof. exact analyze_pred. Qed.
Print Assumptions C44_analyze_pred.

(* key lemma: when the evaluation of e on all data succeeds with V, its evaluation on shard i
   succeeds with exactly the samples of V that belong to shard i (as lists, not only as sets) *)
Theorem C44_shard_commutes : forall (H : str -> N) by_ set n e, sound_for by_ set e = true -> forall D V i,
  qeval e D = Some V ->
  qeval e (filter (in_shard H by_ set n i) D) = Some (filter (in_shard H by_ set n i) V).
Proof. exact shard_commutes. Qed.
Print Assumptions C44_shard_commutes.

(* C44_sound for the mini-PromQL (selectors; sum/count/min/max by/without; one-to-one + - *
   with on/ignoring; nested to any depth): if the analyzer (on the query as it sees it) answers
   "shard by / without set", the metric name is on the right side of the sharding set (not a
   by-sharding label when some node drops the name; always a without-sharding label), and the
   unsharded evaluation succeeds with V, then every shard succeeds and the concatenated shard
   results are a permutation of V — for every hash, every n >= 1, every data set.
   partial: when the unsharded evaluation is an error nothing is claimed (a shard whose left
   operand is empty skips the duplicate check, so the sharded run may succeed). *)
Theorem C44_sound : forall (H : str -> N) n e D V by_ set, (0 < n)%N ->
  analyze (erase e) = St by_ set -> name_ok by_ set e = true -> qeval e D = Some V ->
  exists W, sharded H by_ set n e D = Some W /\ Permutation W V.
Proof. exact sound. Qed.
Print Assumptions C44_sound.

(* the frontend's MergeResponse (one sample per label set, the first seen) applied to the shard
   results changes nothing: they have pairwise different label sets when the stored series do *)
Theorem C44_sound_merged : forall (H : str -> N) n e D V by_ set, (0 < n)%N ->
  analyze (erase e) = St by_ set -> name_ok by_ set e = true ->
  has_dup (map fst D) = false -> qeval e D = Some V ->
  exists rs, all_some (shard_results H by_ set n e D) = Some rs
    /\ Permutation (concat rs) V /\ merge_vectors rs = concat rs.
Proof. exact sound_merged. Qed.
Print Assumptions C44_sound_merged.

Theorem C44_sound_pred : forall (H : str -> N) n e D by_ set tbl, (0 < n)%N ->
  analyze (erase e) = St by_ set -> name_ok by_ set e = true -> has_dup (map fst D) = false ->
  pred_ok (CEval e D n by_ set tbl (qeval e D) (shard_results H by_ set n e D)
                 (option_map merge_vectors (all_some (shard_results H by_ set n e D)))) = true.
Proof. exact sound_pred. Qed.
Print Assumptions C44_sound_pred.

(* the analyzer's guarantee is enough except for the metric name *)
Theorem C44_analyzer_gives_sound_for : forall e by_ set,
  compatible (scopes (erase e)) by_ set = true -> name_ok by_ set e = true -> sound_for by_ set e = true.
Proof. exact analyzer_sound_for. Qed.
Print Assumptions C44_analyzer_gives_sound_for.

(* sum without (a) ({job="j"}) over m1{a="x",job="j"} = 1 and m2{a="x",job="j"} = 2: the analyzer
   says "shardable without [a]"; the two series differ in __name__, which the matcher hashes, so
   they can sit on different shards, each shard returns its own {job="j"} sample, and the frontend's
   MergeResponse silently keeps the first of the two (value 1 instead of 3) *)
Definition w_job : str := [106;111;98]%N. Definition w_j : str := [106%N].
Definition w_q : qexpr := QAgg ASum true [[97%N]] (QSel [MEq w_job w_j]).
Definition w_D : vector :=
  [([(s_name, [109;49]%N); ([97%N], [120%N]); (w_job, w_j)], 1%Z);
   ([(s_name, [109;50]%N); ([97%N], [120%N]); (w_job, w_j)], 2%Z)].
Definition w_H (b : str) : N := fold_right N.add 0%N b.

Theorem C44_without_drops_name_refuted :
  analyze (erase w_q) = St false [[97%N]] /\ shardable (analyze (erase w_q)) = true
  /\ qeval w_q w_D = Some [([(w_job, w_j)], 3%Z)]
  /\ sharded w_H false [[97%N]] 2 w_q w_D = Some [([(w_job, w_j)], 1%Z); ([(w_job, w_j)], 2%Z)]
  /\ ~ Permutation [([(w_job, w_j)], 1%Z); ([(w_job, w_j)], 2%Z)] [([(w_job, w_j)], 3%Z)]
  /\ merge_vectors [[([(w_job, w_j)], 1%Z)]; [([(w_job, w_j)], 2%Z)]] = [([(w_job, w_j)], 1%Z)].
Proof.
  split; [vm_compute; reflexivity|]. split; [vm_compute; reflexivity|].
  split; [vm_compute; reflexivity|]. split; [vm_compute; reflexivity|].
  split; [|vm_compute; reflexivity].
  intro P. apply Permutation_length in P. vm_compute in P. discriminate.
Qed.
Print Assumptions C44_without_drops_name_refuted.

Definition la : str := [97%N]. Definition lb : str := [98%N]. Definition lpod : str := [112;111;100]%N.

(* sum by (a, pod) ( x * on(a, pod, b) y ) / ignoring(b) z : shardable by {a, pod} *)
Example C44_analyze_nonvacuous :
  let e := EBin (Some (false, [lb]))
             (EAgg false [la; lpod] None (EBin (Some (true, [la; lpod; lb])) ELeaf ELeaf)) ELeaf in
  analyze e = St true [la; lpod] /\ shardable (analyze e) = true
  /\ compatible (all_scopes e) true [la; lpod] = true.
Proof. vm_compute. repeat split; reflexivity. Qed.

(* label_replace writing to pod removes pod from the sharding labels *)
Example C44_dynamic_nonvacuous :
  analyze (EAgg false [la; lpod] None (ECall s_label_replace (Some lpod) [ELeaf; ELeaf; ELeaf; ELeaf; ELeaf]))
  = St true [la].
Proof. vm_compute. reflexivity. Qed.

Example C44_partition_nonvacuous :
  let H := fun b : str => N.of_nat (length b) in
  shard_of H true [la] 3 [(la, [120%N]); (lb, [121%N])] = 1%N
  /\ map (fun i => matches H true [la] 3 (N.of_nat i) [(la, [120%N]); (lb, [121%N])]) (seq 0 3) = [false; true; false].
Proof. vm_compute. split; reflexivity. Qed.

(* sum by (a) (count by (a, pod) ({job="j", pod!="y"})): hypotheses of C44_sound hold *)
Example C44_sound_nonvacuous :
  let e := QAgg ASum false [la] (QAgg ACount false [la; lpod] (QSel [MEq w_job w_j; MNeq lpod [121%N]])) in
  analyze (erase e) = St true [la] /\ name_ok true [la] e = true /\ sound_for true [la] e = true
  /\ qeval e [([(s_name, [109;49]%N); (la, [120%N]); (w_job, w_j); (lpod, [120%N])], 5%Z);
              ([(s_name, [109;50]%N); (la, [120%N]); (w_job, w_j); (lpod, [122%N])], 7%Z);
              ([(s_name, [109;49]%N); (la, [121%N]); (w_job, w_j)], 1%Z)]
     = Some [([(la, [120%N])], 2%Z); ([(la, [121%N])], 1%Z)].
Proof. vm_compute. repeat split; reflexivity. Qed.

(* sum by (a) ({__name__="m1"}) * on(a) sum by (a) ({__name__="m2"}): hypotheses of C44_sound hold *)
Example C44_sound_bin_nonvacuous :
  let sel := fun m => QSel [MEq s_name m] in
  let e := QBin BMul true [la] (QAgg ASum false [la] (sel [109;49]%N)) (QAgg ASum false [la] (sel [109;50]%N)) in
  analyze (erase e) = St true [la] /\ name_ok true [la] e = true
  /\ qeval e [([(s_name, [109;49]%N); (la, [120%N])], 5%Z); ([(s_name, [109;50]%N); (la, [120%N])], 7%Z);
              ([(s_name, [109;49]%N); (la, [121%N])], 2%Z)]
     = Some [([(la, [120%N])], 35%Z)].
Proof. vm_compute. repeat split; reflexivity. Qed.

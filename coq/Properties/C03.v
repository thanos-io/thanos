(* C03 — StoreAPI fan-out merge returns each series once, sorted, with all chunks.
   Property theorems only; proofs are in Lib/Proxy_Proofs.v and Lib/Proxy_LoserTree.v
   (generic model), Proofs/C03_Inst.v and Proofs/C03.v (this instance) and
   Proofs/C03_Ring.v (the ring buffer of a lazy response set). The model
   (Lib/Proxy_Model.v via Model/C03.v) is ProxyStore.Series: lazy / eager response sets incl. sortWithoutLabels, the array
   loser tree of pkg/losertree, responseDeduplicator (with the C03 fix: chunks keyed
   by all their field checksums), the limit loop and batchableServer. *)
From Coq Require Import ZArith NArith List Bool Permutation Sorted.
Import ListNotations.
From Verif Require Import Lib.Corr Lib.Proxy_Order Lib.Proxy_Model Lib.Proxy_Proofs Lib.Proxy_LoserTree Gen.C03 Model.C03 Proofs.C03_Inst Proofs.C03 Proofs.C03_Ring.
Open Scope Z_scope.

(* For every number of stores, all series sets, frame / batch splits, duplicate
   placements, warnings anywhere in the streams, both retrieval strategies (buffer sizes
   do not occur in the model), all batch sizes and replica-label removal: if no store
   fails, no limit is set and every store that is not re-sorted by the proxy sends
   label-sorted series, then ProxyStore.Series succeeds and what the client receives
   (after splitting batches) is strictly sorted by labels (each label set once), every
   series carries its chunks ordered by time, without duplicates, and the chunk keys
   are exactly those that some store returned for that label set; the label sets are
   exactly those the stores returned; all warnings are passed on. *)
Theorem C03_once_sorted_all_chunks : forall lazy wrl limit batch scripts,
  limit <= 0 ->
  (forall s, In s scripts -> sopen_err s = None /\ send s = EEof) ->
  inputs_sorted lazy wrl scripts ->
  exists frames,
    proxy lazy wrl false limit batch scripts = Some frames
    /\ let outs := sers (unbatch frames) in
       let ins := concat (map (presented (wrlb wrl) (rm_labels wrl)) scripts) in
       StronglySorted (llt lbl_cmp) (map fst outs)
       /\ (forall X cs, In (X, cs) outs ->
             Sorted time_ord cs /\ NoDup (map ckey cs)
             /\ forall k, In k (map ckey cs) <-> exists cs', In (X, cs') ins /\ In k (map ckey cs'))
       /\ (forall X, In X (map fst outs) <-> In X (map fst ins))
       /\ Permutation (warns (unbatch frames)) (concat (map (fun s => warns (flatten_frames (sframes s))) scripts)).
Proof. exact proxy_spec. Qed.
Print Assumptions C03_once_sorted_all_chunks.

(* "The result is the same for lazy and eager retrieval, any buffer size and any response
   batch size": two runs over the same stores that differ in retrieval strategy and batch size
   return the same label sets in the same order, each with the same set of chunk keys. *)
Theorem C03_strategy_independent : forall lazy1 lazy2 batch1 batch2 wrl limit scripts,
  limit <= 0 ->
  (forall s, In s scripts -> sopen_err s = None /\ send s = EEof) ->
  inputs_sorted lazy1 wrl scripts -> inputs_sorted lazy2 wrl scripts ->
  exists f1 f2,
    proxy lazy1 wrl false limit batch1 scripts = Some f1 /\ proxy lazy2 wrl false limit batch2 scripts = Some f2
    /\ map fst (sers (unbatch f1)) = map fst (sers (unbatch f2))
    /\ (forall X cs1 cs2, In (X, cs1) (sers (unbatch f1)) -> In (X, cs2) (sers (unbatch f2)) ->
          forall k, In k (map ckey cs1) <-> In k (map ckey cs2)).
Proof. exact strategy_independent. Qed.
Print Assumptions C03_strategy_independent.

(* The array loser tree of pkg/losertree (New, moveNext, playGame, replayGames, Next):
   for ANY input streams its output is a permutation of the inputs, produced by always
   advancing a stream with a minimal head; on label-sorted streams it is label-sorted. *)
Theorem C03_losertree_merge : forall ss : list (list resp),
  Permutation (lt_merge lbl_cmp wlen ss) (concat ss)
  /\ (streams_sorted lbl_cmp ss -> StronglySorted (lle lbl_cmp) (map fst (sers (lt_merge lbl_cmp wlen ss)))).
Proof. exact losertree_merge. Qed.
Print Assumptions C03_losertree_merge.

Theorem C03_losertree_min_run : forall ss : list (list resp), min_run lbl_cmp wlen ss (lt_merge lbl_cmp wlen ss).
Proof. exact losertree_min_run. Qed.
Print Assumptions C03_losertree_min_run.

(* Any merge that always advances a stream with a minimal head (as a loser tree, a
   heap or a linear scan does) turns label-sorted streams — warnings may sit anywhere
   in them — into a label-sorted stream that is a permutation of the inputs. *)
Theorem C03_min_merge_sorted : forall (ss : list (list resp)) (out : list resp),
  min_run lbl_cmp wlen ss out -> streams_sorted lbl_cmp ss ->
  StronglySorted (lle lbl_cmp) (map fst (sers out)) /\ Permutation out (concat ss).
Proof. exact min_merge_sorted. Qed.
Print Assumptions C03_min_merge_sorted.

(* responseDeduplicator on any label-sorted stream (duplicate label sets in any frame
   split): output strictly sorted, the label sets are preserved, each output series
   carries the time-sorted, key-deduplicated concatenation of ALL chunks of that label
   set; warnings untouched. *)
Theorem C03_dedup_refines_spec : forall l : list resp,
  StronglySorted (lle lbl_cmp) (map fst (sers l)) ->
  let outs := sers (dedup lbl_cmp ckey keqb cleb None l) in
  StronglySorted (llt lbl_cmp) (map fst outs)
  /\ (forall X cs, In (X, cs) outs -> cs = chained ckey keqb cleb (chunks_of lbl_cmp X (sers l)))
  /\ (forall X, In X (map fst outs) <-> In X (map fst (sers l)))
  /\ warns (dedup lbl_cmp ckey keqb cleb None l) = warns l.
Proof. exact (dedup_spec lbl_cmp lbl_ord ckey keqb cleb). Qed.
Print Assumptions C03_dedup_refines_spec.

(* chainSeriesAndRemIdenticalChunks: sorted by time, each key once, same key set, nothing invented *)
Theorem C03_chain_chunks : forall cs,
  Sorted time_ord (chained ckey keqb cleb cs) /\ NoDup (map ckey (chained ckey keqb cleb cs))
  /\ (forall k, In k (map ckey (chained ckey keqb cleb cs)) <-> In k (map ckey cs))
  /\ incl (chained ckey keqb cleb cs) cs.
Proof. exact (chained_spec ckey keqb keqb_spec cleb time_ord cleb_true cleb_false). Qed.
Print Assumptions C03_chain_chunks.

(* batchableServer: for every batch size, un-batching what was sent gives back the responses *)
Theorem C03_batch_transparent : forall (n : nat) (l : list resp), unbatch (send_all n true l) = l.
Proof. exact unbatch_send_all. Qed.
Print Assumptions C03_batch_transparent.

(* Lazy retrieval, schedules: the ring buffer of any size (fixedBufferSize = requested size + 1
   >= 2) between the receiver goroutine and the merge. For EVERY interleaving of append and pop
   steps the merge has received a prefix of what the store sent, in order, nothing lost or
   duplicated (received ++ buffered ++ not-yet-appended = the store's stream); while data
   remains some step is enabled (no deadlock); every step decreases a measure, so all runs end
   with the whole stream received. This is why the model may treat a lazy stream as the
   sequence of the store's frames. *)
Theorem C03_ring_fifo : forall (A : Type) (d : A) (N : Z), 2 <= N -> forall input st,
  reach N (init d input) st -> wf N st /\ received st ++ contents N st ++ pending st = input.
Proof. exact @ring_fifo. Qed.
Print Assumptions C03_ring_fifo.

Theorem C03_ring_progress : forall (A : Type) (d : A) (N : Z), 2 <= N -> forall input st,
  reach N (init d input) st -> (pending st <> [] \/ contents N st <> []) -> exists st', step N st st'.
Proof. exact @ring_progress. Qed.
Print Assumptions C03_ring_progress.

Theorem C03_ring_terminates : forall (A : Type) (d : A) (N : Z), 2 <= N -> forall input st st',
  reach N (init d input) st -> step N st st' -> (measure N st' < measure N st)%nat.
Proof. exact @ring_terminates. Qed.
Print Assumptions C03_ring_terminates.

(* the series limit of the request (not part of the property's statement, stated here because
   [limit_break] is regenerated from the source): a positive limit passes exactly the first
   `limit` responses of the merged, de-duplicated stream *)
Theorem C03_limit_prefix : forall limit (l : list resp) i,
  0 <= i <= limit -> 0 < limit ->
  series_loop limit_break false limit i l = (firstn (Z.to_nat (limit - i)) l, false).
Proof. exact series_loop_limit. Qed.
Print Assumptions C03_limit_prefix.

(* stores that cannot strip replica labels *)
Theorem C03_resort : forall wrl (l : list resp),
  StronglySorted (lle lbl_cmp) (map fst (sers (sort_without_labels lbl_cmp (rm_labels wrl) l)))
  /\ Permutation (sort_without_labels lbl_cmp (rm_labels wrl) l) (map (rm_resp (rm_labels wrl)) l).
Proof. exact resort_ok. Qed.
Print Assumptions C03_resort.

(* The defect found (fixed by repo_patches/C03-fix.patch): the former loop kept a chunk
   under the checksum of its first field not seen before, so an aggregated chunk sent
   by two stores was listed twice; keyed by all field checksums it is listed once. *)
Theorem C03_unfixed_dedup_refuted :
  exists cs, ~ NoDup (map ckey (dedup_unfixed [] cs)) /\ NoDup (map ckey (dedup_keys ckey keqb [] cs)).
Proof. exact unfixed_dedup_refuted. Qed.
Print Assumptions C03_unfixed_dedup_refuted.

(* Non-vacuity: two stores, the second duplicates series a=1 with an overlapping chunk
   set and adds a=2; lazy retrieval, batch size 2. All hypotheses of the main theorem
   hold and the result has two series. *)
Definition ex_c (t : Z) (h : N) : chunk := MkChunk t (t + 5) [Some (1, h, [h]); None; None; None; None; None].
Definition ex_l (v : N) : labels := [([97%N], [v])].
Definition ex_scripts : list script :=
  [ MkScript None [FSeries (ex_l 49) [ex_c 0 1; ex_c 10 2]] EEof true;
    MkScript None [FBatch [(ex_l 49, [ex_c 10 2; ex_c 20 3]); (ex_l 50, [ex_c 0 4])]] EEof true ].
Example C03_nonvacuous :
  proxy true [] false 0 2 ex_scripts
    = Some [FBatch [(ex_l 49, [ex_c 0 1; ex_c 10 2; ex_c 20 3]); (ex_l 50, [ex_c 0 4])]]
  /\ lt_merge lbl_cmp wlen (streams_of true [] ex_scripts)
     = [RSeries (ex_l 49) [ex_c 10 2; ex_c 20 3]; RSeries (ex_l 49) [ex_c 0 1; ex_c 10 2]; RSeries (ex_l 50) [ex_c 0 4]].
Proof. split; vm_compute; reflexivity. Qed.

(* a buffer of size 1 (N = 2): append a, pop, append b, append is then blocked until the pop *)
Example C03_ring_nonvacuous :
  let s0 := init 0%nat [7; 8; 9]%nat in
  exists s1 s2 s3, step 2 s0 s1 /\ step 2 s1 s2 /\ step 2 s2 s3
    /\ received s3 = [7%nat] /\ contents 2 s3 = [8%nat] /\ pending s3 = [9%nat]
    /\ ring_is_full (hd s3) (tl s3) 2 = true.
Proof.
  intros s0.
  pose (s1 := MkSt [8; 9]%nat (upd (fun _ => 0%nat) 0 7%nat) 0 1 []).
  pose (s2 := MkSt [8; 9]%nat (buf s1) 1 1 [7%nat]).
  pose (s3 := MkSt [9%nat] (upd (buf s1) 1 8%nat) 1 0 [7%nat]).
  exists s1, s2, s3.
  split; [exact (s_append 2 s0 7%nat [8; 9]%nat eq_refl eq_refl)|].
  split; [exact (s_pop 2 s1 eq_refl)|].
  split; [exact (s_append 2 s2 8%nat [9%nat] eq_refl eq_refl)|].
  repeat split.
Qed.

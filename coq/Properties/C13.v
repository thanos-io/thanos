(* C13 — Cache keys never conflate different cached items.
   Property theorems only; each is closed by [exact] of a lemma of Proofs/C13.v.
   Model: Model/C13.v — CacheKey.String (P:/EP:/S: keys), LabelMatchersToString with
   labels.Matcher.String, and the matchers-cache key WITH C13-fix.patch.
   H = base64url(blake2b-256(.)), quote = strconv.Quote, dec = strconv.FormatUint(.,10)
   are parameters; [hash_ok H] = injective (collision resistance, an explicit
   hypothesis) and ':'-free output; [quote_ok quote] = quote a ++ x = quote b ++ y
   implies a = b and x = y, and every output starts with a double quote; dec injective.
   Byte strings are arbitrary (all of UTF-8 and beyond); block ids contain no ':'. *)
From Coq Require Import String.
From Coq Require Import NArith List Bool.
Import ListNotations.
From Verif Require Import Lib.Corr Gen.C13 Model.C13 Proofs.C13.
Open Scope N_scope.

(* Index cache (postings with ':'-free label names, expanded postings, series):
   two items with the same key are the same item. Covers all pairs of kinds. *)
Theorem C13_index_keys_inj_no_colon : forall H quote dec, hash_ok H -> quote_ok quote ->
  (forall a b, dec a = dec b -> a = b) ->
  forall i1 i2, valid_item i1 -> valid_item i2 -> same_cache i1 i2 = true ->
  key_of H quote dec true i1 = key_of H quote dec true i2 -> i1 = i2.
Proof. exact keys_inj. Qed.
Print Assumptions C13_index_keys_inj_no_colon.

(* Keys of different kinds never collide, whatever H, quote and dec are (first byte P / E / S). *)
Theorem C13_kinds_disjoint : forall H quote dec i1 i2, index_item i1 = true -> index_item i2 = true ->
  key_of H quote dec true i1 = key_of H quote dec true i2 ->
  match i1, i2 with
  | IPostings _ _ _ _, IPostings _ _ _ _ | IExpanded _ _ _, IExpanded _ _ _ | ISeries _ _, ISeries _ _ => True
  | _, _ => False
  end.
Proof. exact kinds_disjoint. Qed.
Print Assumptions C13_kinds_disjoint.

(* LabelMatchersToString is injective on lists of matchers for ALL names and values
   (legacy names unquoted, all other names quoted, values quoted, semicolon between). *)
Theorem C13_matchers_to_string_inj : forall quote, quote_ok quote ->
  forall l1 l2, matchers_to_string quote l1 = matchers_to_string quote l2 -> l1 = l2.
Proof. exact matchers_string_inj. Qed.
Print Assumptions C13_matchers_to_string_inj.

(* Matchers cache (with the fix): type, quoted name, value — injective for all matcher types. *)
Theorem C13_matcher_key_inj : forall quote, quote_ok quote ->
  forall m1 m2, matcher_cache_key quote true m1 = matcher_cache_key quote true m2 -> m1 = m2.
Proof. exact matcher_key_inj. Qed.
Print Assumptions C13_matcher_key_inj.

(* The same through the predicate the check evaluates on the real key strings. *)
Theorem C13_pred : forall H quote dec, hash_ok H -> quote_ok quote -> (forall a b, dec a = dec b -> a = b) ->
  forall i1 i2 oH oQ oD, valid_item i1 -> valid_item i2 ->
  pred_ok (CPair i1 i2 (key_of H quote dec true i1) (key_of H quote dec true i2) oH oQ oD) = true.
Proof. exact keys_pred. Qed.
Print Assumptions C13_pred.

(* Full statement (all label names) is FALSE for postings keys: the hashed text is
   name ++ [colon] ++ value, so (a:b, c) and (a, b:c) share a key for every hash
   function, block and compression (known finding, corpus/C13/01). *)
Theorem C13_postings_refuted : forall H b comp,
  key_postings H b [97; 58; 98] [99] comp = key_postings H b [97] [98; 58; 99] comp
  /\ item_eqb (IPostings b [97; 58; 98] [99] comp) (IPostings b [97] [98; 58; 99] comp) = false.
Proof. exact postings_collision. Qed.
Print Assumptions C13_postings_refuted.

Theorem C13_postings_pred_refuted : forall H quote dec b comp oH oQ oD,
  let i1 := IPostings b [97; 58; 98] [99] comp in
  let i2 := IPostings b [97] [98; 58; 99] comp in
  pred_ok (CPair i1 i2 (key_of H quote dec true i1) (key_of H quote dec true i2) oH oQ oD) = false.
Proof. exact postings_pred_refuted. Qed.
Print Assumptions C13_postings_pred_refuted.

(* The matchers-cache key before the fix (name ++ type ++ value): name a, regex b=~c
   against name a=~b, regex c; and name a, equal ~b against name a, regex b (corpus/C13/02, 03). *)
Theorem C13_matcher_key_unfixed_refuted : forall quote,
  matcher_cache_key quote false (mkM MRe [97] [98; 61; 126; 99]) =
  matcher_cache_key quote false (mkM MRe [97; 61; 126; 98] [99])
  /\ matcher_cache_key quote false (mkM MEq [97] [126; 98]) = matcher_cache_key quote false (mkM MRe [97] [98]).
Proof. exact matcher_key_unfixed_collision. Qed.
Print Assumptions C13_matcher_key_unfixed_refuted.

(* The matchers cache under concurrent lookups (LruMatchersCache.GetOrSet: singleflight around
   "LRU hit, else convert and store"). Lookups are items; events issue a lookup or let a running
   conversion return. If the singleflight key and the LRU key separate the different items of
   the history, then for EVERY interleaving every lookup that returns gets the matcher of ITS
   item ... *)
Theorem C13_inflight_own_item : forall sfk lruk items,
  (forall a b, In a items -> In b items -> sfk a = sfk b -> a = b) ->
  (forall a b, In a items -> In b items -> lruk a = lruk b -> a = b) ->
  forall evs i r, f_ls (frun sfk lruk items evs) i = LDone r -> nth_error items i = Some r.
Proof. exact inflight_own_item. Qed.
Print Assumptions C13_inflight_own_item.

(* ... and only then: whenever the singleflight key conflates two items, the interleaving
   "issue 0, issue 1, conversion 0 returns" answers lookup 1 with item 0, whatever the LRU key. *)
Theorem C13_inflight_conflated_refuted : forall sfk lruk m0 m1, sfk m0 = sfk m1 ->
  f_ls (frun sfk lruk [m0; m1] [FBegin 0; FBegin 1; FFinish 0]) 1 = LDone m0.
Proof. exact inflight_conflated. Qed.
Print Assumptions C13_inflight_conflated_refuted.

(* the code's key (C13_matcher_key_inj: injective) used for both purposes (C13_get_or_set_keys):
   the results the check compares with the real cache are each lookup's own item *)
Theorem C13_inflight_results : forall items evs i r,
  nth_error (flight_results flight_key flight_key items evs) i = Some (Some r) -> nth_error items i = Some r.
Proof. exact flight_results_own. Qed.
Print Assumptions C13_inflight_results.

(* Tie T: the singleflight key, the LRU lookup key and the LRU store key are one expression *)
Theorem C13_get_or_set_keys :
  getOrSetKeys = ["key := cacheKey(m)"; "c.sf.Do(key)"; "c.cache.Get(key)"; "c.cache.Add(key)"]%string.
Proof. exact get_or_set_keys. Qed.
Print Assumptions C13_get_or_set_keys.

Example C13_inflight_nonvacuous :
  let a := mkM MRe [106] [120] in let b := mkM MNre [105] [120] in
  flight_results flight_key flight_key [a; b; a] [FBegin 0; FBegin 1; FFinish 1; FFinish 0; FBegin 2] = [Some a; Some b; Some a] /\
  flight_codes flight_key flight_key [a; b; a] [FBegin 0; FBegin 1; FFinish 1; FFinish 0; FBegin 2] = [1; 1; 3; 3; 3] /\
  (* a key made of the value alone: lookup 1 waits for lookup 0 and is answered with a *)
  flight_results mvalue flight_key [a; b] [FBegin 0; FBegin 1; FFinish 0] = [Some a; Some a].
Proof. vm_compute. repeat split; reflexivity. Qed.

(* Tie T. *)
Theorem C13_source_shape :
  cacheKeyStringAssigns =
    ["lbl := c.Key.(CacheKeyPostings)";
     "lblHash := blake2b.Sum256([]byte(lbl.Name + "":"" + lbl.Value))";
     "key := ""P:"" + c.Block + "":"" + base64.RawURLEncoding.EncodeToString(lblHash[0:])";
     "key += "":"" + c.Compression";
     "matchers := c.Key.(CacheKeyExpandedPostings)";
     "matchersHash := blake2b.Sum256([]byte(matchers))";
     "key := ""EP:"" + c.Block + "":"" + base64.RawURLEncoding.EncodeToString(matchersHash[0:])";
     "key += "":"" + c.Compression"]%string /\
  cacheKeyStringReturns =
    ["key"; "key"; """S:"" + c.Block + "":"" + strconv.FormatUint(uint64(c.Key.(CacheKeySeries)), 10)"; """"""]%string /\
  matcherCacheKeyWrites =
    ["typeStr := t.String()"; "name := strconv.Quote(m.GetName())"; "WriteString(typeStr)"; "WriteString(name)";
     "WriteString(m.GetValue())"]%string /\
  labelMatchersToStringEvents =
    [("for", "range"); ("call", "lbl.String"); ("call", "sb.WriteString"); ("call", "len");
     ("if", "i < len(matchers)-1"); ("call", "sb.WriteRune"); ("endif", ""); ("endfor", "");
     ("call", "sb.String"); ("return", "sb.String()")]%string.
Proof. exact source_shape. Qed.
Print Assumptions C13_source_shape.

(* Non-vacuity of the hypotheses: functions satisfying hash_ok, quote_ok and the injectivity of
   dec exist (every character moved above the colon, a unary-length-prefixed quote, unary numbers),
   and with them two different lists of matchers whose naive join would coincide get different keys. *)
Example C13_hypotheses_satisfiable :
  exists H quote dec, hash_ok H /\ quote_ok quote /\ (forall a b : N, dec a = dec b -> a = b) /\
    key_of H quote dec true (IExpanded [48] [mkM MEq [97] [98; 59; 99]] []) <>
    key_of H quote dec true (IExpanded [48] [mkM MEq [97] [98]; mkM MEq [99] []] []).
Proof. exact hypotheses_satisfiable. Qed.

(* Non-vacuity: with a concrete quote on the strings involved, two expanded-postings
   texts that a naive join would confuse are different, and valid items exist. *)
Example C13_nonvacuous :
  let q := fun s : str => dquote :: s ++ [dquote] in
  matchers_to_string q [mkM MEq [97] [98]; mkM MRe [99; 58] [100]] =
    [97; 61; 34; 98; 34; 59; 34; 99; 58; 34; 61; 126; 34; 100; 34] /\
  should_quote [99; 58] = true /\ should_quote [97; 95; 49] = false /\ should_quote [49; 97] = true /\
  valid_item (IPostings [48; 49] [97] [58; 58] []) /\
  key_series (fun n => [48 + n]) [48; 49] 7 = [83; 58; 48; 49; 58; 55].
Proof.
  cbn zeta. repeat split; try reflexivity; unfold no_colon, colon; cbn; intuition discriminate.
Qed.

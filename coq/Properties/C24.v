(* C24 — The remote-write concurrency gate is never exceeded.
   Property theorems only. The LTS (Model/C24.v) has any number of request
   threads of the protobuf and OTLP endpoints around one gate of capacity max
   ([run]; labels: arrive (queue in Start), admission, cancel-while-queued, leave
   the write path, deferred Done), and around the list of gates that reloads of
   the limits configuration leave behind, each with its own capacity ([mrun]: the
   same labels on a chosen gate, plus reload). Whether Done runs after a FAILED
   Start, and whether it goes to the gate Start was called on, is computed from
   the statement order of receiveHTTP / receiveOTLPHTTP (Gen/C24.v, regenerated
   from the source on every run). *)
From Coq Require Import List Bool Arith String.
Import ListNotations.
From Verif Require Import Lib.Corr Gen.C24 Model.C24 Proofs.C24.

(* Source-order fact: in both handlers nothing calls or defers Done between the
   call of Start and the `if err != nil { ...; return }` block, and Done is
   deferred after that block. *)
Theorem C24_done_only_after_successful_start : forall e, done_on_failed_start e = false.
Proof. exact current_source_safe. Qed.
Print Assumptions C24_done_only_after_successful_start.

(* Any capacity, any number of requests, EVERY interleaving of arrivals,
   admissions, cancellations while queued, completions and deferred Dones:
   at most max requests are inside the write path and Done never panics. *)
Theorem C24_bound_and_no_panic : forall max ls s,
  run done_on_failed_start max init ls = Some s ->
  working s <= max /\ panics s = 0.
Proof. exact bound_current_source. Qed.
Print Assumptions C24_bound_and_no_panic.

(* The same for any handler pair with the safe order (what the proof uses of
   the source); moreover the gate holds exactly the requests that are inside
   or about to release. *)
Theorem C24_bound_generic : forall dofs max ls s, (forall e, dofs e = false) ->
  run dofs max init ls = Some s ->
  working s <= max /\ panics s = 0 /\ tokens s = working s + exiting s.
Proof. intros dofs max ls s Hd. exact (bound_all_interleavings dofs Hd max ls s). Qed.
Print Assumptions C24_bound_generic.

(* Reloads of the limits configuration: several gates. Source-order fact: in
   both handlers Start and the deferred Done are called on one plain identifier
   that is assigned exactly once (the gate value is looked up once per request). *)
Theorem C24_start_and_done_on_the_same_gate : forall e, same_gate e = true.
Proof. exact current_source_same_gate. Qed.
Print Assumptions C24_start_and_done_on_the_same_gate.

(* Any initial capacity, any number of requests and of reloads (each installs a
   fresh gate of any capacity), EVERY interleaving: on every gate, old or new,
   at most its capacity of requests admitted by it are inside the write path
   and Done never hits an empty gate. *)
Theorem C24_per_gate_bound_across_reloads : forall max ls gs,
  mrun done_on_failed_start same_gate (minit max) ls = Some gs ->
  Forall (fun g => working (snd g) <= fst g /\ panics (snd g) = 0) gs.
Proof. exact per_gate_bound_current_source. Qed.
Print Assumptions C24_per_gate_bound_across_reloads.

(* For any handler pair with both source-order facts; moreover every gate's
   accounting stays balanced (tokens = in the write path + about to release). *)
Theorem C24_per_gate_bound_generic : forall dofs same max ls gs,
  (forall e, dofs e = false) -> (forall e, same e = true) ->
  mrun dofs same (minit max) ls = Some gs ->
  Forall (fun g => working (snd g) <= fst g /\ panics (snd g) = 0 /\ tokens (snd g) = working (snd g) + exiting (snd g)) gs.
Proof. intros dofs same max ls gs Hd Hs. exact (per_gate_bound dofs same Hd Hs max ls gs). Qed.
Print Assumptions C24_per_gate_bound_generic.

(* Tie to the check: if the implementation's observed counts after every
   scheduled operation (reloads included) are those of the model (corr_ok),
   then the property's predicate holds of those observations (pred_ok). *)
Theorem C24_observed_runs_within_bound : forall c, corr_ok c = true -> pred_ok c = true.
Proof. exact corr_implies_pred. Qed.
Print Assumptions C24_observed_runs_within_bound.

(* ... and the schedule controller's operations are LTS runs. *)
Theorem C24_schedule_is_run : forall dofs same gs o gs', exec_op dofs same gs o = Some gs' ->
  exists ls, mrun dofs same gs ls = Some gs'.
Proof. exact exec_op_is_run. Qed.
Print Assumptions C24_schedule_is_run.

(* A handler that looks the gate up a second time for its Done breaks both
   halves as soon as a request straddles a reload (capacity 1: two requests
   admitted by the new gate inside the write path; Done on the empty new gate). *)
Theorem C24_double_lookup_refuted_bound :
  exists gs, mrun (fun _ => false) (fun _ => false) (minit 1)
    [MOn 0 (LArrive Http); MOn 0 LAdmit; MReload 1; MOn 1 (LArrive Http); MOn 1 LAdmit;
     MOn 0 LFinish; MRelease 0 Http; MOn 1 (LArrive Otlp); MOn 1 LAdmit] = Some gs
    /\ map (fun g => (fst g, working (snd g))) gs = [(1, 0); (1, 2)].
Proof. exact double_lookup_over_admission. Qed.
Print Assumptions C24_double_lookup_refuted_bound.

Theorem C24_double_lookup_refuted_panic :
  exists gs, mrun (fun _ => false) (fun _ => false) (minit 1)
    [MOn 0 (LArrive Http); MOn 0 LAdmit; MReload 1; MOn 0 LFinish; MRelease 0 Http] = Some gs
    /\ sum_of panics gs = 1.
Proof. exact double_lookup_panic. Qed.
Print Assumptions C24_double_lookup_refuted_panic.

(* With the order the source had before the repair (Done deferred before the
   error test) both halves fail: *)
Theorem C24_done_before_check_refuted_bound :
  exists s, run (fun _ => true) 1 init
    [LArrive Http; LAdmit; LArrive Http; LCancel Http; LArrive Otlp; LAdmit] = Some s
    /\ working s = 2.
Proof. exact buggy_over_admission. Qed.
Print Assumptions C24_done_before_check_refuted_bound.

Theorem C24_done_before_check_refuted_panic :
  exists s, run (fun _ => true) 1 init [LArrive Http; LCancel Http] = Some s /\ panics s = 1.
Proof. exact buggy_panic. Qed.
Print Assumptions C24_done_before_check_refuted_panic.

(* Non-vacuity: capacity 2, three arrivals, the queued one is cancelled, one
   finishes, another arrives: a run of the current-source LTS ending with two
   requests in the write path and one cancelled. *)
Example C24_nonvacuous :
  option_map (fun s => (working s, waiting s, finished s, cancelled s, panics s)) (run done_on_failed_start 2 init
    [LArrive Http; LAdmit; LArrive Otlp; LAdmit; LArrive Http; LCancel Http;
     LFinish; LRelease; LArrive Http; LAdmit]) = Some (2, 0, 1, 1, 0).
Proof. vm_compute. reflexivity. Qed.

(* ... and with a reload while a request is queued: the queued request is later
   admitted by the OLD gate, the new gate admits independently. *)
Example C24_nonvacuous_reload :
  option_map snap_of (mrun done_on_failed_start same_gate (minit 1)
    [MOn 0 (LArrive Http); MOn 0 LAdmit; MOn 0 (LArrive Otlp); MReload 1; MOn 1 (LArrive Http); MOn 1 LAdmit;
     MOn 0 LFinish; MRelease 0 Http; MOn 0 LAdmit])
  = Some ([(1, 1, 0); (1, 1, 0)], 1, 0, 0).
Proof. vm_compute. reflexivity. Qed.

(* C36 — Raw downsampling aggregates are exact.
   Property theorems only; each is closed by [exact] of a lemma from Proofs/C36.v.
   Model: Lib/Downsample_Core.v (DownsampleRaw, downsampleRawLoop, downsampleFloatBatch,
   downsampleBatch, floatAggregator, aggrChunkBuilder mint/maxt) instantiated with
   [currentWindow] regenerated from pkg/compact/downsample/downsample.go on every run
   (Gen/C36.v), plus the querier's chunkSeriesIterator (Model/C36.v).
   Values are integers (integer-valued float64 below 2^53: float64 arithmetic is exact);
   [num_chunks] = targetChunkCount(...) is universally quantified: the theorems hold for
   EVERY batch size the float heuristic may choose.
   valid_raw: resolution > 0, timestamps int64, >= 0 and non-decreasing; no bound on length. *)
From Coq Require Import ZArith List Bool Sorted.
Import ListNotations.
From Verif Require Import Lib.Corr Lib.Downsample_Core Gen.C36 Model.C36 Proofs.C36.
Open Scope Z_scope.

(* Clause 1.  DownsampleRaw terminates, the count/sum/min/max lists of every chunk
   have identical timestamps (all_rows succeeds), and every output row (w, count,
   sum, min, max) carries exactly the count, sum, min and max of the raw non-NaN
   samples s with currentWindow(s.t) = currentWindow(w) — over the WHOLE series, not
   only its batch.  Rows appear in strictly increasing window order (one row per
   non-empty window). *)
Theorem C36_windows : forall res num_chunks data,
  valid_raw res data ->
  exists out rows,
    downsample_raw_m res num_chunks data = Some out /\ all_rows out = Some rows /\
    Forall (row_spec res (keep_nonnan data)) rows /\
    StronglySorted Z.lt (map (fun r => cw (fst r) res) rows).
Proof. exact windows_exact. Qed.
Print Assumptions C36_windows.

(* Clause 2.  Totals over the series: sum of counts = number of non-NaN samples, sum of
   sums = sum of values, min of mins / max of maxes = overall min / max. *)
Theorem C36_totals : forall res num_chunks data,
  valid_raw res data ->
  exists out rows,
    downsample_raw_m res num_chunks data = Some out /\ all_rows out = Some rows /\
    totals_spec (keep_nonnan data) rows.
Proof. exact totals_exact. Qed.
Print Assumptions C36_totals.

(* Clause 3.  Chunks are time-ordered and non-overlapping: [mint,maxt] of a chunk lies
   strictly after the previous chunk's maxt; inside a chunk timestamps are strictly
   increasing, the first is mint and the last is maxt. *)
Theorem C36_chunks_ordered : forall res num_chunks data,
  valid_raw res data ->
  exists out, downsample_raw_m res num_chunks data = Some out /\ chunks_spec None out.
Proof. exact chunks_ordered_exact. Qed.
Print Assumptions C36_chunks_ordered.

(* Clause 4.  Reading count / sum / min / max back through the querier's
   chunkSeriesIterator (pkg/query/iter.go: per-chunk iterators, Seek(lastT+1) when entering
   the next chunk) yields exactly the concatenation of the per-chunk lists: nothing is
   dropped by the overlap skip, because of clause 3. *)
Theorem C36_query_readback : forall res num_chunks data,
  valid_raw res data ->
  exists out, downsample_raw_m res num_chunks data = Some out /\
    readbacks out =
      [ concat (map (fun c => olist (k_count c)) out); concat (map (fun c => olist (k_sum c)) out);
        concat (map (fun c => olist (k_min c)) out); concat (map (fun c => olist (k_max c)) out) ].
Proof. exact readback_exact. Qed.
Print Assumptions C36_query_readback.

(* Clauses 1 to 4 together, through the boolean predicate that the check evaluates on
   the implementation's own output; [readbacks out] is what the querier's
   chunkSeriesIterator yields for count / sum / min / max. *)
Theorem C36_pred : forall res num_chunks data,
  valid_input res data = true ->
  exists out, downsample_raw_m res num_chunks data = Some out /\
    pred_ok (CRaw res num_chunks data out (readbacks out)) = true.
Proof. exact pred_holds. Qed.
Print Assumptions C36_pred.

(* The facts about currentWindow (as translated from the Go source) that everything
   rests on: a timestamp is inside its own window, and the window is determined by
   any timestamp inside it. *)
Theorem C36_current_window : forall res, 0 < res ->
  (forall t, 0 <= t -> t <= cw t res) /\
  (forall t t', 0 <= t -> t <= t' -> t' <= cw t res -> cw t' res = cw t res).
Proof. intros res H. split; [exact (cw_ge res H)|exact (cw_same res H)]. Qed.
Print Assumptions C36_current_window.

(* Tie T for the batch size of downsampleRawLoop: the model's (len / numChunks) + 1 is the
   expression assigned to batchSize in the Go source (translated into Gen/C36.v on every run). *)
Theorem C36_batch_size_source : forall len nc,
  Z.to_nat (raw_batch_size (Z.of_nat len) (Z.of_nat nc)) = (len / nc + 1)%nat.
Proof. exact raw_batch_size_model. Qed.
Print Assumptions C36_batch_size_source.

(* Faults on the read path (a sub-chunk's iterator stops with an error, e.g. truncated bytes).
   [read_f] models chunkSeriesIterator over chunk iterators given as (samples yielded before
   ValNone, Err() <> nil).  An error in ANY chunk is reported by the series iterator ... *)
Theorem C36_read_error_reported : forall chunks bound,
  Exists (fun c : list (Z * Z) * bool => snd c = true) chunks -> snd (read_f chunks bound) = true.
Proof. exact read_f_error_reported. Qed.
Print Assumptions C36_read_error_reported.

(* ... and no sample of a later chunk is yielded after the failing chunk: the chunks after
   it do not influence the read at all. *)
Theorem C36_read_stops_at_error : forall pre l post bound,
  Forall (fun c : list (Z * Z) * bool => snd c = false) pre ->
  read_f (pre ++ (l, true) :: post) bound = read_f (pre ++ [(l, true)]) bound.
Proof. exact read_f_stops_at_error. Qed.
Print Assumptions C36_read_stops_at_error.

(* The fault clause of the check's predicate holds of the model for EVERY list of chunk
   iterators: an error of any of them is reported; if none fails and what they yield is
   time-ordered, exactly their samples are read, without error — never fewer samples with a
   nil error.  (Stated on what the sub-chunk iterators report: the third-party XOR decoder
   may also decode truncated bytes to wrong values WITHOUT an error, which no series
   iterator can notice.) *)
Theorem C36_read_fault_pred : forall chunks orig,
  pred_ok (CFault chunks orig (fst (read_faulty chunks)) (snd (read_faulty chunks))) = true.
Proof. exact fault_pred. Qed.
Print Assumptions C36_read_fault_pred.

(* For the aggregates DownsampleRaw writes (count, sum, min or max), whichever sub-chunk
   iterators fail and whatever they yield before failing: the read-back reports an error or
   is exactly the aggregate's values. *)
Theorem C36_read_values_or_error : forall res num_chunks data (f : achunk -> option (list (Z * Z))),
  (f = k_count \/ f = k_sum \/ f = k_min \/ f = k_max) ->
  valid_raw res data ->
  exists out, downsample_raw_m res num_chunks data = Some out /\
    forall chunks,
      Forall2 (fun o (c : list (Z * Z) * bool) => snd c = true \/ c = (o, false))
              (map (fun c => olist (f c)) out) chunks ->
      snd (read_faulty chunks) = true \/
      fst (read_faulty chunks) = concat (map (fun c => olist (f c)) out).
Proof. exact raw_fault. Qed.
Print Assumptions C36_read_values_or_error.

(* Tie T for the read-back: the aggregates the querier selects (aggrsFromFunc, evaluated on
   the linked code into Gen/C36.v) for count_over_time / sum_over_time / min_over_time /
   max_over_time are COUNT / SUM / MIN / MAX; [readbacks] (used in C36_query_readback and
   C36_pred) reads the chunks through this table. *)
Theorem C36_aggr_selection : map lookup_aggr read_funcs = [[1]; [2]; [3]; [4]].
Proof. exact aggr_selection. Qed.
Print Assumptions C36_aggr_selection.

(* Negative timestamps are NOT covered by the theorems above, and the statement is false
   for them: downsampleBatch uses nextT = -1 as "no window yet", so samples at t <= -1 do
   not open a window.  (a) A negative sample before a non-negative one is dropped from all
   aggregates (count 1 for 2 samples).  (b) With only negative samples, all windows are
   merged into a single row at t = -1 whose min is 0 — the zero value of the aggregator that
   was never reset — instead of the true minimum.  Both behaviours are reproduced on the
   real code by corpus/C36/negative_*.json (model = implementation). *)
Theorem C36_negative_timestamps_refuted :
  (let data := [(-10, Some 5); (0, Some 7)] in
   StronglySorted Z.lt (map fst data) /\
   exists out rows, downsample_raw_m 10 1 data = Some out /\ all_rows out = Some rows /\
     rows = [(0, (1, 7, 7, 7))] /\ ~ totals_spec (keep_nonnan data) rows) /\
  (let data := [(-25, Some 1); (-13, Some 2); (-1, Some 4)] in
   StronglySorted Z.lt (map fst data) /\
   exists out rows, downsample_raw_m 10 1 data = Some out /\ all_rows out = Some rows /\
     rows = [(-1, (3, 7, 0, 4))] /\ ~ totals_spec (keep_nonnan data) rows).
Proof. split; [exact negative_lost|exact negative_merged]. Qed.
Print Assumptions C36_negative_timestamps_refuted.

(* Tie T for the batch-extension loop of downsampleRawLoop (`for ; j < len(data) &&
   data[j].t <= curW; j++ {}`): the comparison operator in the Go source (extracted into
   Gen/C36.v on every run) is the inclusive one of the model's take_le — a sample exactly on
   the window's last millisecond stays in the batch. *)
Theorem C36_extension_loop_source : forall t w, ext_take t w = (t <=? w).
Proof. exact ext_take_model. Qed.
Print Assumptions C36_extension_loop_source.

(* Non-vacuity: irregular series with a NaN, a window boundary and two batches
   (num_chunks = 2) at a 10 ms resolution. *)
Example C36_nonvacuous :
  let data := [(0, Some 5); (3, None); (9, Some (-2)); (10, Some 7); (25, Some 1); (26, Some 1); (40, Some 9)] in
  valid_raw 10 data /\ valid_input 10 data = true /\
  exists out, downsample_raw_m 10 2 data = Some out /\ length out = 2%nat /\
    all_rows out = Some [(9, (2, 3, -2, 5)); (10, (1, 7, 7, 7)); (29, (2, 2, 1, 1)); (40, (1, 9, 9, 9))].
Proof.
  cbv zeta. split; [|split; [vm_compute; reflexivity|]].
  - split; [reflexivity|]. split.
    + cbn [map fst]. repeat (constructor; [|repeat constructor; discriminate]). constructor.
    + repeat constructor; cbn; discriminate.
  - eexists. split; [vm_compute; reflexivity|]. split; vm_compute; reflexivity.
Qed.

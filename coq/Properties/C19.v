(* C19 — Building a hashring from any configuration terminates: it produces a
   usable ring or reports an error; it never hangs.
   Property theorems only (closed by [exact] of lemmas from Proofs/C19.v,
   Proofs/C19_Balanced.v and Lib/Hashring_KetamaFacts.v). The model is the shared ketama model
   (Lib/Hashring_Ketama.v); [ketama_new_src] is the constructor with the
   lap-detection exit present or absent as READ FROM THE SOURCE on this run
   (Gen/C19.v). Section hashes (xxhash) are arbitrary data of the statements. *)
From Coq Require Import ZArith List Bool Arith.
Import ListNotations.
From Verif Require Import Lib.Corr Lib.Hashring_Ketama Lib.Hashring_KetamaFacts Gen.C19 Model.C19 Proofs.C19 Proofs.C19_Balanced.
Close Scope Z_scope.

(* Termination of the replica walk for EVERY ring (any order of sections, any
   hash collisions), every zone set and replication factor: the loop of the
   source (with its lap counter) ends with rf replicas or with the error within
   (rf+1)*(|ring|+1)+1 iterations; the iteration budget is never exhausted. *)
Theorem C19_walk_terminates : forall ring rf azs i,
  walk true (walk_fuel ring rf) ring rf i 0 [] (spread_init azs) <> OutOfFuel.
Proof. exact (fun ring rf azs i => walk_fuel_suffices ring rf i (spread_init azs)). Qed.
Print Assumptions C19_walk_terminates.

(* The constructor as the source has it now, on every endpoint list (any zone
   layout, any number of sections per node, any hashes) and every replication
   factor: it returns an error or a ring, and a returned ring satisfies the
   boolean predicate that the check evaluates on the implementation's output. *)
Theorem C19_total : forall eps rf,
  ketama_new_src eps rf = KErr \/
  exists ring reps, ketama_new_src eps rf = KOk ring reps /\
    pred_ok (CKetama false eps rf (OOk (combine (map (fun s => (s_hash s, s_ep s)) ring) reps))) = true.
Proof. exact src_total. Qed.
Print Assumptions C19_total.

(* Readable form of "usable": the ring is the hash-sorted list of all
   sections, there is one replica list per section, and each holds exactly rf
   pairwise distinct valid endpoint indexes — GetN(n) is answerable for n < rf. *)
Theorem C19_ring_usable : forall eps rf ring reps,
  ketama_new_src eps rf = KOk ring reps ->
  ring = sort_sections (sections_of 0 eps) /\ rf <= length eps /\
  length reps = length ring /\
  Forall (fun r => length r = rf /\ NoDup r /\ forall e, In e r -> e < length eps) reps.
Proof. exact src_ring_usable. Qed.
Print Assumptions C19_ring_usable.

(* The repair rejects nothing that used to work: with enough endpoints, the
   error is reported exactly on configurations on which the loop WITHOUT the
   lap counter (the code before the repair) runs forever — no iteration budget
   is enough for it. *)
Theorem C19_error_only_where_original_spins : forall eps rf,
  rf <= length eps -> ketama_new_src eps rf = KErr ->
  forall fuel, ketama_new_fuel false fuel eps rf = KFuel.
Proof. exact src_error_only_where_original_spins. Qed.
Print Assumptions C19_error_only_where_original_spins.

(* ... and where the repaired loop finishes, the original one computes the same replicas. *)
Theorem C19_repair_conservative : forall ring rf fuel0 fuel i sp out,
  walk true fuel0 ring rf i 0 [] sp = Done out ->
  walk false fuel ring rf i 0 [] sp = Done out \/ walk false fuel ring rf i 0 [] sp = OutOfFuel.
Proof. exact (fun ring rf fuel0 fuel i sp out => walk_done_agree ring rf fuel0 fuel i 0 [] sp out). Qed.
Print Assumptions C19_repair_conservative.

(* The observed defect: zones A:{a1}, B:{b1,b2,b3} (real xxhash values, one
   section per node), replication factor 4. The source now reports an error;
   the loop without the lap counter never terminates on it. *)
Theorem C19_unbalanced_layout : 
  ketama_new_src eps_unbalanced 4 = KErr /\
  forall fuel, ketama_new_fuel false fuel eps_unbalanced 4 = KFuel.
Proof. exact src_unbalanced_layout. Qed.
Print Assumptions C19_unbalanced_layout.

(* Without zones, or with a single zone, every configuration with
   rf <= #endpoints (each owning at least one section) yields a ring. *)
Theorem C19_single_zone_always_builds : forall eps rf,
  length (az_set [] eps) <= 1 -> rf <= length eps -> Forall (fun e => snd e <> []) eps ->
  exists ring reps, ketama_new_src eps rf = KOk ring reps.
Proof. exact src_single_zone. Qed.
Print Assumptions C19_single_zone_always_builds.

(* With several zones: if every zone can hold its share of the replicas
   (rf <= zones * |zone|, i.e. |zone| >= ceil(rf / zones), for every zone), every
   endpoint owns a section and rf <= #endpoints, the constructor yields a ring —
   whatever the section hashes are. The layouts on which the walk gets stuck are
   therefore exactly among those where some zone is too small for its share. *)
Theorem C19_balanced_zones_always_build : forall eps rf,
  Forall (fun e => snd e <> []) eps -> rf <= length eps ->
  (Z.of_nat rf <= MaxInt64)%Z ->
  (forall a, In a (az_set [] eps) -> rf <= length (az_set [] eps) * length (zone_members eps a)) ->
  exists ring reps, ketama_new_src eps rf = KOk ring reps.
Proof. exact src_balanced_zones. Qed.
Print Assumptions C19_balanced_zones_always_build.

(* Non-vacuity: a two-zone layout 2+2 with three sections per node and rf = 3
   builds a ring (corpus/C19/balanced-2x2-rf3.json); the hypotheses of the
   single-zone theorem hold of a three-node ring. *)
Example C19_nonvacuous :
  (exists ring reps, ketama_new_src
     [(0, [17435437932079402853; 13562102443147507239; 1669017779664615285]);
      (1, [17927577647030366782; 742117387956019904; 17119174355089869588]);
      (0, [4357014088305159996; 10271613861235621930; 13480071174685583505]);
      (1, [2009852540237172958; 5017795776030357180; 15279010018270936816])]%Z 3 = KOk ring reps
     /\ length ring = 12)
  /\ (length (az_set [] [(7, [5]); (7, [9]); (7, [1])]%Z) <= 1 /\ 2 <= 3).
Proof.
  split.
  - eexists. eexists. split; [vm_compute; reflexivity|reflexivity].
  - vm_compute. split; repeat constructor.
Qed.

(* Non-vacuity of the several-zones theorem: two zones with two endpoints each, rf = 3. *)
Example C19_balanced_nonvacuous :
  let eps := [(0, [5; 11]); (1, [3; 9]); (0, [7; 2]); (1, [8; 1])]%Z in
  Forall (fun e => snd e <> []) eps /\ 3 <= length eps /\ (Z.of_nat 3 <= MaxInt64)%Z /\
  (forall a, In a (az_set [] eps) -> 3 <= length (az_set [] eps) * length (zone_members eps a)).
Proof.
  split; [repeat constructor; discriminate|]. split; [vm_compute; repeat constructor|].
  split; [vm_compute; discriminate|].
  intros a Ha. vm_compute in Ha. destruct Ha as [<-|[<-|[]]]; vm_compute; repeat constructor.
Qed.

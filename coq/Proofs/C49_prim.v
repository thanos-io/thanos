(* C49 — Coq's primitive binary64 evaluation of jumpHash's float expression
   ([nextj_prim], which the check uses to re-compute every oracle value) equals
   its IEEE-754 reading over Flocq's rounding ([nextj_ieee], for which
   b < nextj b key is proved). Uses Flocq's bridge between primitive floats and
   binary_float, hence the specification axioms of Coq's primitive integers and
   floats (Uint63 / FloatAxioms) and the classical reals. *)
From Coq Require Import ZArith Reals Lia Lra Floats Uint63.
From Flocq Require Import Core BinarySingleNaN.
From Flocq Require IEEE754.PrimFloat.
From Verif Require Import Model.C49 Proofs.C49_ieee.
Module FP := Flocq.IEEE754.PrimFloat.
Open Scope Z_scope.

Notation bf := (binary_float prec emax).
Notation Hprec := FP.Hprec.
Notation Hmax := FP.Hmax.

#[local] Instance prec53' : Prec_gt_0 53.
Proof. unfold Prec_gt_0. lia. Qed.
#[local] Instance valid64 : Valid_exp fexp64.
Proof. unfold fexp64. typeclasses eauto. Qed.

#[local] Existing Instance FP.Hprec.
#[local] Existing Instance FP.Hmax.

Lemma fexp_eq : fexp prec emax = fexp64.
Proof. reflexivity. Qed.

Lemma rnd_eq x : round radix2 (fexp prec emax) (round_mode mode_NE) x = rnd64 x.
Proof. reflexivity. Qed.

Lemma bpow_emax_big (x : R) : (Rabs x <= IZR (2 ^ 84))%R -> (Rabs x < bpow radix2 emax)%R.
Proof.
  intro H. eapply Rle_lt_trans; [exact H|].
  change (2 ^ 84) with (Zpower radix2 84). rewrite IZR_Zpower by lia. apply bpow_lt. reflexivity.
Qed.

Lemma of_Z_exact n :
  0 <= n < 2 ^ 53 ->
  B2R (FP.Prim2B (f_of_Z n)) = IZR n /\ is_finite (FP.Prim2B (f_of_Z n)) = true.
Proof.
  intro Hn. unfold f_of_Z. rewrite FP.of_int63_equiv.
  rewrite Uint63.of_Z_spec. rewrite Z.mod_small by (unfold wB; simpl; lia).
  pose proof (binary_normalize_correct prec emax Hprec Hmax mode_NE n 0 false) as H.
  cbv zeta in H.
  assert (Hx : F2R (Float radix2 n 0) = IZR n) by (unfold F2R; simpl; lra).
  rewrite Hx, rnd_eq, rnd64_int in H by lia. rewrite Rlt_bool_true in H.
  - destruct H as [H1 [H2 _]]. split; assumption.
  - apply bpow_emax_big. rewrite Rabs_pos_eq by (apply IZR_le; lia). apply IZR_le. lia.
Qed.

Lemma div_exact (x y : bf) d :
  1 <= d <= 2 ^ 31 ->
  B2R x = IZR (2 ^ 31) -> is_finite x = true -> B2R y = IZR d -> is_finite y = true ->
  B2R (Bdiv mode_NE x y) = rnd64 (IZR (2 ^ 31) / IZR d) /\ is_finite (Bdiv mode_NE x y) = true.
Proof.
  intros Hd Hx Fx Hy Fy. pose proof (quot_bounds d Hd) as Hb.
  pose proof (Bdiv_correct prec emax Hprec Hmax mode_NE x y) as H.
  rewrite Hx, Hy, rnd_eq in H. specialize (H ltac:(apply not_0_IZR; lia)).
  rewrite Rlt_bool_true in H.
  - destruct H as [H1 [H2 _]]. rewrite H2, Fx. auto.
  - apply bpow_emax_big. rewrite Rabs_pos_eq by lra.
    eapply Rle_trans; [apply Hb|]. apply IZR_le. lia.
Qed.

Lemma mul_exact (x y : bf) n (q : R) :
  1 <= n <= 2 ^ 53 -> (1 <= q <= IZR (2 ^ 31))%R ->
  B2R x = IZR n -> is_finite x = true -> B2R y = q -> is_finite y = true ->
  B2R (Bmult mode_NE x y) = rnd64 (IZR n * q).
Proof.
  intros Hn Hq Hx Fx Hy Fy.
  pose proof (Bmult_correct prec emax Hprec Hmax mode_NE x y) as H.
  rewrite Hx, Hy, rnd_eq in H. rewrite Rlt_bool_true in H; [apply H|]. apply bpow_emax_big.
  assert (Hn0 : (1 <= IZR n <= IZR (2 ^ 53))%R) by (split; apply IZR_le; lia).
  destruct (rnd64_between 0 (IZR (2 ^ 84)) (IZR n * q)) as [B0 B1];
    [apply (rnd64_int 0); simpl; lia | apply rnd64_pow2; lia | | rewrite Rabs_pos_eq; assumption].
  change (2 ^ 84) with (2 ^ 53 * 2 ^ 31). rewrite mult_IZR.
  split; [apply Rmult_le_pos | apply Rmult_le_compat]; lra.
Qed.

Definition trunc_sf (f : spec_float) : Z :=
  match f with
  | S754_finite false m e => if 0 <=? e then Z.pos m * 2 ^ e else Z.pos m / 2 ^ (- e)
  | S754_finite true m e => if 0 <=? e then - (Z.pos m * 2 ^ e) else - (Z.pos m / 2 ^ (- e))
  | _ => 0
  end.

Lemma trunc_pos m e : Ztrunc (F2R (Float radix2 (Z.pos m) e)) = if 0 <=? e then Z.pos m * 2 ^ e else Z.pos m / 2 ^ (- e).
Proof.
  destruct (0 <=? e) eqn:E.
  - apply Z.leb_le in E. unfold F2R. cbn [Fnum Fexp]. rewrite <- IZR_Zpower by exact E.
    change (Zpower radix2 e) with (2 ^ e). rewrite <- mult_IZR. rewrite Ztrunc_IZR. reflexivity.
  - apply Z.leb_gt in E. unfold F2R. cbn [Fnum Fexp].
    assert (Hb : bpow radix2 e = (/ IZR (2 ^ (- e)))%R).
    { rewrite <- (Z.opp_involutive e) at 1. rewrite bpow_opp. f_equal.
      change (2 ^ (- e)) with (Zpower radix2 (- e)). rewrite IZR_Zpower by lia. reflexivity. }
    rewrite Hb. fold (Rdiv (IZR (Z.pos m)) (IZR (2 ^ (- e)))).
    assert (Hp : 0 < 2 ^ (- e)) by (apply Z.pow_pos_nonneg; lia).
    rewrite Ztrunc_floor.
    + apply Zfloor_div. lia.
    + apply Rmult_le_pos; [apply IZR_le; lia|]. apply Rlt_le, Rinv_0_lt_compat, IZR_lt. exact Hp.
Qed.

Lemma trunc_sf_correct (z : bf) : trunc_sf (B2SF z) = Ztrunc (B2R z).
Proof.
  destruct z as [s|s| |s m e H]; simpl; try (rewrite Ztrunc_IZR; reflexivity).
  destruct s; simpl.
  - change (Z.neg m) with (- Z.pos m). rewrite F2R_Zopp, Ztrunc_opp, trunc_pos. destruct (0 <=? e); reflexivity.
  - apply eq_sym, trunc_pos.
Qed.

Lemma trunc_f_correct f : trunc_f f = Ztrunc (B2R (FP.Prim2B f)).
Proof. rewrite <- trunc_sf_correct, FP.B2SF_Prim2B. reflexivity. Qed.

Theorem nextj_prim_ieee b key :
  0 <= b < 2 ^ 53 - 1 -> 0 <= key < two64 -> nextj_prim b key = nextj_ieee b key.
Proof.
  intros Hb Hk. unfold nextj_prim, nextj_ieee.
  change 8589934592 with (2 ^ 33). change 2147483648 with (2 ^ 31).
  pose proof (shifted_key_range key Hk) as Hd. set (d := key / 2 ^ 33 + 1) in *.
  rewrite trunc_f_correct, FP.mul_equiv, FP.div_equiv.
  destruct (of_Z_exact (b + 1) ltac:(lia)) as [B1 B2].
  destruct (of_Z_exact (2 ^ 31) ltac:(lia)) as [P1 P2].
  destruct (of_Z_exact d ltac:(lia)) as [D1 D2].
  destruct (div_exact _ _ d Hd P1 P2 D1 D2) as [Q1 Q2].
  rewrite (mul_exact _ _ (b + 1) _ ltac:(lia) (quot_bounds d Hd) B1 B2 Q1 Q2). reflexivity.
Qed.

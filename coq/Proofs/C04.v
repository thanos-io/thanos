(* C04 — the read-path model of Model/C04.v: strictly increasing streams and
   their subsequences; the iterator tree (bounded leaves under left-nested
   penalty iterators) is a list iterator and its fuel suffices; the chunk
   iterator over non-overlapping cuts; Select on a single series; the overlap
   split partitions every chunk list.
   Model/C04.v is C04's own model of pkg/dedup/iter.go, a Next/Seek state
   machine for arbitrarily nested replicas with its own [drop_lt]; Lib/Dedup_*
   is about the other model of that file (Lib/Dedup_Iter.v, for C01/C02/C40),
   and [sub] below is Lib/Compact_List.sublist on samples. *)
From Coq Require Import ZArith List Bool NArith Lia Sorting.Sorted Permutation.
Import ListNotations.
From Verif Require Import Lib.Corr Lib.ListFacts Gen.C04 Model.C04.
Open Scope Z_scope.

Definition lt_s (x y : sample) : Prop := fst x < fst y.
Definition SS (l : list sample) : Prop := StronglySorted lt_s l.

Inductive sub : list sample -> list sample -> Prop :=
| sub_nil : forall l, sub [] l
| sub_skip : forall x l1 l2, sub l1 l2 -> sub l1 (x :: l2)
| sub_take : forall x l1 l2, sub l1 l2 -> sub (x :: l1) (x :: l2).

Lemma sub_refl l : sub l l.
Proof. induction l; [apply sub_nil | apply sub_take; assumption]. Qed.

Lemma sub_nil_r B : sub B [] -> B = [].
Proof. inversion 1; reflexivity. Qed.

Lemma sub_in B A y : sub B A -> In y B -> In y A.
Proof.
  induction 1; simpl; intros Hin; auto.
  - contradiction.
  - destruct Hin; auto.
Qed.

Lemma sub_Forall (P : sample -> Prop) B A : sub B A -> Forall P A -> Forall P B.
Proof.
  induction 1 as [|x B A _ IH|x B A _ IH]; intros HF; [constructor|apply IH, (Forall_inv_tail HF)|].
  constructor; [apply (Forall_inv HF) | apply IH, (Forall_inv_tail HF)].
Qed.

Lemma sub_length B A : sub B A -> (length B <= length A)%nat.
Proof. induction 1; simpl; lia. Qed.

Lemma sub_trans A B C : sub A B -> sub B C -> sub A C.
Proof.
  intros H1 H2. revert A H1. induction H2; intros A H1.
  - apply sub_nil_r in H1. subst. apply sub_nil.
  - apply sub_skip. auto.
  - inversion H1; subst; [apply sub_nil | apply sub_skip; auto | apply sub_take; auto].
Qed.

Lemma SS_inv x l : SS (x :: l) -> SS l /\ Forall (lt_s x) l.
Proof. apply StronglySorted_inv. Qed.

Lemma SS_tail_gt x l : SS (x :: l) -> forall y, In y l -> fst x < fst y.
Proof. intros HS. apply SS_inv in HS as [_ HF]. rewrite Forall_forall in HF. exact HF. Qed.

Lemma SS_sub B A : sub B A -> SS A -> SS B.
Proof.
  induction 1; intros HS.
  - constructor.
  - apply SS_inv in HS as [HS _]. auto.
  - apply SS_inv in HS as [HS HF]. apply SSorted_cons; [apply IHsub, HS | eapply sub_Forall; eassumption].
Qed.

Lemma SS_app_iff l1 l2 :
  SS (l1 ++ l2) <-> SS l1 /\ SS l2 /\ (forall a b, In a l1 -> In b l2 -> fst a < fst b).
Proof.
  split; [apply StronglySorted_app_inv | intros (H1 & H2 & H3); apply StronglySorted_app; assumption].
Qed.

Lemma drop_lt_sub t B : sub (drop_lt t B) B.
Proof.
  induction B as [|y B IH]; simpl; [constructor|].
  destruct (fst y <? t); [apply sub_skip; exact IH | apply sub_refl].
Qed.

Lemma drop_lt_SS t l : SS l -> SS (drop_lt t l).
Proof. apply SS_sub, drop_lt_sub. Qed.

Lemma drop_lt_keep thr l : match l with [] => True | y :: _ => thr <= fst y end -> drop_lt thr l = l.
Proof. destruct l as [|y r]; simpl; auto. intros H. destruct (fst y <? thr) eqn:E; [lia|reflexivity]. Qed.

Lemma drop_lt_lt t x R : fst x < t -> drop_lt t (x :: R) = drop_lt t R.
Proof. intros H. simpl. destruct (fst x <? t) eqn:E; [reflexivity|lia]. Qed.

Lemma drop_lt_head_ge thr l y r : drop_lt thr l = y :: r -> thr <= fst y.
Proof.
  induction l as [|w l IH]; simpl; [discriminate|].
  destruct (fst w <? thr) eqn:E; [exact IH|]. intros H. injection H as -> _. lia.
Qed.

Lemma drop_lt_nil_iff t l : drop_lt t l = [] <-> Forall (fun y => fst y < t) l.
Proof.
  induction l as [|y l IH]; simpl; [split; auto|].
  destruct (fst y <? t) eqn:E.
  - split; [intros H; constructor; [lia | apply IH, H] | intros H; apply IH, (Forall_inv_tail H)].
  - split; [discriminate|]. intros H. apply Forall_inv in H. lia.
Qed.

Lemma drop_lt_next x A : SS (x :: A) -> drop_lt (fst x + 1) (x :: A) = A.
Proof.
  intros HS. rewrite drop_lt_lt by lia.
  apply drop_lt_keep. destruct A as [|y A]; auto.
  pose proof (SS_tail_gt _ _ HS y (or_introl eq_refl)). lia.
Qed.

Lemma drop_lt_drop_lt a b L : a <= b -> drop_lt b (drop_lt a L) = drop_lt b L.
Proof.
  intros Hab. induction L as [|y L IH]; simpl; [reflexivity|].
  destruct (fst y <? a) eqn:E; [|reflexivity].
  rewrite IH. destruct (fst y <? b) eqn:E2; [reflexivity|lia].
Qed.

Lemma drop_lt_max t m l : Forall (fun y => m <= fst y) l -> drop_lt (Z.max t m) l = drop_lt t l.
Proof.
  induction 1 as [|y l Hy _ IH]; simpl; [reflexivity|].
  destruct (fst y <? Z.max t m) eqn:E1, (fst y <? t) eqn:E2; (exact IH || reflexivity || lia).
Qed.

Lemma sub_drop_lt t B A : sub B A -> sub (drop_lt t B) (drop_lt t A).
Proof.
  induction 1 as [A|x B A H IH|x B A H IH]; simpl.
  - constructor.
  - destruct (fst x <? t); [exact IH|]. apply sub_skip. eapply sub_trans; [apply drop_lt_sub|exact H].
  - destruct (fst x <? t); [exact IH|]. apply sub_take, H.
Qed.

Lemma sub_head_ge z B y A : sub (z :: B) (y :: A) -> SS (y :: A) -> fst y <= fst z.
Proof.
  intros Hs HS. destruct (sub_in _ _ z Hs (or_introl eq_refl)) as [->|Hin]; [lia|].
  pose proof (SS_tail_gt _ _ HS _ Hin). lia.
Qed.

Lemma in_range_nil mint maxt l :
  (forall y, In y l -> fst y < mint \/ maxt < fst y) -> in_range mint maxt l = [].
Proof.
  intros H. apply filter_none. intros y Hy. apply andb_false_iff. rewrite !Z.leb_gt. auto.
Qed.

Lemma in_range_all mint maxt l :
  (forall y, In y l -> mint <= fst y <= maxt) -> in_range mint maxt l = l.
Proof.
  intros H. apply filter_all. intros y Hy. apply andb_true_iff. rewrite !Z.leb_le. auto.
Qed.

Lemma in_range_app mint maxt l1 l2 :
  in_range mint maxt (l1 ++ l2) = in_range mint maxt l1 ++ in_range mint maxt l2.
Proof. apply filter_app. Qed.

Lemma in_range_sub mint maxt l : sub (in_range mint maxt l) l.
Proof.
  induction l as [|y l IH]; simpl; [constructor|].
  destruct ((mint <=? fst y) && (fst y <=? maxt)); [apply sub_take | apply sub_skip]; assumption.
Qed.

Lemma sub_in_range mint maxt B A : sub B A -> sub (in_range mint maxt B) (in_range mint maxt A).
Proof.
  induction 1; simpl.
  - constructor.
  - destruct ((mint <=? fst x) && (fst x <=? maxt)); [apply sub_skip|]; assumption.
  - destruct ((mint <=? fst x) && (fst x <=? maxt)); [apply sub_take|]; assumption.
Qed.

Lemma in_range_drop_lt mint maxt l : in_range mint maxt (drop_lt mint l) = in_range mint maxt l.
Proof.
  induction l as [|y l IH]; simpl; [reflexivity|].
  destruct (fst y <? mint) eqn:E; [|reflexivity].
  rewrite IH. destruct (mint <=? fst y) eqn:E1; [lia|reflexivity].
Qed.

Section Bounds.
Variables mint maxt : Z.
Notation next := (next mint maxt).
Notation seek := (seek mint maxt).
Notation inr := (in_range mint maxt).

(* a stream as seen through the bounds: strictly increasing, inside [mint, maxt], above MinInt64 *)
Definition okstream (R : list sample) : Prop :=
  SS R /\ Forall (fun x => mint <= fst x <= maxt /\ MinT < fst x) R.

Lemma okstream_sub B A : sub B A -> okstream A -> okstream B.
Proof. intros Hs [HS HF]. split; [eapply SS_sub | eapply sub_Forall]; eauto. Qed.

(* the raw stream of a leaf: strictly increasing, above MinInt64 *)
Definition rawstream (l : list sample) : Prop := SS l /\ Forall (fun x => MinT < fst x) l.

Lemma rawstream_sub B A : sub B A -> rawstream A -> rawstream B.
Proof. intros Hs [HS HF]. split; [eapply SS_sub | eapply sub_Forall]; eauto. Qed.

Lemma okstream_inr l : rawstream l -> okstream (inr l).
Proof.
  intros [HS HF]. split; [eapply SS_sub; [apply in_range_sub|assumption]|].
  rewrite Forall_forall in *. intros y Hy. apply filter_In in Hy as [Hin Hc].
  apply andb_true_iff in Hc as [H1 H2]. specialize (HF _ Hin). lia.
Qed.

Lemma inr_cons_in x r : mint <= fst x <= maxt -> inr (x :: r) = x :: inr r.
Proof.
  intros H. simpl. destruct (mint <=? fst x) eqn:E1, (fst x <=? maxt) eqn:E2; try lia. reflexivity.
Qed.

Lemma inr_head_gt y r : rawstream (y :: r) -> maxt < fst y -> inr (y :: r) = [].
Proof.
  intros [HS _] H. apply in_range_nil. intros z [<-|Hz]; [lia|].
  pose proof (SS_tail_gt _ _ HS _ Hz). lia.
Qed.

Lemma inr_drop_lt t l : rawstream l -> inr (drop_lt t l) = drop_lt t (inr l).
Proof.
  induction l as [|y l IH]; intros Hraw; [reflexivity|].
  simpl drop_lt at 1. destruct (fst y <? t) eqn:E.
  - rewrite IH by (eapply rawstream_sub; [apply sub_skip, sub_refl|eassumption]).
    simpl in_range. destruct ((mint <=? fst y) && (fst y <=? maxt)); [|reflexivity].
    simpl. rewrite E. reflexivity.
  - (* everything from y on is >= t *)
    symmetry. apply drop_lt_keep.
    destruct (inr (y :: l)) as [|z r'] eqn:Ez; [exact I|].
    assert (Hin : In z (y :: l)) by (eapply sub_in; [apply (in_range_sub mint maxt)|]; rewrite Ez; left; reflexivity).
    destruct Hin as [<-|Hin]; [lia|]. pose proof (SS_tail_gt _ _ (proj1 Hraw) _ Hin). lia.
Qed.

(* [RepS m i R]: i is a started iterator, nested at most m deep, positioned on
   the head of the non-empty stream R, and behaves like a list iterator over
   R. The second input of a penalty iterator delivers a subsequence B of R. *)
Inductive RepS : nat -> it -> list sample -> Prop :=
| RepS_leaf : forall m x r,
    rawstream (x :: r) -> mint <= fst x <= maxt ->
    RepS m (Leaf true (x :: r)) (inr (x :: r))
| RepS_node : forall m a b pb x R B,
    RepS m a (x :: R) -> okstream (x :: R) -> 0 <= pb ->
    sub B (x :: R) -> (nonempty B = true -> RepS m b B) ->
    RepS (S m) (Node a b true (nonempty B) (fst x) true 0 pb true) (x :: R).

Lemma RepS_nonempty m i R : RepS m i R -> exists x R', R = x :: R' /\ atT i = fst x /\ at_ i = x /\ okstream R.
Proof.
  induction 1 as [m x r Hraw Hx | m a b pb x R B Ha IH Hok Hpb Hsub Hb _].
  - pose proof (okstream_inr _ Hraw) as Hok. rewrite inr_cons_in in * by assumption.
    exists x, (inr r). auto.
  - destruct IH as (x' & R' & E & Ht & Ha' & _). injection E as <- <-.
    exists x, R. repeat split; simpl; auto; apply Hok.
Qed.

(* a leaf that has skipped what lies below T >= mint: valid iff its head is not above maxt *)
Lemma leaf_rep m T l : rawstream l -> mint <= T ->
  match drop_lt T l with [] => false | y :: _ => fst y <=? maxt end = nonempty (inr (drop_lt T l))
  /\ (nonempty (inr (drop_lt T l)) = true -> RepS m (Leaf true (drop_lt T l)) (inr (drop_lt T l))).
Proof.
  intros Hraw HT. apply (rawstream_sub _ _ (drop_lt_sub T l)) in Hraw.
  destruct (drop_lt T l) as [|y r] eqn:E; [split; [reflexivity|discriminate]|].
  apply drop_lt_head_ge in E. destruct (fst y <=? maxt) eqn:E2.
  - split; [rewrite inr_cons_in by lia; reflexivity|]. intros _. constructor; [assumption|lia].
  - rewrite inr_head_gt by (auto; lia). split; [reflexivity|discriminate].
Qed.

(* boundedSeriesIterator.Next; [if s then tl l else l] is what the underlying
   iterator still holds after its own Next *)
Lemma next_leaf f m (s : bool) l : rawstream (if s then tl l else l) ->
  exists i', next (S f) (Leaf s l) = Some (i', nonempty (inr (if s then tl l else l)))
             /\ (nonempty (inr (if s then tl l else l)) = true -> RepS m i' (inr (if s then tl l else l))).
Proof.
  cbn [Model.C04.next]. generalize (if s then tl l else l). intros l1 Hraw.
  destruct l1 as [|x r]; [eexists; split; [reflexivity|discriminate]|].
  destruct (leaf_rep m mint (x :: r) Hraw (Z.le_refl _)) as [Hv Hr].
  rewrite in_range_drop_lt in Hv, Hr.
  destruct (fst x <? mint) eqn:E.
  - destruct (maxt <? mint) eqn:Em.
    + rewrite in_range_nil by (intros; lia). eexists. split; [reflexivity|discriminate].
    + rewrite <- Hv. destruct (drop_lt mint (x :: r)); eexists; split; eauto.
  - rewrite drop_lt_keep in Hv, Hr by (simpl; lia). rewrite <- Hv. eexists; split; eauto.
Qed.

(* boundedSeriesIterator.Seek *)
Lemma seek_leaf f m t x r : rawstream (x :: r) -> mint <= fst x <= maxt ->
  exists i', seek (S f) t (Leaf true (x :: r)) = Some (i', nonempty (drop_lt t (inr (x :: r))))
             /\ (nonempty (drop_lt t (inr (x :: r))) = true -> RepS m i' (drop_lt t (inr (x :: r)))).
Proof.
  intros Hraw Hx. cbn [Model.C04.seek]. destruct (okstream_inr _ Hraw) as [_ HF].
  destruct (maxt <? t) eqn:Et.
  - replace (drop_lt t (inr (x :: r))) with (@nil sample); [eexists; split; [reflexivity|discriminate]|].
    symmetry. apply drop_lt_nil_iff. eapply Forall_impl; [|exact HF]. intros; simpl in *; lia.
  - rewrite <- (drop_lt_max t mint) by (eapply Forall_impl; [|exact HF]; intros; simpl in *; lia).
    rewrite <- inr_drop_lt by assumption.
    destruct (leaf_rep m (Z.max t mint) (x :: r) Hraw (Z.le_max_r _ _)) as [<- Hr]. eexists; split; eauto.
Qed.

(* one unfolding of Next / Seek on a penalty iterator, as equations: cbn and
   simpl leave the sibling of a mutual fixpoint unfolded *)
Lemma next_Node f a b av bv lastT la pa pb ua :
  next (S f) (Node a b av bv lastT la pa pb ua) =
  match (if av then seek f (lastT + 1 + pa) a else Some (a, false)) with
  | None => None
  | Some (a', av') =>
    match (if bv then seek f (lastT + 1 + pb) b else Some (b, false)) with
    | None => None
    | Some (b', bv') =>
      if negb av' then
        if bv' then Some (Node a' b' av' bv' (atT b') false pa 0 false, true)
        else Some (Node a' b' av' bv' lastT la pa pb false, false)
      else if negb bv' then Some (Node a' b' av' bv' (atT a') true 0 pb true, true)
      else
        let ta := atT a' in
        let tb := atT b' in
        if ta <=? tb then
          Some (Node a' b' true true ta true 0 (if lastT =? MinT then initialPenalty else penaltyFactor * (ta - lastT)) true, true)
        else
          Some (Node a' b' true true tb false (if lastT =? MinT then initialPenalty else penaltyFactor * (tb - lastT)) 0 false, true)
    end
  end.
Proof. reflexivity. Qed.

Lemma seek_Node f t a b av bv lastT la pa pb ua :
  seek (S f) t (Node a b av bv lastT la pa pb ua) =
  let i := Node a b av bv lastT la pa pb ua in
  let again := match next f i with
               | None => None
               | Some (i', false) => Some (i', false)
               | Some (i', true) => seek f t i'
               end in
  if lastT =? MinT then again
  else
  let ts := atT i in
  if t <=? ts then
    if ua then
      match seek f ts a with
      | Some (a', v) => Some (Node a' b av bv lastT la pa pb ua, v)
      | None => None
      end
    else
      match seek f ts b with
      | Some (b', v) => Some (Node a b' av bv lastT la pa pb ua, v)
      | None => None
      end
  else again.
Proof. reflexivity. Qed.

Lemma pen_nonneg lastT t : lastT < t -> 0 <= (if lastT =? MinT then initialPenalty else penaltyFactor * (t - lastT)).
Proof.
  intros H. destruct (lastT =? MinT); [vm_compute; discriminate|].
  unfold penaltyFactor. lia.
Qed.

(* S m * (|R| + 2) units of fuel suffice for Seek at depth m: one level up,
   Seek calls Next once per sample it passes, and Next calls Seek one level down *)
Definition seek_ok (f : nat) : Prop :=
  forall m i R t, RepS m i R -> (S m * (length R + 2) <= f)%nat ->
    exists i', seek f t i = Some (i', nonempty (drop_lt t R))
               /\ (nonempty (drop_lt t R) = true -> RepS m i' (drop_lt t R)).

(* an input of a penalty iterator is sought only while it is valid *)
Lemma seek_input f m i t SA :
  seek_ok f -> (S m * (length SA + 2) <= f)%nat -> (nonempty SA = true -> RepS m i SA) ->
  exists i', (if nonempty SA then seek f t i else Some (i, false)) = Some (i', nonempty (drop_lt t SA))
             /\ (nonempty (drop_lt t SA) = true -> RepS m i' (drop_lt t SA)).
Proof.
  intros IHs Hf Hi. destruct SA; [exists i; split; [reflexivity|discriminate]|]. apply IHs; auto.
Qed.

(* dedupSeriesIterator.Next when the first input delivers SA and the second a
   subsequence SB of it: both are sought past lastT, the second further by its
   penalty, so what it finds is still a subsequence of what the first finds;
   the first input has the smaller timestamp or wins the tie, every time. *)
Lemma next_node f m a b lastT pb SA SB :
  seek_ok f -> (S m * (length SA + 2) <= f)%nat ->
  okstream SA -> sub SB SA -> 0 <= pb ->
  (nonempty SA = true -> RepS m a SA) -> (nonempty SB = true -> RepS m b SB) ->
  exists i', next (S f) (Node a b (nonempty SA) (nonempty SB) lastT true 0 pb true)
             = Some (i', nonempty (drop_lt (lastT + 1) SA))
             /\ (nonempty (drop_lt (lastT + 1) SA) = true -> RepS (S m) i' (drop_lt (lastT + 1) SA)).
Proof.
  intros IHs Hf Hok Hsub Hpb Ha Hb. rewrite next_Node, Z.add_0_r.
  assert (HsubB : sub (drop_lt (lastT + 1 + pb) SB) (drop_lt (lastT + 1) SA)).
  { rewrite <- (drop_lt_drop_lt (lastT + 1) (lastT + 1 + pb) SB) by lia.
    eapply sub_trans; [apply drop_lt_sub | apply sub_drop_lt, Hsub]. }
  assert (HokR : okstream (drop_lt (lastT + 1) SA)) by (eapply okstream_sub; [apply drop_lt_sub|exact Hok]).
  destruct (seek_input f m a (lastT + 1) SA IHs Hf Ha) as (a' & -> & Ha').
  destruct (seek_input f m b (lastT + 1 + pb) SB IHs) as (b' & -> & Hb'); [|exact Hb|].
  { pose proof (Nat.mul_le_mono_l _ _ (S m) (sub_length _ _ Hsub)). lia. }
  remember (drop_lt (lastT + 1) SA) as R eqn:ER. remember (drop_lt (lastT + 1 + pb) SB) as B eqn:EB.
  destruct R as [|y R].
  - (* the first input is exhausted: so is the second *)
    apply sub_nil_r in HsubB. rewrite HsubB. eexists. split; [reflexivity|discriminate].
  - specialize (Ha' eq_refl). symmetry in ER. apply drop_lt_head_ge in ER.
    destruct (RepS_nonempty _ _ _ Ha') as (? & ? & E & HaT & _). injection E as <- <-.
    destruct B as [|z B]; cbn [nonempty negb].
    + rewrite HaT. eexists. split; [reflexivity|]. intros _.
      apply (RepS_node m a' b' pb y R []); auto using sub_nil.
    + specialize (Hb' eq_refl).
      destruct (RepS_nonempty _ _ _ Hb') as (? & ? & E & HbT & _). injection E as <- <-.
      pose proof (sub_head_ge _ _ _ _ HsubB (proj1 HokR)) as Hge.
      rewrite HaT, HbT. destruct (fst y <=? fst z) eqn:El; [|lia].
      eexists. split; [reflexivity|]. intros _.
      apply (RepS_node m a' b' _ y R (z :: B)); auto. apply pen_nonneg. lia.
Qed.

Lemma step_started : forall f,
  (forall m i R, RepS m i R -> (m * (length R + 2) + 1 <= f)%nat ->
     exists i', next f i = Some (i', nonempty (tl R)) /\ (nonempty (tl R) = true -> RepS m i' (tl R)))
  /\ seek_ok f.
Proof.
  induction f as [|f [IHn IHs]]; [split; [intros; lia | intros m i R t _ H; simpl in H; lia]|].
  split.
  - intros m i R HR Hf. destruct HR as [m x r Hraw Hx | m a b pb x R B Ha Hok Hpb Hsub Hb].
    + rewrite inr_cons_in by assumption.
      apply (next_leaf f m true (x :: r)). eapply rawstream_sub; [apply sub_skip, sub_refl|exact Hraw].
    + pose proof (next_node f m a b (fst x) pb (x :: R) B IHs ltac:(lia) Hok Hsub Hpb (fun _ => Ha) Hb) as H.
      rewrite (drop_lt_next x R (proj1 Hok)) in H. exact H.
  - intros m i R t HR Hf. pose proof HR as HR'.
    destruct HR as [m x r Hraw Hx | m a b pb x R B Ha Hok Hpb Hsub Hb].
    + apply seek_leaf; assumption.
    + rewrite seek_Node. cbv zeta.
      replace (fst x =? MinT) with false
        by (symmetry; apply Z.eqb_neq; destruct Hok as [_ HF]; apply Forall_inv in HF; lia).
      destruct (RepS_nonempty _ _ _ Ha) as (? & ? & E & HaT & _). injection E as <- <-.
      cbn [atT]. rewrite HaT. cbn [length] in Hf.
      destruct (t <=? fst x) eqn:Et.
      * destruct (IHs m a (x :: R) (fst x) Ha) as (a' & -> & Ha'); [cbn [length]; lia|].
        rewrite (drop_lt_keep (fst x)) in Ha' |- * by (simpl; lia). rewrite (drop_lt_keep t) by (simpl; lia).
        eexists. split; [reflexivity|]. intros _. constructor; auto.
      * destruct (IHn _ _ _ HR') as (i1 & -> & Hi1); [cbn [length]; lia|].
        rewrite drop_lt_lt by lia. cbn [tl] in *.
        destruct R as [|y R]; [eexists; split; [reflexivity|discriminate]|].
        apply IHs; [apply Hi1; reflexivity|]. cbn [length] in *. lia.
Qed.

Inductive RepU : nat -> it -> list sample -> Prop :=
| RepU_leaf : forall m l, rawstream l -> RepU m (Leaf false l) (inr l)
| RepU_node : forall m a b SA SB,
    okstream SA -> sub SB SA ->
    (nonempty SA = true -> RepS m a SA) -> (nonempty SB = true -> RepS m b SB) ->
    RepU (S m) (Node a b (nonempty SA) (nonempty SB) MinT true 0 0 true) SA.

Lemma nonempty_true {A} (l : list A) : nonempty l = true -> l <> [].
Proof. destruct l; [discriminate|congruence]. Qed.

Lemma RepU_okstream m i SA : RepU m i SA -> okstream SA.
Proof. destruct 1; auto. apply okstream_inr. assumption. Qed.

Lemma next_unstarted f m i SA :
  RepU m i SA -> (m * (length SA + 2) + 1 <= f)%nat ->
  exists i', next f i = Some (i', nonempty SA) /\ (nonempty SA = true -> RepS m i' SA).
Proof.
  intros HU Hf. destruct f as [|f]; [lia|].
  destruct HU as [m l Hraw | m a b SA SB Hok Hsub Ha Hb].
  - apply (next_leaf f m false l Hraw).
  - pose proof (next_node f m a b MinT 0 SA SB (proj2 (step_started f)) ltac:(lia) Hok Hsub (Z.le_refl 0) Ha Hb) as H.
    rewrite drop_lt_keep in H; [exact H|].
    destruct Hok as [_ HF]. destruct HF as [|y ? Hy _]; [exact I|lia].
Qed.

Lemma mk_node_rep f m a b SA SB :
  RepU m a SA -> RepU m b SB -> sub SB SA -> (m * (length SA + 2) + 1 <= f)%nat ->
  exists n, mk_node mint maxt f a b = Some n /\ RepU (S m) n SA.
Proof.
  intros Ha Hb Hsub Hf. unfold mk_node.
  destruct (next_unstarted f m a SA Ha Hf) as (a' & -> & Ha').
  destruct (next_unstarted f m b SB Hb) as (b' & -> & Hb').
  { pose proof (Nat.mul_le_mono_l _ _ m (sub_length _ _ Hsub)). lia. }
  eexists. split; [reflexivity|]. constructor; eauto using RepU_okstream.
Qed.

Lemma build_rep f : forall ws m acc SA,
  RepU m acc SA ->
  Forall (fun w => rawstream w /\ sub (inr w) SA) ws ->
  ((m + length ws) * (length SA + 2) + 1 <= f)%nat ->
  exists i, build mint maxt f acc ws = Some i /\ RepU (m + length ws) i SA.
Proof.
  induction ws as [|w ws IH]; intros m acc SA Hacc HF Hf; cbn [build length] in *.
  - exists acc. rewrite Nat.add_0_r. auto.
  - inversion HF as [|? ? [Hraw Hsub] HF']; subst.
    destruct (mk_node_rep f m acc (Leaf false w) SA (inr w) Hacc (RepU_leaf m w Hraw) Hsub) as (n & -> & Hn); [lia|].
    rewrite Nat.add_succ_r. apply (IH (S m)); [assumption|assumption|lia].
Qed.

Lemma drain_started f : forall n m i R,
  RepS m i R -> (length R <= n)%nat -> (m * (length R + 2) + 1 <= f)%nat ->
  drain mint maxt f n i = Some (tl R).
Proof.
  induction n as [|n IH]; intros m i R HR Hn Hf;
    destruct (RepS_nonempty _ _ _ HR) as (x & R' & -> & _); cbn [length] in *; [lia|].
  cbn [drain]. destruct (proj1 (step_started f) m i _ HR Hf) as (i' & -> & Hi'). cbn [tl] in *.
  destruct R' as [|y R']; [reflexivity|]. specialize (Hi' eq_refl). cbn [nonempty length] in *.
  rewrite (IH m i' _ Hi') by (cbn [length]; lia).
  destruct (RepS_nonempty _ _ _ Hi') as (? & ? & E & _ & -> & _). injection E as <- <-. reflexivity.
Qed.

Lemma drain_unstarted f n m i SA :
  RepU m i SA -> (length SA < n)%nat -> (m * (length SA + 2) + 1 <= f)%nat ->
  drain mint maxt f n i = Some SA.
Proof.
  intros HU Hn Hf. destruct n as [|n]; [lia|]. cbn [drain].
  destruct (next_unstarted f m i SA HU Hf) as (i' & -> & Hi').
  destruct SA as [|x R]; [reflexivity|]. specialize (Hi' eq_refl). cbn [nonempty].
  rewrite (drain_started f n m i' _ Hi') by (cbn [length] in *; lia).
  destruct (RepS_nonempty _ _ _ Hi') as (? & ? & E & _ & -> & _). injection E as <- <-. reflexivity.
Qed.

(* The penalty algorithm on a complete first stream and partial other streams:
   whenever the first (pseudo-)replica holds a strictly increasing stream w0 and
   every other one holds a subsequence of it, the fuel chosen by the model
   suffices and the deduplicated series is exactly w0 restricted to [mint, maxt]. *)
Theorem series_samples_total w0 ws :
  rawstream w0 -> Forall (fun w => sub w w0) ws ->
  series_samples mint maxt (w0 :: ws) = Some (inr w0).
Proof.
  intros Hraw HF. unfold series_samples.
  assert (Hl : (length (inr w0) <= total (w0 :: ws))%nat).
  { pose proof (sub_length _ _ (in_range_sub mint maxt w0)). simpl. lia. }
  pose proof (Nat.mul_le_mono_l _ _ (length ws) Hl) as Hmul.
  destruct (build_rep (fuel_of (w0 :: ws)) ws 0 (Leaf false w0) (inr w0)) as (i & -> & Hi).
  - constructor. assumption.
  - eapply Forall_impl; [|exact HF]. intros w Hw.
    split; [exact (rawstream_sub _ _ Hw Hraw) | apply sub_in_range, Hw].
  - unfold fuel_of. cbn [length]. lia.
  - apply (drain_unstarted _ _ _ _ _ Hi); [lia|]. unfold fuel_of. cbn [length]. lia.
Qed.
End Bounds.

Lemma last_t_app d l : forall x, last_t d (l ++ [x]) = fst x.
Proof. revert d. induction l as [|y l IH]; simpl; intros d x; [reflexivity|apply IH]. Qed.

Lemma last_t_mem : forall c x, exists y, In y (x :: c) /\ fst y = last_t (fst x) c.
Proof.
  induction c as [|z c IH]; intros x; simpl.
  - exists x. auto.
  - destruct (IH z) as (y & Hy & E). exists y. split; [right; exact Hy|exact E].
Qed.

Lemma drop_lt_last t : forall c x y d, drop_lt t (x :: c) = y :: d -> last_t (fst y) d = last_t (fst x) c.
Proof.
  induction c as [|z c IH]; intros x y d H; simpl in H.
  - destruct (fst x <? t); [discriminate|]. injection H as <- <-. reflexivity.
  - destruct (fst x <? t).
    + simpl. apply (IH z y d). exact H.
    + injection H as <- <-. reflexivity.
Qed.

Lemma chunk_iter_concat : forall cs thr,
  SS (concat cs) -> Forall (fun c => c <> []) cs ->
  (forall y, In y (concat cs) -> thr <= fst y) ->
  chunk_iter_from thr cs = concat cs.
Proof.
  induction cs as [|c cs IH]; simpl; intros thr HS HN Hthr; [reflexivity|].
  inversion HN as [|? ? Hc HN']; subst.
  destruct c as [|x c]; [congruence|].
  rewrite drop_lt_keep by (cbv beta iota; apply Hthr; left; reflexivity).
  apply SS_app_iff in HS as (H1 & H2 & H3).
  rewrite <- !app_comm_cons. do 2 f_equal.
  apply IH; auto.
  intros y Hy. destruct (last_t_mem c x) as (z & Hz & E).
  specialize (H3 z y Hz Hy). lia.
Qed.

(* a replica whose chunks are consecutive non-empty pieces of its strictly
   increasing samples L: the chunk iterator yields L *)
Lemma chunk_iter_cuts cs L :
  concat (map csamples cs) = L -> Forall (fun c => csamples c <> []) cs ->
  SS L -> Forall (fun x => MinT < fst x) L ->
  chunk_iter cs = L.
Proof.
  intros <- HN HS HM. apply chunk_iter_concat; [assumption| |].
  - apply Forall_map. exact HN.
  - rewrite Forall_forall in HM. intros y Hy. specialize (HM _ Hy). lia.
Qed.

Lemma str_eqb_refl s : str_eqb s s = true.
Proof. exact (bytes_eqb_refl s). Qed.

Lemma labels_eqb_refl ls : labels_eqb ls ls = true.
Proof.
  apply list_eqb_refl. intros [a b]. unfold label_eqb. rewrite !str_eqb_refl. reflexivity.
Qed.

Lemma sample_eqb_iff x y : sample_eqb x y = true <-> x = y.
Proof.
  destruct x, y. unfold sample_eqb. simpl. rewrite andb_true_iff, !Z.eqb_eq.
  split; [intros [-> ->]; reflexivity | intros E; injection E; auto].
Qed.

Lemma samples_eqb_iff a b : samples_eqb a b = true <-> a = b.
Proof. apply list_eqb_spec, sample_eqb_iff. Qed.

(* a run of sub-series with the same labels, followed by other labels, is one group *)
Lemma group_adj_block ls : forall ws w0 rest,
  match group_adj rest with (ls', _) :: _ => labels_eqb ls ls' = false | [] => True end ->
  group_adj (map (fun w => (ls, w)) (w0 :: ws) ++ rest) = (ls, w0 :: ws) :: group_adj rest.
Proof.
  induction ws as [|w ws IH]; intros w0 rest H.
  - cbn [map app group_adj]. destruct (group_adj rest) as [|[ls' ws'] gs]; [reflexivity|].
    rewrite H. reflexivity.
  - change (map (fun w1 => (ls, w1)) (w0 :: w :: ws) ++ rest)
      with ((ls, w0) :: (map (fun w1 => (ls, w1)) (w :: ws) ++ rest)).
    cbn [group_adj]. rewrite (IH w rest H). rewrite labels_eqb_refl. reflexivity.
Qed.

(* One logical series behind the proxy, dedup on: if the first pseudo-replica made
   by the overlap split holds the complete stream w0 and the others hold
   subsequences of it, Select returns exactly one series with w0 cut to the range. *)
Lemma select_dedup_first_complete mint maxt ls cs w0 ws out :
  map chunk_iter (overlap_split cs) = w0 :: ws ->
  rawstream w0 -> Forall (fun w => sub w w0) ws ->
  select mint maxt true [(ls, cs)] = Some out ->
  out = [(ls, in_range mint maxt w0)].
Proof.
  intros Hsplit Hraw HF H. unfold select in H. cbn [flat_map fst snd] in H.
  rewrite <- (map_map chunk_iter (fun w => (ls, w))), Hsplit, group_adj_block in H by exact I.
  cbn [map fst snd sequence group_adj] in H.
  rewrite (series_samples_total _ _ _ _ Hraw HF) in H. injection H as <-. reflexivity.
Qed.

Lemma select_plain mint maxt : forall po,
  Forall (fun s => rawstream (chunk_iter (snd s))) po ->
  select mint maxt false po
  = Some (map (fun s => (fst s, in_range mint maxt (chunk_iter (snd s)))) po).
Proof.
  unfold select. induction 1 as [|s po Hs _ IH]; cbn [map sequence]; [reflexivity|].
  rewrite (series_samples_total _ _ _ _ Hs (Forall_nil _)), IH. reflexivity.
Qed.

Corollary select_plain_inv mint maxt po out :
  Forall (fun s => rawstream (chunk_iter (snd s))) po ->
  select mint maxt false po = Some out ->
  out = map (fun s => (fst s, in_range mint maxt (chunk_iter (snd s)))) po.
Proof. intros HF H. rewrite select_plain in H by exact HF. injection H as <-. reflexivity. Qed.

(* consecutive chunks of a pseudo-replica are strictly apart *)
Fixpoint chain (r : list chunk) : Prop :=
  match r with
  | [] => True
  | c :: r' => match r' with [] => True | n :: _ => cmax c < cmin n end /\ chain r'
  end.

Lemma chain_snoc r l c : chain (r ++ [l]) -> cmax l < cmin c -> chain ((r ++ [l]) ++ [c]).
Proof.
  intros H Hl. induction r as [|x r IH]; [simpl; auto|].
  destruct H as [Hx Hr]. split; [|exact (IH Hr)].
  destruct r; exact Hx.
Qed.

Lemma place_perm c : forall reps, Permutation (concat (place c reps)) (c :: concat reps).
Proof.
  induction reps as [|r reps IH]; simpl; [reflexivity|].
  destruct r as [|l r']; simpl; [reflexivity|].
  destruct (cmax l <? cmin c); simpl; [reflexivity|].
  rewrite IH. apply Permutation_sym, (Permutation_middle (l :: r')).
Qed.

(* [place] keeps the replicas reversed: head = last chunk *)
Lemma place_chain c : forall reps,
  Forall (fun r => chain (rev r)) reps -> Forall (fun r => chain (rev r)) (place c reps).
Proof.
  induction reps as [|r reps IH]; simpl; intros HF.
  - constructor; [simpl; auto|constructor].
  - inversion HF as [|? ? Hr HF']; subst. destruct r as [|l r'].
    + constructor; [simpl; auto|assumption].
    + destruct (cmax l <? cmin c) eqn:E.
      * constructor; [|assumption]. apply chain_snoc; [exact Hr|lia].
      * constructor; [assumption|auto].
Qed.

Lemma fold_place_inv : forall rest reps,
  Forall (fun r => chain (rev r)) reps ->
  Forall (fun r => chain (rev r)) (fold_left (fun reps c => place c reps) rest reps)
  /\ Permutation (concat (fold_left (fun reps c => place c reps) rest reps)) (rev rest ++ concat reps).
Proof.
  induction rest as [|c rest IH]; simpl; intros reps HF.
  - split; [assumption|reflexivity].
  - destruct (IH (place c reps) (place_chain c reps HF)) as [H1 H2]. split; [assumption|].
    rewrite H2. rewrite place_perm. rewrite <- app_assoc. reflexivity.
Qed.

Lemma overlap_split_partition cs :
  cs <> [] ->
  Permutation (concat (overlap_split cs)) cs /\ Forall chain (overlap_split cs).
Proof.
  destruct cs as [|c0 rest]; [congruence|]. intros _. unfold overlap_split.
  destruct (fold_place_inv rest [[c0]]) as [H1 H2]; [constructor; [simpl; auto|constructor]|].
  split.
  - set (reps := fold_left (fun reps c => place c reps) rest [[c0]]) in *.
    assert (Hrev : Permutation (concat (map (@rev chunk) reps)) (concat reps)).
    { clear. induction reps as [|r reps IH]; simpl; [reflexivity|].
      apply Permutation_app; [apply Permutation_sym, Permutation_rev|exact IH]. }
    rewrite Hrev, H2. simpl.
    etransitivity; [apply Permutation_app_comm|]. simpl. constructor.
    apply Permutation_sym, Permutation_rev.
  - apply Forall_map. exact H1.
Qed.

(* a decider for subsequences (used for witnesses) *)
Fixpoint subb (b a : list sample) : bool :=
  match b, a with
  | [], _ => true
  | _ :: _, [] => false
  | x :: b', y :: a' => if sample_eqb x y then subb b' a' else subb b a'
  end.

Lemma subb_sound : forall a b, subb b a = true -> sub b a.
Proof.
  induction a as [|y a IH]; intros [|x b] H; simpl in H; try discriminate; try apply sub_nil.
  destruct (sample_eqb x y) eqn:E.
  - apply sample_eqb_iff in E. subst. apply sub_take. auto.
  - apply sub_skip. auto.
Qed.

(* C10 — the series selected through posting groups are exactly the series on which every
   matcher matches. *)
From Coq Require Import ZArith NArith List Bool Lia Sorted Permutation.
Import ListNotations.
From Verif Require Import Lib.Corr Lib.ListFacts Lib.Storegw_Str Gen.C10 Model.C10 Proofs.C10 Proofs.C10_merge.
Open Scope Z_scope.

(* matchers with the same type, name and value (one key of the map that de-duplicates them)
   have the same truth function; [coherent] (Proofs/C10.v) speaks of one matcher alone *)
Definition consistent (ms : list matcher) : Prop :=
  forall m1 m2, In m1 ms -> In m2 ms -> matcher_same m1 m2 = true -> forall v, m_fun m1 v = m_fun m2 v.

(* no label with an empty name *)
Definition wf_index (idx : list series) : Prop := forall s, In s idx -> label_get (fst s) [] = [].

Lemma scompact_sorted : forall l, StronglySorted str_le l -> ssorted (scompact l).
Proof.
  induction l as [|a l IH]; intro H; [constructor|]. cbn [scompact].
  destruct l as [|b l']; [constructor; constructor|].
  inversion H as [|? ? Hs Hf]; subst.
  destruct (str_eqb a b) eqn:E; [apply IH; exact Hs|].
  constructor; [apply IH; exact Hs|].
  apply Forall_forall. intros z Hz. rewrite scompact_in in Hz. simpl in Hz.
  apply str_eqb_false_ne in E.
  inversion Hf as [|? ? Hab Hf']; subst.
  assert (Hlt : str_lt a b) by (destruct (str_le_cases _ _ Hab) as [->|L]; [congruence|exact L]).
  destruct Hz as [<-|Hz]; [exact Hlt|].
  inversion Hs as [|? ? _ Hbl]; subst. rewrite Forall_forall in Hbl.
  eapply str_lt_le_trans; [exact Hlt|]. apply Hbl. exact Hz.
Qed.

Lemma label_values_sorted idx n : ssorted (label_values idx n).
Proof. unfold label_values. apply scompact_sorted, ssort_sorted. Qed.

Lemma label_values_no_empty idx n : smem [] (label_values idx n) = false.
Proof.
  destruct (smem [] (label_values idx n)) eqn:E; [|reflexivity].
  apply smem_in in E. unfold label_values in E. apply scompact_in, ssort_in, filter_In in E.
  destruct E as [_ E]. discriminate.
Qed.

Lemma label_values_has idx n s : In s idx ->
  smem (label_get (fst s) n) (label_values idx n) = true \/ label_get (fst s) n = [].
Proof.
  intro H. destruct (label_get (fst s) n) as [|x v] eqn:E; [right; reflexivity|left].
  apply smem_in. unfold label_values. apply scompact_in, ssort_in, filter_In. split; [|reflexivity].
  rewrite <- E. apply (in_map (fun s0 : series => label_get (fst s0) n)). exact H.
Qed.

Lemma to_group_wf m vals : ssorted vals -> wf_group (to_group m vals).
Proof.
  intro Hv. unfold to_group, wf_group.
  assert (Hs : ssorted (scompact (ssort (m_sets m)))) by apply scompact_sorted, ssort_sorted.
  assert (H1 : ssorted [m_value m]) by (constructor; constructor).
  assert (H0 : ssorted (@nil str)) by constructor.
  repeat match goal with
         | |- context [if ?c then _ else _] => destruct c
         end; cbn [g_all g_add g_rem]; repeat split; auto; try discriminate; try (apply StronglySorted_filter; exact Hv).
Qed.

Lemma to_group_name m vals : g_name (to_group m vals) = m_name m.
Proof.
  unfold to_group.
  repeat match goal with
         | |- context [if ?c then _ else _] => destruct c
         end; reflexivity.
Qed.

Definition conj_ms (l : list matcher) (v : str) : bool := forallb (fun m => m_fun m v) l.
Definition acc_sem (acc : option group) (v : str) : bool :=
  match acc with None => true | Some g => in_group g v end.
Definition nonempty_group (g : group) : Prop := ~ (g_all g = false /\ g_add g = []).
Definition acc_wf (n : str) (acc : option group) : Prop :=
  match acc with None => True | Some g => wf_group g /\ nonempty_group g /\ g_name g = n end.

Lemma in_group_empty g v : g_all g = false -> g_add g = [] -> in_group g v = false.
Proof. intros H1 H2. unfold in_group. rewrite H1, H2. reflexivity. Qed.

Lemma empty_test g : negb (g_all g) && is_nil (g_add g) = true <-> (g_all g = false /\ g_add g = []).
Proof.
  rewrite andb_true_iff, negb_true_iff. split; intros [H1 H2]; split; auto.
  - apply is_nil_true. exact H2.
  - rewrite H2. reflexivity.
Qed.

Lemma merge_name_ok idx n : let lv := label_values idx n in
  let V := fun v => smem v lv = true \/ v = [] in
  forall ms_n acc, Forall coherent ms_n -> Forall (fun m => m_name m = n) ms_n -> acc_wf n acc ->
  match merge_name lv ms_n acc with
  | None => forall v, V v -> acc_sem acc v && conj_ms ms_n v = false
  | Some r => acc_wf n r /\ (forall v, V v -> acc_sem r v = acc_sem acc v && conj_ms ms_n v)
              /\ (r = None -> ms_n = [] /\ acc = None)
  end.
Proof.
  intros lv V. induction ms_n as [|m ms_n IH]; intros acc Hc Hn Hacc.
  - simpl. split; [exact Hacc|]. split; [|auto]. intros v _. rewrite andb_true_r. reflexivity.
  - inversion Hc as [|? ? Hcm Hc']; subst. inversion Hn as [|? ? Hnm Hn']; subst.
    cbn [merge_name].
    pose proof (to_group_wf m lv (label_values_sorted idx (m_name m))) as Hwf.
    assert (Hsem : forall v, V v -> in_group (to_group m lv) v = m_fun m v).
    { intros v Hv. apply group_sem; [exact Hcm | apply label_values_no_empty | exact Hv]. }
    set (pg := to_group m lv) in *.
    destruct (negb (g_all pg) && is_nil (g_add pg)) eqn:E1.
    + apply empty_test in E1. destruct E1 as [E1 E2]. intros v Hv.
      unfold conj_ms. cbn [forallb]. rewrite <- (Hsem v Hv), (in_group_empty pg v E1 E2).
      cbn [andb]. apply andb_false_r.
    + set (merged := match acc with None => pg | Some a => merge_keys a pg end).
      assert (Hmw : wf_group merged /\ g_name merged = m_name m).
      { unfold merged. destruct acc as [a|]; [|split; [exact Hwf|apply to_group_name]].
        destruct Hacc as (A1 & A2 & A3). split; [apply merge_keys_wf; assumption|].
        unfold merge_keys. repeat match goal with |- context [if ?c then _ else _] => destruct c end; exact A3. }
      destruct Hmw as [Hmw Hmn].
      assert (Hms : forall v, V v -> in_group merged v = acc_sem acc v && m_fun m v).
      { intros v Hv. unfold merged. destruct acc as [a|]; simpl acc_sem.
        - destruct Hacc as (A1 & A2 & A3). rewrite merge_keys_sem by assumption. rewrite (Hsem v Hv). reflexivity.
        - apply Hsem. exact Hv. }
      destruct (negb (g_all merged) && is_nil (g_add merged)) eqn:E2.
      * apply empty_test in E2. destruct E2 as [E2 E3]. intros v Hv.
        unfold conj_ms. cbn [forallb]. rewrite andb_assoc, <- (Hms v Hv), (in_group_empty merged v E2 E3). reflexivity.
      * assert (Hacc' : acc_wf (m_name m) (Some merged)).
        { simpl. split; [exact Hmw|]. split; [|exact Hmn]. intro Hbad. apply empty_test in Hbad. congruence. }
        specialize (IH (Some merged) Hc' Hn' Hacc').
        destruct (merge_name lv ms_n (Some merged)) as [r|].
        -- destruct IH as (I1 & I2 & I3). split; [exact I1|]. split.
           ++ intros v Hv. rewrite (I2 v Hv). simpl acc_sem. rewrite (Hms v Hv).
              unfold conj_ms. cbn [forallb]. rewrite andb_assoc. reflexivity.
           ++ intro Hr. destruct (I3 Hr) as [_ Hbad]. discriminate.
        -- intros v Hv. specialize (IH v Hv). simpl acc_sem in IH. rewrite (Hms v Hv) in IH.
           unfold conj_ms. cbn [forallb]. rewrite andb_assoc. exact IH.
Qed.

Definition name_filter (ms : list matcher) (n : str) : list matcher := filter (fun m => str_eqb (m_name m) n) ms.
(* the value the group tests: the series' value of the group's label *)
Definition gval (s : series) (g : group) : str := label_get (fst s) (g_name g).

(* what matchersToPostingGroups delivers for one label name: a well-formed group that can
   match something, whose name is that of some matcher, and which holds of a series exactly
   when all matchers of that name do *)
Definition good_group (idx : list series) (ms : list matcher) (g : group) : Prop :=
  wf_group g /\ nonempty_group g /\ (exists m, In m ms /\ m_name m = g_name g)
  /\ forall s, In s idx -> in_group g (gval s g) = conj_ms (name_filter ms (g_name g)) (gval s g).

Definition sat_all (ms : list matcher) (s : series) : bool :=
  forallb (fun m => m_fun m (label_get (fst s) (m_name m))) ms.

Lemma Forall_filter {A} (P : A -> Prop) f l : Forall P l -> Forall P (filter f l).
Proof. induction 1; simpl; [constructor|]. destruct (f x); [constructor|]; assumption. Qed.

Lemma conj_name_filter ms n (s : series) :
  conj_ms (name_filter ms n) (label_get (fst s) n) = true
  <-> forall m, In m ms -> m_name m = n -> m_fun m (label_get (fst s) (m_name m)) = true.
Proof.
  unfold conj_ms, name_filter. rewrite forallb_forall. split; intros H m Hm.
  - intros <-. apply H, filter_In. split; [exact Hm|apply str_eqb_refl].
  - apply filter_In in Hm. destruct Hm as [Hm Hn]. apply str_eqb_eq in Hn. rewrite <- Hn. exact (H m Hm Hn).
Qed.

Lemma sat_all_name ms n s : sat_all ms s = true -> conj_ms (name_filter ms n) (label_get (fst s) n) = true.
Proof. intro H. apply conj_name_filter. intros m Hm _. revert m Hm. apply forallb_forall, H. Qed.

Lemma groups_for_ok idx ms : Forall coherent ms ->
  forall names, (forall n, In n names -> exists m, In m ms /\ m_name m = n) ->
  match groups_for idx ms names with
  | None => forall s, In s idx -> sat_all ms s = false
  | Some gs => Forall (good_group idx ms) gs /\ map g_name gs = names
  end.
Proof.
  intro Hc. induction names as [|n names IH]; intro Hn; [split; constructor|].
  cbn [groups_for]. fold (name_filter ms n).
  assert (Hnn : Forall (fun m => m_name m = n) (name_filter ms n)).
  { apply Forall_forall. intros m Hm. apply filter_In in Hm. apply str_eqb_eq. tauto. }
  pose proof (merge_name_ok idx n (name_filter ms n) None (Forall_filter _ _ _ Hc) Hnn I) as Hm. cbv zeta in Hm.
  specialize (IH (fun n0 H0 => Hn n0 (or_intror H0))).
  destruct (merge_name (label_values idx n) (name_filter ms n) None) as [[g|]|].
  - destruct Hm as ((W1 & W2 & W3) & Hsem & _). destruct (groups_for idx ms names) as [gs|]; [|exact IH].
    destruct IH as (G1 & G2). split; [|simpl; rewrite W3, G2; reflexivity].
    constructor; [|exact G1]. split; [exact W1|]. split; [exact W2|]. split; [rewrite W3; apply Hn; left; reflexivity|].
    intros s Hs. unfold gval. rewrite W3. apply (Hsem _ (label_values_has idx n s Hs)).
  - (* some matcher has this name, so its group cannot be missing *)
    exfalso. destruct Hm as (_ & _ & H). destruct (H eq_refl) as [H1 _].
    destruct (Hn n (or_introl eq_refl)) as (m & Hm1 & Hm2).
    assert (H0 : In m (name_filter ms n)) by (apply filter_In; split; [exact Hm1|apply str_eqb_eq; exact Hm2]).
    rewrite H1 in H0. contradiction.
  - intros s Hs. specialize (Hm _ (label_values_has idx n s Hs)). simpl in Hm.
    destruct (sat_all ms s) eqn:E; [|reflexivity]. rewrite (sat_all_name ms n s E) in Hm. discriminate.
Qed.

Lemma matcher_same_refl m : matcher_same m m = true.
Proof. unfold matcher_same. rewrite !str_eqb_refl. destruct (m_type m); reflexivity. Qed.

Lemma mtype_eqb_eq a b : mtype_eqb a b = true -> a = b.
Proof. destruct a, b; simpl; congruence. Qed.

Lemma matcher_same_eq a b : matcher_same a b = true <->
  m_type a = m_type b /\ m_name a = m_name b /\ m_value a = m_value b.
Proof.
  unfold matcher_same. rewrite !andb_true_iff, !str_eqb_eq. split.
  - intros [[H1 H2] H3]. auto using mtype_eqb_eq.
  - intros (H1 & H2 & H3). rewrite H1. destruct (m_type b); auto.
Qed.

Lemma matcher_same_trans a b c : matcher_same a b = true -> matcher_same b c = true -> matcher_same a c = true.
Proof. rewrite !matcher_same_eq. intros (H1 & H2 & H3) (H4 & H5 & H6). repeat split; congruence. Qed.

Lemma matcher_same_name a b : matcher_same a b = true -> m_name a = m_name b.
Proof. intro H. apply matcher_same_eq in H. tauto. Qed.

Lemma dedup_sub m : forall ms, In m (dedup_matchers ms) -> In m ms.
Proof.
  induction ms as [|a ms IH]; simpl; [tauto|].
  destruct (existsb (matcher_same a) ms); [intro H; right; apply IH; exact H|].
  intros [<-|H]; [left; reflexivity|right; apply IH; exact H].
Qed.

Lemma dedup_repr : forall ms m, In m ms -> exists m', In m' (dedup_matchers ms) /\ matcher_same m m' = true.
Proof.
  induction ms as [|a ms IH]; intros m H; [contradiction|]. simpl.
  destruct (existsb (matcher_same a) ms) eqn:E.
  - destruct H as [<-|H]; [|apply IH; exact H].
    apply existsb_exists in E. destruct E as (b & Hb & Hab).
    destruct (IH b Hb) as (m' & Hm' & Hbm). exists m'. split; [exact Hm'|]. eapply matcher_same_trans; eauto.
  - destruct H as [<-|H].
    + exists a. split; [left; reflexivity|apply matcher_same_refl].
    + destruct (IH m H) as (m' & Hm' & Hs). exists m'. split; [right; exact Hm'|exact Hs].
Qed.

(* duplicates of a matcher agree with their representative, so dropping them changes nothing *)
Lemma sat_all_dedup ms s : consistent ms -> sat_all (dedup_matchers ms) s = sat_all ms s.
Proof.
  intro Hcons. apply eq_true_iff_eq. unfold sat_all. rewrite !forallb_forall. split; intros H m Hm.
  - destruct (dedup_repr ms m Hm) as (m' & Hm' & Hs).
    rewrite (matcher_same_name _ _ Hs), (Hcons m m' Hm (dedup_sub _ _ Hm') Hs). apply H, Hm'.
  - apply H, dedup_sub, Hm.
Qed.

Lemma names_of_sub : forall ms seen n, In n (names_of ms seen) -> exists m, In m ms /\ m_name m = n.
Proof.
  induction ms as [|a ms IH]; intros seen n H; [contradiction|]. simpl in H.
  destruct (smem (m_name a) seen).
  - destruct (IH _ _ H) as (m & Hm & Hn). exists m. split; [right; exact Hm|exact Hn].
  - destruct H as [<-|H]; [exists a; split; [left; reflexivity|reflexivity]|].
    destruct (IH _ _ H) as (m & Hm & Hn). exists m. split; [right; exact Hm|exact Hn].
Qed.

Lemma names_of_cover : forall ms seen m, In m ms -> smem (m_name m) seen = true \/ In (m_name m) (names_of ms seen).
Proof.
  induction ms as [|a ms IH]; intros seen m H; [contradiction|]. simpl.
  destruct H as [<-|H].
  - destruct (smem (m_name a) seen) eqn:E; [left; reflexivity|right; left; reflexivity].
  - destruct (smem (m_name a) seen) eqn:E; [apply IH; exact H|].
    destruct (IH (m_name a :: seen) m H) as [H1|H1]; [|right; right; exact H1].
    simpl in H1. apply orb_true_iff in H1. destruct H1 as [H1|H1]; [|left; exact H1].
    apply str_eqb_eq in H1. right. left. symmetry. exact H1.
Qed.

Lemma names_of_nodup : forall ms seen, NoDup (names_of ms seen) /\ forall n, In n (names_of ms seen) -> smem n seen = false.
Proof.
  induction ms as [|m ms IH]; intro seen; simpl; [split; [constructor|intros n []]|].
  destruct (smem (m_name m) seen) eqn:E; [apply IH|].
  destruct (IH (m_name m :: seen)) as (I1 & I2). split.
  - constructor; [|exact I1]. intro Hin. specialize (I2 _ Hin). simpl in I2. rewrite str_eqb_refl in I2. discriminate.
  - intros n [<-|Hn]; [exact E|]. specialize (I2 _ Hn). simpl in I2. apply orb_false_iff in I2. tauto.
Qed.

(* one good group per name of a (de-duplicated) matcher, or no series satisfies every matcher *)
Lemma matchers_to_groups_ok idx ms : Forall coherent ms ->
  match matchers_to_groups idx ms with
  | None => forall s, In s idx -> sat_all (dedup_matchers ms) s = false
  | Some gs => Forall (good_group idx (dedup_matchers ms)) gs /\ NoDup (map g_name gs)
               /\ forall m, In m (dedup_matchers ms) -> exists g, In g gs /\ g_name g = m_name m
  end.
Proof.
  intro Hc. unfold matchers_to_groups. set (ms' := dedup_matchers ms).
  assert (Hc' : Forall coherent ms').
  { rewrite Forall_forall in *. intros m Hm. apply Hc, dedup_sub, Hm. }
  assert (Hn : forall n, In n (ssort (names_of ms' [])) -> exists m, In m ms' /\ m_name m = n).
  { intros n Hn. rewrite ssort_in in Hn. exact (names_of_sub ms' [] n Hn). }
  pose proof (groups_for_ok idx ms' Hc' _ Hn) as Hg.
  destruct (groups_for idx ms' (ssort (names_of ms' []))) as [gs|]; [|exact Hg].
  destruct Hg as (G1 & G2). split; [exact G1|]. split.
  - rewrite G2, ssort_isort. apply (Permutation_NoDup (Permutation_sym (isort_perm _ _))), names_of_nodup.
  - intros m Hm. assert (Hin : In (m_name m) (map g_name gs)).
    { rewrite G2. apply ssort_in. destruct (names_of_cover ms' [] m Hm) as [H|H]; [discriminate|exact H]. }
    apply in_map_iff in Hin. destruct Hin as (g & Hg & Hin). exists g. split; assumption.
Qed.

Lemma groups_good idx ms : Forall coherent ms ->
  forall gs, matchers_to_groups idx ms = Some gs ->
  (forall g, In g gs -> good_group idx (dedup_matchers ms) g)
  /\ (forall m, In m (dedup_matchers ms) -> exists g, In g gs /\ g_name g = m_name m).
Proof.
  intros Hc gs E. pose proof (matchers_to_groups_ok idx ms Hc) as H. rewrite E in H.
  destruct H as (G & _ & Hcover). split; [apply Forall_forall, G|exact Hcover].
Qed.

Lemma groups_sem idx ms gs s :
  (forall g, In g gs -> good_group idx ms g) ->
  (forall m, In m ms -> exists g, In g gs /\ g_name g = m_name m) ->
  In s idx -> forallb (fun g => in_group g (gval s g)) gs = sat_all ms s.
Proof.
  intros Hgood Hcover Hs. apply eq_true_iff_eq. unfold sat_all. rewrite !forallb_forall. split.
  - intros H m Hm. destruct (Hcover m Hm) as (g & Hg & Hn). specialize (H g Hg).
    destruct (Hgood g Hg) as (_ & _ & _ & Hsem). rewrite (Hsem s Hs) in H. unfold gval in H. rewrite Hn in H.
    exact (proj1 (conj_name_filter ms _ s) H m Hm eq_refl).
  - intros H g Hg. destruct (Hgood g Hg) as (_ & _ & _ & Hsem). rewrite (Hsem s Hs).
    apply conj_name_filter. intros m Hm _. apply H, Hm.
Qed.

(* Intersect(adds) tests the add keys of the groups that have some, Without(removals) the
   remove keys of all: for a well-formed group the two tests together are membership *)
Lemma in_group_tests g v : wf_group g -> nonempty_group g ->
  in_group g v = (is_nil (g_add g) || smem v (g_add g)) && negb (smem v (g_rem g)).
Proof.
  intros (_ & _ & W3 & W4) Hnz. unfold in_group. destruct (g_all g) eqn:Ea.
  - rewrite (W3 eq_refl). reflexivity.
  - rewrite (W4 eq_refl). cbn [smem negb]. rewrite andb_true_r.
    destruct (g_add g) eqn:E; [exfalso; apply Hnz; split; assumption|reflexivity].
Qed.

Lemma group_tests (s : series) K :
  Forall (fun g => in_group g (gval s g)
                   = (is_nil (g_add g) || smem (gval s g) (g_add g)) && negb (smem (gval s g) (g_rem g))) K ->
  forallb (fun g => smem (label_get (fst s) (g_name g)) (g_add g)) (filter (fun g => negb (is_nil (g_add g))) K)
  && forallb (fun g => negb (smem (label_get (fst s) (g_name g)) (g_rem g))) K
  = forallb (fun g => in_group g (gval s g)) K.
Proof.
  induction 1 as [|g K Hg _ IH]; [reflexivity|]. cbn [filter forallb]. rewrite <- IH, Hg. unfold gval.
  destruct (is_nil (g_add g)); cbn [negb forallb orb];
    destruct (smem _ (g_add g)), (smem _ (g_rem g)); cbn [negb andb]; rewrite ?andb_false_r; reflexivity.
Qed.

Lemma keyless_true g v : wf_group g -> nonempty_group g ->
  is_nil (g_add g) && is_nil (g_rem g) = true -> in_group g v = true.
Proof.
  intros Hw Hn H. apply andb_true_iff in H. destruct H as [H1 H2].
  rewrite (in_group_tests g v Hw Hn), H1, (is_nil_true _ H2). reflexivity.
Qed.

Lemma forallb_filter_true {A} (f p : A -> bool) l :
  (forall x, In x l -> p x = false -> f x = true) -> forallb f (filter p l) = forallb f l.
Proof.
  induction l as [|a l IH]; intro H; simpl; [reflexivity|].
  rewrite <- IH by (intros x Hx; apply H; right; exact Hx).
  destruct (p a) eqn:E; [reflexivity|]. rewrite (H a (or_introl eq_refl) E). reflexivity.
Qed.

Lemma is_nil_false_in {A} (x : A) l : In x l -> is_nil l = false.
Proof. destruct l; [contradiction|reflexivity]. Qed.

Section Groups.
Variables (idx : list series) (ms : list matcher) (gs : list group).
Hypothesis Hne : ms <> [].
Hypothesis Hc : Forall coherent ms.
Hypothesis Hidx : wf_index idx.
Hypothesis Eg : matchers_to_groups idx ms = Some gs.

Let Hgood := proj1 (groups_good idx ms Hc gs Eg).
Let Hcover := proj2 (groups_good idx ms Hc gs Eg).

(* the tests made on any of these groups, the all-postings group included *)
Lemma groups_tests s K : In s idx -> (forall g, In g K -> In g gs \/ g = all_group) ->
  forallb (fun g => smem (label_get (fst s) (g_name g)) (g_add g)) (filter (fun g => negb (is_nil (g_add g))) K)
  && forallb (fun g => negb (smem (label_get (fst s) (g_name g)) (g_rem g))) K
  = forallb (fun g => in_group g (gval s g)) K.
Proof.
  intros Hs HK. apply group_tests, Forall_forall. intros g Hg. destruct (HK g Hg) as [Hin| ->].
  - destruct (Hgood g Hin) as (Hw & Hn & _). apply in_group_tests; assumption.
  - unfold gval. cbn [g_name all_group]. rewrite (Hidx s Hs). reflexivity.
Qed.

(* key-less groups hold on every value *)
Lemma kept_sem s : In s idx ->
  forallb (fun g => in_group g (gval s g)) (kept_groups gs) = sat_all (dedup_matchers ms) s.
Proof.
  intro Hs. rewrite <- (groups_sem idx _ gs s Hgood Hcover Hs). apply forallb_filter_true.
  intros g Hg E. destruct (Hgood g Hg) as (Hw & Hn & _). apply keyless_true; [exact Hw|exact Hn|].
  apply negb_false_iff, E.
Qed.

(* unless the all-postings group is needed, some group has add keys *)
Lemma has_add_group : add_all_postings gs = false -> exists g, In g gs /\ g_add g <> [].
Proof.
  intro Hall. apply andb_false_iff in Hall. destruct Hall as [Ha|Ha].
  - destruct ms as [|m0 ms0] eqn:Ems; [congruence|]. rewrite <- Ems in *.
    destruct (dedup_repr ms m0) as (m' & Hm' & _); [rewrite Ems; left; reflexivity|].
    destruct (Hcover m' Hm') as (g & Hg & _). exists g. split; [exact Hg|].
    destruct (Hgood g Hg) as (_ & Hnz & _). intro Ea. apply Hnz. split; [|exact Ea].
    destruct (g_all g) eqn:Eall; [|reflexivity]. rewrite <- Ha. symmetry. apply existsb_exists. exists g. split; assumption.
  - apply negb_false_iff, existsb_exists in Ha. destruct Ha as (g & Hg & Hga).
    exists g. split; [exact Hg|]. destruct (g_add g); discriminate.
Qed.

Lemma in_kept g : In g gs -> g_add g <> [] -> In g (kept_groups gs).
Proof. intros Hg Ha. apply filter_In. split; [exact Hg|]. destruct (g_add g); [congruence|reflexivity]. Qed.
End Groups.

Lemma select_eq_filter idx ms :
  ms <> [] -> Forall coherent ms -> consistent ms -> wf_index idx ->
  select idx ms = filter (fun s : series => forallb (fun m => m_fun m (label_get (fst s) (m_name m))) ms) idx.
Proof.
  intros Hne Hc Hcons Hidx.
  rewrite <- (filter_ext_in _ _ _ (fun s _ => sat_all_dedup ms s Hcons)).
  pose proof (matchers_to_groups_ok idx ms Hc) as Hg.
  unfold select. destruct ms as [|m0 ms0]; [congruence|]. set (ms := m0 :: ms0) in *.
  destruct (matchers_to_groups idx ms) as [gs|] eqn:Eg.
  2:{ symmetry. apply filter_none. exact Hg. }
  clear Hg. cbv zeta. fold (kept_groups gs) (add_all_postings gs).
  set (gs' := if add_all_postings gs then kept_groups gs ++ [all_group] else kept_groups gs).
  assert (Hadds : exists g, In g (filter (fun g => negb (is_nil (g_add g))) gs')).
  { unfold gs'. destruct (add_all_postings gs) eqn:Eall.
    - exists all_group. apply filter_In. split; [apply in_or_app; right; left|]; reflexivity.
    - destruct (has_add_group idx ms gs Hne Hc Eg Eall) as (g & Hg & Hga). exists g.
      apply filter_In. split; [apply in_kept; assumption|]. destruct (g_add g); [congruence|reflexivity]. }
  destruct Hadds as (g0 & Hg0). rewrite (is_nil_false_in _ _ Hg0).
  apply filter_ext_in. intros s Hs. rewrite <- (kept_sem idx ms gs Hc Eg s Hs).
  rewrite (groups_tests idx ms gs Hc Hidx Eg s gs' Hs).
  - unfold gs'. destruct (add_all_postings gs); [|reflexivity].
    rewrite forallb_app. apply andb_true_r.
  - intros g Hg. unfold gs' in Hg. destruct (add_all_postings gs); [apply in_app_or in Hg|left].
    + destruct Hg as [Hg|[<-|[]]]; [left|right; reflexivity]. apply filter_In in Hg. apply Hg.
    + apply filter_In in Hg. apply Hg.
Qed.

(* the specification: the series on which every matcher matches, with their chunks overlapping
   the range; series without such chunks dropped; external labels attached *)
Definition spec_answer (idx : list series) (ext : lset) (ms : list matcher) (mint maxt : Z) : list series :=
  flat_map (fun s : series =>
              match filter (overlaps mint maxt) (snd s) with
              | [] => []
              | cs => [(extend (fst s) ext, cs)]
              end) (filter (sat_all ms) idx).

Definition chunks_sorted (idx : list series) : Prop :=
  forall s, In s idx -> StronglySorted (fun a b => cmin_of a <= cmin_of b) (snd s).

Lemma answer_eq_spec idx ext ms mint maxt :
  ms <> [] -> Forall coherent ms -> consistent ms -> wf_index idx -> chunks_sorted idx ->
  answer idx ext true ms mint maxt = spec_answer idx ext ms mint maxt.
Proof.
  intros H1 H2 H3 H4 H5. unfold answer, spec_answer. cbn [negb].
  rewrite (select_eq_filter idx ms H1 H2 H3 H4). apply flat_map_ext_in.
  intros s Hs. apply filter_In in Hs. destruct Hs as [Hs _].
  rewrite (chunks_for_filter (snd s) mint maxt (H5 s Hs)). reflexivity.
Qed.

Lemma kv_eqb_refl a : kv_eqb a a = true.
Proof. unfold kv_eqb. rewrite !str_eqb_refl. reflexivity. Qed.
Lemma chunk_eqb_refl a : chunk_eqb a a = true.
Proof. destruct a as [[a b] c]. simpl. rewrite !Z.eqb_refl. reflexivity. Qed.
Lemma series_eqb_refl s : series_eqb s s = true.
Proof. unfold series_eqb. rewrite (list_eqb_refl kv_eqb kv_eqb_refl), (list_eqb_refl chunk_eqb chunk_eqb_refl). reflexivity. Qed.
Lemma set_eqb_refl l : set_eqb l l = true.
Proof.
  unfold set_eqb. rewrite Nat.eqb_refl.
  assert (H : forallb (fun x => existsb (series_eqb x) l) l = true).
  { apply forallb_forall. intros x Hx. apply existsb_exists. exists x. split; [exact Hx|apply series_eqb_refl]. }
  rewrite H. reflexivity.
Qed.

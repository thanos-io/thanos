(* C37 — proofs, first level.
   The iterator: what ApplyCounterResetsSeriesIterator yields (read with Next until ValNone,
   or driven by a Next/Seek program) on a sequence of counter chunks of the documented format
   [first raw sample; per-window counter values; (last timestamp, last raw value)].
   The values: when every chunk of such a sequence records a stretch of one raw series
   exactly ([chunk_exact]), what is read is the reset-adjusted raw counter ([stitched_exact]).
   The chunks DownsampleRaw writes are of that kind ([q_of_exact]), which gives level 1. *)
From Coq Require Import ZArith List Bool Lia Sorted.
Import ListNotations.
From Verif Require Import Lib.Corr Lib.ListFacts Lib.Downsample_Core Lib.Downsample_Batch Lib.Downsample_Raw
  Lib.Downsample_Windows Lib.Downsample_Aggr Lib.Downsample_Iter Lib.Downsample_Counter Gen.C37 Model.C37.
Open Scope Z_scope.

(* [cw] is this property's own Gen.C37.currentWindow (every Gen file regenerates its copy), so
   the facts proved once in Lib are instantiated here *)
Lemma cw_ge res : 0 < res -> forall t, 0 <= t -> t <= cw t res.
Proof. exact (currentWindow_ge cw (fun _ _ => eq_refl) res). Qed.

Lemma cw_same res : 0 < res ->
  forall t t', 0 <= t -> t <= t' -> t' <= cw t res -> cw t' res = cw t res.
Proof. exact (currentWindow_same cw (fun _ _ => eq_refl) res). Qed.

Lemma last_concat {A} (d : A) : forall bs : list (list A),
  bs <> [] -> Forall (fun b => b <> []) bs -> last (concat bs) d = last (last bs []) d.
Proof.
  induction bs as [|b r IH]; intros Hne Hall; [congruence|].
  apply Forall_cons_iff in Hall as [Hb Hall]. cbn [concat]. destruct r as [|b' r'].
  - cbn [concat last]. rewrite app_nil_r. reflexivity.
  - rewrite last_app_ne.
    + rewrite IH by (try discriminate; exact Hall). reflexivity.
    + apply Forall_cons_iff in Hall as [Hb' _]. cbn [concat]. destruct b'; [congruence|discriminate].
Qed.

Lemma Forall2_weaken {A B} (R R' : A -> B -> Prop) l1 l2 :
  (forall x y, R x y -> R' x y) -> Forall2 R l1 l2 -> Forall2 R' l1 l2.
Proof. intros H. induction 1; constructor; auto. Qed.

Lemma Forall2_maps {X A B} (R : A -> B -> Prop) (f : X -> A) (g : X -> B) l :
  Forall (fun x => R (f x) (g x)) l -> Forall2 R (map f l) (map g l).
Proof. induction 1; constructor; assumption. Qed.

Lemma concat_parts_sorted : forall (bs : list (list (Z * Z))),
  StronglySorted Z.lt (map fst (concat bs)) -> Forall (fun b => StronglySorted Z.lt (map fst b)) bs.
Proof.
  induction bs as [|b r IH]; intros H; [constructor|]. cbn [concat] in H. rewrite map_app in H.
  destruct (StronglySorted_app_inv _ _ _ H) as (S1 & S2 & _). constructor; [exact S1|apply IH; exact S2].
Qed.

(* Next until ValNone, from iterator state st: the samples returned.  [NEXT] and [SEEK] below are
   the fuel-free acr_next and acr_seek of Lib/Downsample_Iter. *)
Definition READ (toks : list tok) (st : acr) : option (list (Z * Z)) :=
  match acr_run (S (length toks)) toks st with
  | Some (out, _) => Some out
  | None => None
  end.

Definition appO (es : list (Z * Z)) (r : option (list (Z * Z))) : option (list (Z * Z)) :=
  match r with Some l => Some (es ++ l) | None => None end.

Lemma appO_app a b r : appO (a ++ b) r = appO a (appO b r).
Proof. destruct r; cbn; [rewrite app_assoc|]; reflexivity. Qed.

(* the samples read together with it.lastV at the end, which downsampleFloatAggrBatch
   writes as the last value of a second-level counter chunk *)
Definition RUN (toks : list tok) (st : acr) : option (list (Z * Z) * Z) :=
  match acr_run (S (length toks)) toks st with
  | Some (out, fin) => Some (out, c_lastV fin)
  | None => None
  end.

Definition appR (es : list (Z * Z)) (r : option (list (Z * Z) * Z)) : option (list (Z * Z) * Z) :=
  match r with Some (l, v) => Some (es ++ l, v) | None => None end.

Lemma appR_nil r : appR [] r = r.
Proof. destruct r as [[l v]|]; reflexivity. Qed.

Lemma appR_app a b r : appR (a ++ b) r = appR a (appR b r).
Proof. destruct r as [[l v]|]; cbn; [rewrite app_assoc|]; reflexivity. Qed.

Lemma READ_RUN toks st : READ toks st = match RUN toks st with Some (l, _) => Some l | None => None end.
Proof. unfold READ, RUN. destruct (acr_run _ toks st) as [[out fin]|]; reflexivity. Qed.

Lemma RUN_eq toks st :
  RUN toks st =
  match NEXT toks st with
  | None => None
  | Some (false, _, st') => Some ([], c_lastV st')
  | Some (true, toks', st') => appR [(c_lastT st', c_totalV st')] (RUN toks' st')
  end.
Proof.
  unfold RUN. rewrite acr_run_eq by lia.
  destruct (NEXT toks st) as [[[b t1] s1]|]; [|reflexivity]. destruct b; [|reflexivity].
  destruct (acr_run (S (length t1)) t1 s1) as [[out fin]|]; reflexivity.
Qed.

Lemma RUN_step t v r st :
  RUN (TS t v :: r) st =
  if c_total st =? 0 then appR [(t, v)] (RUN r (mkI 1 t v v true))
  else if t >? c_lastT st then
    appR [(t, c_totalV st + step (c_lastV st) v)]
         (RUN r (mkI (c_total st + 1) t v (c_totalV st + step (c_lastV st) v) true))
  else if t =? c_lastT st then RUN r (mkI (c_total st) (c_lastT st) v (c_totalV st) true)
  else RUN r (mkI (c_total st) (c_lastT st) (c_lastV st) (c_totalV st) true).
Proof.
  rewrite RUN_eq, NEXT_sample. unfold step.
  destruct (c_total st =? 0); [reflexivity|]. destruct (t >? c_lastT st); [reflexivity|].
  destruct (t =? c_lastT st); rewrite <- RUN_eq; reflexivity.
Qed.

(* a chunk is exhausted: Next goes on with Seek(lastT + 1) in the next chunk *)
Lemma RUN_end_nil st : RUN [TEnd] st = Some ([], c_lastV st).
Proof.
  rewrite RUN_eq, NEXT_end, SEEK_eq. cbn [c_lastT].
  replace (c_lastT st >=? c_lastT st + 1) with false by (symmetry; rewrite Z.geb_leb; apply Z.leb_gt; lia).
  rewrite NEXT_nil. reflexivity.
Qed.

Lemma RUN_end_next n T Lv Tot l t0 v0 r :
  0 < n -> T < t0 ->
  RUN (TEnd :: TS t0 v0 :: r) (mkI n T Lv Tot l) =
  appR [(t0, Tot + step Lv v0)] (RUN r (mkI (n + 1) t0 v0 (Tot + step Lv v0) true)).
Proof.
  intros Hn Ht. rewrite RUN_eq, NEXT_end, SEEK_eq. cbn [c_lastT c_total c_lastV c_totalV].
  replace (T >=? T + 1) with false by (symmetry; rewrite Z.geb_leb; apply Z.leb_gt; lia).
  rewrite NEXT_sample. cbn [c_lastT c_total c_lastV c_totalV].
  replace (n =? 0) with false by (symmetry; apply Z.eqb_neq; lia).
  replace (t0 >? T) with true by (symmetry; apply Z.gtb_lt; lia).
  rewrite SEEK_eq. cbn [c_lastT c_lvt].
  replace (t0 >=? T + 1) with true by (symmetry; apply Z.geb_le; lia).
  cbn [c_totalV c_lastT]. unfold step. reflexivity.
Qed.

Definition tokS (s : Z * Z) : tok := TS (fst s) (snd s).

Definition emit_mids (T Lv Tot : Z) (mids : list (Z * Z)) : list (Z * Z) :=
  flat_map (fun m => if fst m >? T then [(fst m, Tot + (snd m - Lv))] else []) mids.

(* labels strictly increasing from T on, values non-decreasing from Lv on.  The first label may
   equal T, the chunk's first timestamp, and then repeats its value Lv: a window closes at its
   last millisecond or at the batch's last timestamp, and the first raw sample may sit on either.
   The iterator does not return that sample (it does not advance the time) and keeps its value
   as lastV. *)
Definition mids_ok (T Lv : Z) (mids : list (Z * Z)) : Prop :=
  StronglySorted Z.lt (map fst mids) /\ StronglySorted Z.le (Lv :: map snd mids) /\
  match mids with
  | [] => True
  | m :: _ => T <= fst m /\ (fst m = T -> snd m = Lv)
  end.

Lemma RUN_mids : forall mids n T Lv Tot l rest,
  0 < n -> mids_ok T Lv mids ->
  exists n' l', 0 < n' /\
    RUN (map tokS mids ++ rest) (mkI n T Lv Tot l) =
    appR (emit_mids T Lv Tot mids)
         (RUN rest (mkI n' (last (map fst mids) T) (last (map snd mids) Lv)
                        (Tot + (last (map snd mids) Lv - Lv)) l')).
Proof.
  induction mids as [|[w c] mids IH]; intros n T Lv Tot l rest Hn (Hs & Hv & Hhd).
  - exists n, l. split; [exact Hn|]. cbn. rewrite appR_nil. replace (Tot + (Lv - Lv)) with Tot by lia. reflexivity.
  - cbn [fst snd] in Hhd. destruct Hhd as [HT Heq].
    cbn [map] in Hs, Hv. apply StronglySorted_inv in Hs as [Hs Hw].
    apply StronglySorted_inv in Hv as [Hv HLv]. apply Forall_cons_iff in HLv as [HLc HLv].
    apply StronglySorted_inv in Hv as [Hv Hc]. cbn [fst snd] in *.
    cbn [map app]. unfold tokS at 1. cbn [fst snd]. rewrite RUN_step. cbn [c_total c_lastT c_lastV c_totalV].
    replace (n =? 0) with false by (symmetry; apply Z.eqb_neq; lia).
    assert (Hnext : mids_ok w c mids).
    { split; [exact Hs|]. split; [constructor; assumption|].
      destruct mids as [|[w2 c2] mids']; [exact I|]. cbn [fst snd map] in *.
      apply Forall_cons_iff in Hw as [Hw _]. split; [lia|intros; lia]. }
    rewrite !last_cons. unfold emit_mids at 1. cbn [flat_map fst snd]. fold (emit_mids T Lv Tot mids).
    destruct (w >? T) eqn:E.
    + apply Z.gtb_lt in E. unfold step. replace (c >=? Lv) with true by (symmetry; apply Z.geb_le; lia).
      destruct (IH (n + 1) w c (Tot + (c - Lv)) true rest ltac:(lia) Hnext) as (n' & l' & Hn' & R).
      exists n', l'. split; [exact Hn'|]. rewrite R, appR_app. f_equal.
      replace (Tot + (c - Lv) + (last (map snd mids) c - c)) with (Tot + (last (map snd mids) c - Lv)) by lia.
      f_equal. unfold emit_mids. apply flat_map_ext_in. intros [w' c'] Hin. cbn [fst snd].
      rewrite Forall_map, Forall_forall in Hw. specialize (Hw _ Hin). cbn [fst] in Hw.
      replace (w' >? w) with true by (symmetry; apply Z.gtb_lt; lia).
      replace (w' >? T) with true by (symmetry; apply Z.gtb_lt; lia).
      f_equal. f_equal. lia.
    + rewrite Z.gtb_ltb in E. apply Z.ltb_ge in E. assert (w = T) by lia. subst w.
      specialize (Heq eq_refl). subst c. rewrite Z.eqb_refl.
      destruct (IH n T Lv Tot true rest Hn Hnext) as (n' & l' & Hn' & R).
      exists n', l'. split; [exact Hn'|]. rewrite R. reflexivity.
Qed.

Record cchunk := mkQ { q_t0 : Z; q_v0 : Z; q_mids : list (Z * Z); q_vl : Z }.

Definition q_end (q : cchunk) : Z := last (map fst (q_mids q)) (q_t0 q).
Definition q_clast (q : cchunk) : Z := last (map snd (q_mids q)) (q_v0 q).

(* first raw sample; per-window counter values; last timestamp again with the last raw value *)
Definition q_samples (q : cchunk) : list (Z * Z) :=
  (q_t0 q, q_v0 q) :: q_mids q ++ [(q_end q, q_vl q)].

Definition q_ok (q : cchunk) : Prop := mids_ok (q_t0 q) (q_v0 q) (q_mids q).

Fixpoint q_chain (prevT : option Z) (qs : list cchunk) : Prop :=
  match qs with
  | [] => True
  | q :: r =>
      q_ok q /\ match prevT with Some T => T < q_t0 q | None => True end /\
      q_chain (Some (q_end q)) r
  end.

(* what reading yields: prev = (last raw value, adjusted total) at the end of the previous chunk *)
Fixpoint expect (prev : option (Z * Z)) (qs : list cchunk) : list (Z * Z) :=
  match qs with
  | [] => []
  | q :: r =>
      let B := match prev with None => q_v0 q | Some (Lv, Tot) => Tot + step Lv (q_v0 q) end in
      ((q_t0 q, B) :: emit_mids (q_t0 q) (q_v0 q) B (q_mids q))
      ++ expect (Some (q_vl q, B + (q_clast q - q_v0 q))) r
  end.

Lemma toks_of_q q cs :
  toks_of (q_samples q :: cs) =
  TS (q_t0 q) (q_v0 q) :: (map tokS (q_mids q) ++ TS (q_end q) (q_vl q) :: TEnd :: toks_of cs).
Proof.
  unfold toks_of, q_samples. cbn [flat_map map fst snd app]. f_equal.
  rewrite map_app. cbn [map fst snd]. rewrite <- !app_assoc. reflexivity.
Qed.

(* a chunk after its first sample: the per-window samples, then the closing sample, which
   repeats the last timestamp and so only replaces lastV *)
Lemma RUN_body q n B l rest :
  0 < n -> q_ok q ->
  exists n', 0 < n' /\
    RUN (map tokS (q_mids q) ++ TS (q_end q) (q_vl q) :: rest) (mkI n (q_t0 q) (q_v0 q) B l) =
    appR (emit_mids (q_t0 q) (q_v0 q) B (q_mids q))
         (RUN rest (mkI n' (q_end q) (q_vl q) (B + (q_clast q - q_v0 q)) true)).
Proof.
  intros Hn Hok.
  destruct (RUN_mids (q_mids q) n (q_t0 q) (q_v0 q) B l (TS (q_end q) (q_vl q) :: rest) Hn Hok)
    as (n' & l' & Hn' & R).
  exists n'. split; [exact Hn'|]. rewrite R. fold (q_end q). fold (q_clast q).
  rewrite RUN_step. cbn [c_total c_lastT c_lastV c_totalV].
  replace (n' =? 0) with false by (symmetry; apply Z.eqb_neq; lia).
  replace (q_end q >? q_end q) with false by (symmetry; rewrite Z.gtb_ltb; apply Z.ltb_irrefl).
  rewrite Z.eqb_refl. reflexivity.
Qed.

Lemma run_chain : forall qs n T Lv Tot l,
  0 < n -> q_chain (Some T) qs ->
  RUN (TEnd :: toks_of (map q_samples qs)) (mkI n T Lv Tot l) =
  Some (expect (Some (Lv, Tot)) qs, last (map q_vl qs) Lv).
Proof.
  induction qs as [|q r IH]; intros n T Lv Tot l Hn Hc.
  - apply RUN_end_nil.
  - cbn [q_chain] in Hc. destruct Hc as (Hok & HT & Hc).
    cbn [map]. rewrite toks_of_q, RUN_end_next by assumption.
    destruct (RUN_body q (n + 1) (Tot + step Lv (q_v0 q)) true (TEnd :: toks_of (map q_samples r)) ltac:(lia) Hok)
      as (n' & Hn' & ->).
    rewrite (IH n' _ _ _ true Hn' Hc), last_cons. reflexivity.
Qed.

(* reading a sequence of well-formed, time-ordered counter chunks; it.lastV ends as the last
   chunk's last raw value *)
Lemma run_chunks qs :
  q_chain None qs -> RUN (toks_of (map q_samples qs)) acr0 = Some (expect None qs, last (map q_vl qs) 0).
Proof.
  destruct qs as [|q r]; intros Hc; [reflexivity|].
  cbn [q_chain] in Hc. destruct Hc as (Hok & _ & Hc).
  cbn [map]. rewrite toks_of_q, RUN_step. cbn [acr0 c_total Z.eqb].
  destruct (RUN_body q 1 (q_v0 q) true (TEnd :: toks_of (map q_samples r)) ltac:(lia) Hok) as (n' & Hn' & ->).
  rewrite (run_chain r n' _ _ _ true Hn' Hc), last_cons. reflexivity.
Qed.

Lemma read_chunks qs :
  q_chain None qs -> READ (toks_of (map q_samples qs)) acr0 = Some (expect None qs).
Proof. intros Hc. rewrite READ_RUN, (run_chunks qs Hc). reflexivity. Qed.

Lemma read_counter_chunks ks qs :
  present k_counter ks = map q_samples qs -> q_chain None qs -> read_counter ks = Some (expect None qs).
Proof.
  intros Hp Hc. change (read_counter ks) with (READ (toks_of (present k_counter ks)) acr0).
  rewrite Hp. apply read_chunks, Hc.
Qed.

(* what the Next-only reading still yields from this state: a Next removes its head, a Seek a
   prefix of it *)
Definition Rem (toks : list tok) (st : acr) (l : list (Z * Z)) : Prop := exists v, RUN toks st = Some (l, v).

Lemma next_rem toks st l toks' st' :
  Rem toks st l -> NEXT toks st = Some (true, toks', st') ->
  exists l', l = (c_lastT st', c_totalV st') :: l' /\ Rem toks' st' l'.
Proof.
  intros [v H] E. rewrite RUN_eq, E in H. destruct (RUN toks' st') as [[l' v']|] eqn:R; [|discriminate].
  injection H as <- <-. exists l'. split; [reflexivity|exists v'; exact R].
Qed.

Lemma seek_rem : forall n toks st l x toks' st',
  (length toks < n)%nat -> Rem toks st l -> SEEK x toks st = Some (true, toks', st') ->
  (toks' = toks /\ st' = st /\ c_lvt st = true) \/
  (exists pre l', l = pre ++ (c_lastT st', c_totalV st') :: l' /\ Rem toks' st' l').
Proof.
  induction n as [|n IH]; intros toks st l x toks' st' Hn HR E; [lia|]. rewrite SEEK_eq in E.
  destruct (c_lastT st >=? x); [injection E as E1 E2 E3; left; repeat split; congruence|].
  destruct (NEXT toks st) as [[[b t1] s1]|] eqn:EN; [|discriminate]. destruct b; [|discriminate].
  destruct (next_rem _ _ _ _ _ HR EN) as (l1 & -> & HR1).
  destruct (acr_shorter (acr_fuel toks)) as [S _]. destruct (S _ _ _ _ _ EN) as [_ H]. specialize (H eq_refl).
  destruct (IH t1 s1 l1 x toks' st' ltac:(lia) HR1 E) as [(-> & -> & _)|(pre & l' & -> & HR')].
  - right. exists [], l1. split; [reflexivity|exact HR1].
  - right. exists ((c_lastT s1, c_totalV s1) :: pre), l'. split; [reflexivity|exact HR'].
Qed.

Lemma prog_subset : forall prog toks st l all res,
  Rem toks st l -> (exists pre0, all = pre0 ++ l) ->
  (c_lvt st = true -> In (c_lastT st, c_totalV st) all) ->
  run_prog prog toks st = Some res ->
  Forall (fun o => match o with Some s => In s all | None => True end) res.
Proof.
  induction prog as [|o rest IH]; intros toks st l all res HR [pre0 Hall] HJ E; cbn [run_prog] in E.
  - injection E as <-. constructor.
  - destruct o as [|x].
    + fold (NEXT toks st) in E. destruct (NEXT toks st) as [[[b t1] s1]|] eqn:EN; [|discriminate].
      destruct b; [|injection E as <-; repeat constructor].
      destruct (next_rem _ _ _ _ _ HR EN) as (l1 & -> & HR1).
      destruct (run_prog rest t1 s1) as [r|] eqn:Er; [|discriminate]. injection E as <-.
      assert (He : In (c_lastT s1, c_totalV s1) all) by (rewrite Hall; apply in_or_app; right; left; reflexivity).
      constructor; [exact He|]. apply (IH t1 s1 l1 all r HR1); [|intros _; exact He|exact Er].
      exists (pre0 ++ [(c_lastT s1, c_totalV s1)]). rewrite Hall, <- app_assoc. reflexivity.
    + fold (SEEK x toks st) in E. destruct (SEEK x toks st) as [[[b t1] s1]|] eqn:ES; [|discriminate].
      destruct b; [|injection E as <-; repeat constructor].
      destruct (run_prog rest t1 s1) as [r|] eqn:Er; [|discriminate]. injection E as <-.
      destruct (seek_rem (S (length toks)) toks st l x t1 s1 (le_n _) HR ES) as [(-> & -> & Hl)|(pre & l' & -> & HR')].
      * constructor; [apply HJ; exact Hl|]. apply (IH toks st l all r HR); [exists pre0; exact Hall|exact HJ|exact Er].
      * assert (He : In (c_lastT s1, c_totalV s1) all).
        { rewrite Hall. apply in_or_app. right. apply in_or_app. right. left. reflexivity. }
        constructor; [exact He|]. apply (IH t1 s1 l' all r HR'); [|intros _; exact He|exact Er].
        exists (pre0 ++ pre ++ [(c_lastT s1, c_totalV s1)]). rewrite Hall, <- !app_assoc. reflexivity.
Qed.

Lemma run_prog_total : forall prog toks st, run_prog prog toks st <> None.
Proof.
  induction prog as [|o rest IH]; intros toks st; cbn [run_prog]; [discriminate|].
  destruct o as [|x].
  - pose proof (proj1 (acr_enough (acr_fuel toks)) toks st ltac:(unfold acr_fuel; lia)) as T.
    destruct (acr_next (acr_fuel toks) toks st) as [[[b t1] s1]|]; [|congruence].
    destruct b; [|discriminate]. specialize (IH t1 s1). destruct (run_prog rest t1 s1); [discriminate|congruence].
  - pose proof (proj2 (acr_enough (S (acr_fuel toks))) x toks st ltac:(unfold acr_fuel; lia)) as T.
    destruct (acr_seek (S (acr_fuel toks)) x toks st) as [[[b t1] s1]|]; [|congruence].
    destruct b; [|discriminate]. specialize (IH t1 s1). destruct (run_prog rest t1 s1); [discriminate|congruence].
Qed.

Definition upto (t : Z) (d : list (Z * Z)) : list (Z * Z) := filter (fun s => fst s <=? t) d.

Lemma adj_at_upto d t : adj_at d t = adj (map snd (upto t d)).
Proof. reflexivity. Qed.

Lemma upto_all t l : Forall (fun s : Z * Z => fst s <= t) l -> upto t l = l.
Proof. intros H. apply ListFacts.filter_all. rewrite Forall_forall in H. intros s Hs. apply Z.leb_le, H, Hs. Qed.

Lemma upto_none t l : Forall (fun s : Z * Z => t < fst s) l -> upto t l = [].
Proof. intros H. apply ListFacts.filter_none. rewrite Forall_forall in H. intros s Hs. apply Z.leb_gt, H, Hs. Qed.

Lemma upto_app t l1 l2 : upto t (l1 ++ l2) = upto t l1 ++ upto t l2.
Proof. apply filter_app. Qed.

Lemma upto_cons t t0 v0 l : t0 <= t -> upto t ((t0, v0) :: l) = (t0, v0) :: upto t l.
Proof. intros H. unfold upto. cbn [filter fst]. apply Z.leb_le in H. rewrite H. reflexivity. Qed.

Lemma adj_at_first t0 v0 D' : Forall (fun s : Z * Z => t0 < fst s) D' -> adj_at ((t0, v0) :: D') t0 = v0.
Proof. intros H. rewrite adj_at_upto, upto_cons, upto_none by (exact H || lia). reflexivity. Qed.

Lemma adj_at_last D : StronglySorted Z.lt (map fst D) -> adj_at D (last_t D) = adj (map snd D).
Proof. intros H. rewrite adj_at_upto, upto_all; [reflexivity|]. apply sorted_le_last, sorted_lt_le, H. Qed.

Lemma adj_mono pre vs : pre <> [] -> Forall (fun v => 0 <= v) vs -> adj pre <= adj (pre ++ vs).
Proof. intros Hne Hv. rewrite adj_app by exact Hne. pose proof (adj_from_nonneg vs (last pre 0) Hv). lia. Qed.

Lemma upto_split : forall (d : list (Z * Z)) t t',
  StronglySorted Z.le (map fst d) -> t <= t' -> exists rest, upto t' d = upto t d ++ rest.
Proof.
  induction d as [|[a v] d IH]; intros t t' Hs Hle; [exists []; reflexivity|].
  cbn [map] in Hs. apply StronglySorted_inv in Hs as [Hs Ha]. destruct (Z_le_gt_dec a t) as [E|E].
  - rewrite !upto_cons by lia. destruct (IH t t' Hs Hle) as [rest R]. exists rest. rewrite R. reflexivity.
  - exists (upto t' ((a, v) :: d)). rewrite (upto_none t); [reflexivity|]. rewrite Forall_map in Ha.
    constructor; [cbn; lia|]. eapply Forall_impl; [|exact Ha]. intros s Hs'; cbv beta in Hs'. cbn [fst] in Hs'. lia.
Qed.

Lemma adj_at_nonneg d t : Forall (fun s : Z * Z => 0 <= snd s) d -> 0 <= adj_at d t.
Proof.
  intros H. rewrite adj_at_upto. destruct (map snd (upto t d)) as [|v r] eqn:E; [cbn; lia|].
  assert (Hv : Forall (fun v => 0 <= v) (v :: r)).
  { rewrite <- E, Forall_map. rewrite Forall_forall in *. intros s Hs. apply filter_In in Hs as [Hs _]. apply H, Hs. }
  apply Forall_cons_iff in Hv as [Hv Hr]. cbn [adj]. rewrite adj_from_total.
  pose proof (adj_from_nonneg r v Hr). lia.
Qed.

Lemma adj_at_mono d t t' :
  StronglySorted Z.le (map fst d) -> Forall (fun s : Z * Z => 0 <= snd s) d -> t <= t' ->
  adj_at d t <= adj_at d t'.
Proof.
  intros Hs Hv Hle. pose proof (adj_at_nonneg d t' Hv) as N. rewrite !adj_at_upto in *.
  destruct (upto_split d t t' Hs Hle) as [rest R]. rewrite R, map_app in *.
  destruct (map snd (upto t d)) as [|v vs] eqn:E; [exact N|]. apply adj_mono; [discriminate|].
  assert (Hin : Forall (fun s : Z * Z => 0 <= snd s) (upto t' d)).
  { rewrite Forall_forall in *. intros s Hs'. apply filter_In in Hs' as [Hs' _]. apply Hv, Hs'. }
  rewrite R in Hin. apply Forall_app in Hin as [_ Hin]. rewrite Forall_map. exact Hin.
Qed.

(* the adjusted counter continues across a chunk boundary from the value it has after the
   next chunk's first sample *)
Lemma adj_join P v0 tl : adj (P ++ v0 :: tl) = adj (P ++ [v0]) + (adj (v0 :: tl) - v0).
Proof.
  replace (P ++ v0 :: tl) with ((P ++ [v0]) ++ tl) by (rewrite <- app_assoc; reflexivity).
  rewrite adj_app by (destruct P; discriminate). rewrite last_last.
  cbn [adj]. rewrite (adj_from_total tl v0 v0). lia.
Qed.

(* ... so inside a stretch D of a longer series it is D's own adjusted counter, shifted *)
Lemma adj_at_context Dpre t0 v0 D' Dpost w :
  Forall (fun s : Z * Z => fst s < t0) Dpre -> Forall (fun s : Z * Z => w < fst s) Dpost -> t0 <= w ->
  adj_at (Dpre ++ ((t0, v0) :: D') ++ Dpost) w =
  adj (map snd Dpre ++ [v0]) + (adj_at ((t0, v0) :: D') w - v0).
Proof.
  intros Hpre Hpost Hw. rewrite !adj_at_upto, !upto_app, (upto_none w Dpost Hpost), app_nil_r, upto_all.
  - rewrite upto_cons, map_app by exact Hw. apply adj_join.
  - eapply Forall_impl; [|exact Hpre]. intros s Hs; cbv beta in Hs. lia.
Qed.

(* q spans D: it opens with D's first sample and closes at D's last timestamp with D's last value *)
Definition chunk_spans (q : cchunk) (D : list (Z * Z)) : Prop :=
  q_ok q /\ D <> [] /\ hd (0, 0) D = (q_t0 q, q_v0 q) /\ q_end q = last_t D /\ q_vl q = snd (last D (0, 0)).

(* ... and its per-window values are D's adjusted counter at their timestamps *)
Definition chunk_exact (q : cchunk) (D : list (Z * Z)) : Prop :=
  chunk_spans q D /\ Forall (fun m => snd m = adj_at D (fst m)) (q_mids q).

Lemma mids_range q m : q_ok q -> In m (q_mids q) -> q_t0 q <= fst m <= q_end q.
Proof.
  intros (Hs & _ & Hhd) Hm. unfold q_end. destruct (q_mids q) as [|m0 ms]; [contradiction|]. split.
  - destruct Hhd as [H0 _]. destruct Hm as [<-|Hm]; [exact H0|].
    cbn [map] in Hs. apply StronglySorted_inv in Hs as [_ H]. rewrite Forall_map, Forall_forall in H.
    specialize (H m Hm). cbv beta in H. lia.
  - rewrite (last_default _ _ 0) by discriminate. apply sorted_le_last_Z; [exact Hs|apply in_map, Hm].
Qed.

Lemma exact_clast q D :
  chunk_exact q D -> StronglySorted Z.lt (map fst D) -> q_clast q = adj (map snd D).
Proof.
  intros [(_ & Hne & Hhd & Hend & _) Hm] Hs. rewrite <- (adj_at_last D Hs), <- Hend.
  destruct D as [|[t0 v0] D']; [congruence|]. cbn [hd] in Hhd. injection Hhd as E1 E2.
  unfold q_clast, q_end. rewrite <- E1, <- E2.
  assert (E0 : v0 = adj_at ((t0, v0) :: D') t0).
  { symmetry. apply adj_at_first. cbn [map] in Hs. apply StronglySorted_inv in Hs as [_ H].
    rewrite Forall_map in H. exact H. }
  rewrite Forall_forall in Hm. rewrite (map_ext_in _ (fun m => adj_at ((t0, v0) :: D') (fst m)) _ Hm).
  rewrite <- (map_map fst). set (f := adj_at ((t0, v0) :: D')) in *. rewrite <- (last_map f). f_equal. exact E0.
Qed.

(* the first sample and the per-window samples of a chunk, read after the samples Dpre *)
Lemma chunk_in_context q D Dpre Dpost :
  chunk_exact q D -> StronglySorted Z.lt (map fst (Dpre ++ D ++ Dpost)) ->
  let B := adj (map snd Dpre ++ [q_v0 q]) in
  Forall (fun s => snd s = adj_at (Dpre ++ D ++ Dpost) (fst s))
         ((q_t0 q, B) :: emit_mids (q_t0 q) (q_v0 q) B (q_mids q)) /\
  B + (q_clast q - q_v0 q) = adj (map snd (Dpre ++ D)) /\ q_vl q = last (map snd (Dpre ++ D)) 0.
Proof.
  intros Hex Hs. cbv zeta. pose proof Hex as [(Hok & Hne & Hhd & Hend & Hvl) Hm].
  rewrite !map_app in Hs. destruct (StronglySorted_app_inv _ _ _ Hs) as (_ & Hs' & Hlo).
  destruct (StronglySorted_app_inv _ _ _ Hs') as (HsD & _ & Hhi).
  rewrite (exact_clast q D Hex HsD). clear Hs Hs'.
  destruct D as [|[t0 v0] D']; [congruence|]. cbn [hd] in Hhd. injection Hhd as E1 E2.
  rewrite <- E1, <- E2 in *.
  assert (Hpre : Forall (fun s : Z * Z => fst s < t0) Dpre).
  { rewrite Forall_forall. intros s Hin. apply Hlo; [apply in_map, Hin|left; reflexivity]. }
  assert (Hpost : forall w, w <= q_end q -> Forall (fun s : Z * Z => w < fst s) Dpost).
  { intros w Hw. rewrite Forall_forall. intros s Hin. rewrite Hend in Hw.
    assert (last_t ((t0, v0) :: D') < fst s); [|lia].
    apply Hhi; [unfold last_t; apply in_map, last_in; discriminate|apply in_map, Hin]. }
  assert (Hin : forall w x, t0 <= w <= q_end q -> x = adj_at ((t0, v0) :: D') w ->
            adj (map snd Dpre ++ [v0]) + (x - v0) = adj_at (Dpre ++ ((t0, v0) :: D') ++ Dpost) w).
  { intros w x Hw ->. symmetry. apply adj_at_context; [exact Hpre|apply Hpost; lia|lia]. }
  split; [|split].
  - constructor.
    + cbn [fst snd]. rewrite <- (Hin t0 v0); [lia| |].
      * split; [lia|]. rewrite Hend. exact (Forall_inv (sorted_le_last _ (sorted_lt_le _ HsD))).
      * symmetry. apply adj_at_first. cbn [map] in HsD. apply StronglySorted_inv in HsD as [_ H].
        rewrite Forall_map in H. exact H.
    + unfold emit_mids. rewrite Forall_forall. intros s Hs. apply in_flat_map in Hs as (m & Hmin & Hs).
      destruct (fst m >? t0); [|contradiction]. destruct Hs as [<-|[]]. cbn [fst snd].
      rewrite Forall_forall in Hm. apply Hin; [|apply Hm, Hmin].
      rewrite E1. apply mids_range; assumption.
  - rewrite map_app. cbn [map snd]. symmetry. apply adj_join.
  - rewrite Hvl, map_app. change 0 with (snd (0, 0)). rewrite <- map_app, last_map. f_equal.
    symmetry. apply last_app_ne. discriminate.
Qed.

Lemma chunks_chain : forall qs Ds, Forall2 chunk_spans qs Ds -> forall prevT,
  StronglySorted Z.lt (map fst (concat Ds)) ->
  match prevT with Some T => Forall (fun s : Z * Z => T < fst s) (concat Ds) | None => True end ->
  q_chain prevT qs.
Proof.
  induction 1 as [|q D qs Ds (Hok & Hne & Hhd & Hend & _) _ IH]; intros prevT Hs Hp; [exact I|].
  cbn [concat] in Hs, Hp. rewrite map_app in Hs. destruct (StronglySorted_app_inv _ _ _ Hs) as (_ & Hs2 & Hx).
  cbn [q_chain]. split; [exact Hok|]. split.
  - destruct prevT as [T|]; [|exact I]. destruct D as [|s D']; [congruence|]. cbn [hd] in Hhd.
    apply Forall_app in Hp as [Hp _]. apply Forall_inv in Hp. rewrite Hhd in Hp. exact Hp.
  - rewrite Hend. apply IH; [exact Hs2|]. rewrite Forall_forall. intros s Hin.
    apply Hx; [unfold last_t; apply in_map, last_in, Hne|apply in_map, Hin].
Qed.

Definition q_times (q : cchunk) : list Z := q_t0 q :: filter (fun w => w >? q_t0 q) (map fst (q_mids q)).

Lemma expect_times : forall qs prev, map fst (expect prev qs) = flat_map q_times qs.
Proof.
  induction qs as [|q r IH]; intros prev; [reflexivity|]. cbn [expect flat_map]. rewrite map_app, IH.
  f_equal. cbn [map fst]. unfold q_times, emit_mids. f_equal.
  induction (q_mids q) as [|m ms IHm]; [reflexivity|].
  cbn [flat_map map filter]. rewrite map_app, IHm. destruct (fst m >? q_t0 q); reflexivity.
Qed.

Lemma q_times_ok q : q_ok q -> StronglySorted Z.lt (q_times q) /\ last (q_times q) 0 = q_end q.
Proof.
  intros (Hs & _ & Hhd). unfold q_times, q_end. destruct (q_mids q) as [|m ms]; cbn [map] in *.
  - split; [repeat constructor|reflexivity].
  - destruct Hhd as [H0 _]. apply StronglySorted_inv in Hs as [Hs' Hw].
    assert (HL : filter (fun x => x >? q_t0 q) (map fst ms) = map fst ms).
    { apply ListFacts.filter_all. rewrite Forall_forall in Hw. intros x Hx. apply Z.gtb_lt. specialize (Hw x Hx). lia. }
    cbn [filter]. rewrite HL, !last_cons. destruct (fst m >? q_t0 q) eqn:E.
    + apply Z.gtb_lt in E. split; [|rewrite last_cons; reflexivity].
      constructor; [constructor; assumption|]. constructor; [exact E|].
      eapply Forall_impl; [|exact Hw]. intros x Hx; cbv beta in Hx. lia.
    + rewrite Z.gtb_ltb in E. apply Z.ltb_ge in E. replace (fst m) with (q_t0 q) in * by lia.
      split; [constructor; assumption|reflexivity].
Qed.

Lemma times_sorted : forall qs prevT, q_chain prevT qs ->
  StronglySorted Z.lt (flat_map q_times qs) /\
  Forall (fun t => match prevT with Some T => T < t | None => True end) (flat_map q_times qs).
Proof.
  induction qs as [|q r IH]; intros prevT Hc; [split; constructor|].
  cbn [q_chain] in Hc. destruct Hc as (Hok & HT & Hc). cbn [flat_map].
  destruct (q_times_ok q Hok) as [FS FL]. destruct (IH (Some (q_end q)) Hc) as (IS & IF).
  assert (Hle : forall x, In x (q_times q) -> q_t0 q <= x <= q_end q).
  { intros x Hx. split; [|rewrite <- FL; apply sorted_le_last_Z; assumption].
    unfold q_times in *. apply StronglySorted_inv in FS as [_ FS]. rewrite Forall_forall in FS.
    destruct Hx as [<-|Hx]; [lia|]. specialize (FS x Hx). lia. }
  split.
  - apply StronglySorted_app; [exact FS|exact IS|]. intros x y Hx Hy. rewrite Forall_forall in IF.
    specialize (IF y Hy). cbv beta in IF. specialize (Hle x Hx). lia.
  - destruct prevT as [T|]; [|rewrite Forall_forall; intros; exact I]. apply Forall_app. split.
    + rewrite Forall_forall. intros x Hx. specialize (Hle x Hx). lia.
    + eapply Forall_impl; [|exact IF]. intros x Hx; cbv beta in Hx.
      specialize (Hle (q_t0 q) (or_introl eq_refl)). lia.
Qed.

Lemma times_last : forall qs Ds, Forall2 chunk_spans qs Ds -> qs <> [] ->
  last (flat_map q_times qs) 0 = last_t (concat Ds).
Proof.
  induction 1 as [|q D qs Ds (Hok & _ & _ & Hend & _) H IH]; intros Hq; [congruence|]. cbn [flat_map concat].
  destruct H as [|q' D' qs' Ds' (_ & HD' & _) _].
  - rewrite !app_nil_r, <- Hend. apply q_times_ok, Hok.
  - unfold last_t in *. rewrite !last_app_ne; [apply IH; discriminate| |cbn [flat_map q_times app]; discriminate].
    cbn [concat]. destruct D'; [congruence|discriminate].
Qed.

Definition prev_of (vs : list Z) : option (Z * Z) :=
  match vs with [] => None | _ => Some (last vs 0, adj vs) end.

Lemma expect_exact : forall qs Ds, Forall2 chunk_exact qs Ds -> forall Dpre,
  StronglySorted Z.lt (map fst (Dpre ++ concat Ds)) ->
  Forall (fun s => snd s = adj_at (Dpre ++ concat Ds) (fst s)) (expect (prev_of (map snd Dpre)) qs).
Proof.
  induction 1 as [|q D qs Ds Hq _ IH]; intros Dpre Hs; [constructor|]. cbn [expect concat] in *.
  destruct (chunk_in_context q D Dpre (concat Ds) Hq Hs) as (E1 & E2 & E3). cbv zeta in E1, E2.
  replace (match prev_of (map snd Dpre) with None => q_v0 q | Some (Lv, Tot) => Tot + step Lv (q_v0 q) end)
    with (adj (map snd Dpre ++ [q_v0 q])).
  2:{ destruct (map snd Dpre) as [|x P] eqn:E; [reflexivity|]. rewrite adj_snoc by discriminate. reflexivity. }
  apply Forall_app. split; [exact E1|]. rewrite E2, E3.
  replace (Some (last (map snd (Dpre ++ D)) 0, adj (map snd (Dpre ++ D)))) with (prev_of (map snd (Dpre ++ D))).
  2:{ destruct Hq as [(_ & Hne & _) _]. rewrite map_app. destruct D; [congruence|]. destruct (map snd Dpre); reflexivity. }
  rewrite app_assoc in *. apply IH, Hs.
Qed.

(* what the property says of a read-out of the counter aggregate of the raw samples d *)
Definition exact_read (d emitted : list (Z * Z)) : Prop :=
  Forall (fun s => snd s = adj_at d (fst s)) emitted /\
  StronglySorted Z.lt (map fst emitted) /\
  (d = [] -> emitted = []) /\
  (d <> [] -> emitted <> [] /\ snd (last emitted (0, 0)) = adj (map snd d)).

(* Reading a sequence of chunks that record the consecutive stretches Ds of a time-ordered
   series; the last sample read also carries the series' last timestamp. *)
Theorem stitched_exact qs Ds :
  Forall2 chunk_exact qs Ds -> StronglySorted Z.lt (map fst (concat Ds)) ->
  let d := concat Ds in
  let emitted := expect None qs in
  q_chain None qs /\ exact_read d emitted /\
  (d <> [] -> fst (last emitted (0, 0)) = last_t d).
Proof.
  intros Hex Hs. cbv zeta.
  assert (Hsp : Forall2 chunk_spans qs Ds) by (eapply Forall2_weaken; [|exact Hex]; intros q D [H _]; exact H).
  pose proof (chunks_chain qs Ds Hsp None Hs I) as Hch.
  pose proof (expect_exact qs Ds Hex [] Hs) as A. cbn [app map prev_of] in A.
  destruct (times_sorted qs None Hch) as (ES & _). rewrite <- (expect_times qs None) in ES.
  assert (Ef : concat Ds <> [] -> expect None qs <> [] /\ fst (last (expect None qs) (0, 0)) = last_t (concat Ds)).
  { intros Hd. assert (Hqne : qs <> []) by (intros ->; inversion Hsp; subst; apply Hd; reflexivity).
    split; [destruct qs; [congruence|cbn [expect app]; discriminate]|].
    rewrite <- (times_last qs Ds Hsp Hqne), <- (expect_times qs None). symmetry. exact (last_map fst _ (0, 0)). }
  split; [exact Hch|]. split; [|apply Ef]. split; [exact A|]. split; [exact ES|]. split.
  - intros Hd. destruct Hsp as [|q D qs Ds (_ & Hne & _) _]; [reflexivity|].
    apply app_eq_nil in Hd as [Hd _]. congruence.
  - intros Hd. destruct (Ef Hd) as [Hene E]. split; [exact Hene|].
    rewrite Forall_forall in A. rewrite (A _ (last_in _ _ Hene)), E. apply adj_at_last, Hs.
Qed.

Lemma chunks_read_exact ks qs Ds d :
  present k_counter ks = map q_samples qs -> Forall2 chunk_exact qs Ds ->
  concat Ds = d -> StronglySorted Z.lt (map fst d) ->
  exists emitted, read_counter ks = Some emitted /\ exact_read d emitted.
Proof.
  intros Hp Hex <- Hs. destruct (stitched_exact qs Ds Hex Hs) as (Hch & X & _).
  exists (expect None qs). split; [exact (read_counter_chunks ks qs Hp Hch)|exact X].
Qed.

(* the raw values consumed up to the end of each window *)
Fixpoint prefixes (pre : list Z) (gout : list (Z * list (Z * Z))) : list (list Z) :=
  match gout with
  | [] => []
  | g :: r => (pre ++ map snd (snd g)) :: prefixes (pre ++ map snd (snd g)) r
  end.

Lemma run_list_counters : forall out gout pre,
  run_list pre out gout -> Forall (fun g : Z * list (Z * Z) => snd g <> []) gout ->
  map (fun o : Z * fagg => a_counter (snd o)) out = map adj (prefixes pre gout).
Proof.
  induction out as [|o out IH]; intros [|g gout] pre H Hne; cbn in H; try contradiction; [reflexivity|].
  destruct H as [[_ Ho] H]. apply Forall_cons_iff in Hne as [Hg Hne]. cbn [map prefixes].
  rewrite (IH _ _ H Hne). f_equal. apply Ho. destruct (snd g); [congruence|]. destruct pre; discriminate.
Qed.

(* windows of one batch: later windows lie strictly after earlier labels *)
Fixpoint sep_windows (ws : list (Z * list (Z * Z))) : Prop :=
  match ws with
  | [] => True
  | g :: r => Forall (fun g' : Z * list (Z * Z) => Forall (fun s' => fst g < fst s') (snd g')) r /\ sep_windows r
  end.

(* ... so the values consumed up to the end of a window are those of the samples up to its label *)
Lemma prefixes_upto : forall ws pre,
  Forall (fun g : Z * list (Z * Z) => Forall (fun s => fst s <= fst g) (snd g)) ws ->
  StronglySorted Z.lt (map fst ws) -> sep_windows ws ->
  prefixes pre ws = map (fun g => pre ++ map snd (upto (fst g) (concat (map snd ws)))) ws.
Proof.
  induction ws as [|g r IH]; intros pre Hin Hs Hsep; [reflexivity|]. destruct Hsep as [Hsg Hsep].
  apply Forall_cons_iff in Hin as [Hg Hin]. cbn [map] in Hs. apply StronglySorted_inv in Hs as [Hs Hlab].
  cbn [prefixes map concat]. f_equal.
  - rewrite upto_app, (upto_all _ _ Hg), upto_none, app_nil_r; [reflexivity|].
    apply Forall_concat. rewrite Forall_map. exact Hsg.
  - rewrite (IH _ Hin Hs Hsep). apply map_ext_in. intros g' Hg'.
    rewrite upto_app, (upto_all _ (snd g)), map_app, app_assoc; [reflexivity|].
    rewrite Forall_map, Forall_forall in Hlab. specialize (Hlab g' Hg'). cbv beta in Hlab.
    eapply Forall_impl; [|exact Hg]. intros s Hs'; cbv beta in Hs'. lia.
Qed.

(* values read off the adjusted counter of D = (t0, v0) :: D' at increasing timestamps from
   t0 on have the format of a chunk's per-window samples *)
Lemma exact_mids_ok t0 v0 D' mids :
  StronglySorted Z.lt (map fst ((t0, v0) :: D')) -> Forall (fun s : Z * Z => 0 <= snd s) ((t0, v0) :: D') ->
  StronglySorted Z.lt (map fst mids) -> Forall (fun m : Z * Z => t0 <= fst m) mids ->
  Forall (fun m => snd m = adj_at ((t0, v0) :: D') (fst m)) mids ->
  mids_ok t0 v0 mids.
Proof.
  intros HsD Hv Hs Hge Hm.
  assert (E0 : adj_at ((t0, v0) :: D') t0 = v0).
  { apply adj_at_first. cbn [map] in HsD. apply StronglySorted_inv in HsD as [_ H]. rewrite Forall_map in H. exact H. }
  set (D := (t0, v0) :: D') in *.
  split; [exact Hs|]. split.
  - replace (v0 :: map snd mids) with (map (adj_at D) (t0 :: map fst mids)).
    2:{ cbn [map]. rewrite E0, map_map. f_equal. symmetry. apply map_ext_in. rewrite Forall_forall in Hm. exact Hm. }
    apply (StronglySorted_map_in Z.le Z.le).
    + constructor; [apply sorted_lt_le, Hs|]. rewrite Forall_map. exact Hge.
    + intros x y _ _ Hxy. apply adj_at_mono; [apply sorted_lt_le, HsD|exact Hv|exact Hxy].
  - destruct mids as [|m ms]; [exact I|]. apply Forall_inv in Hge, Hm. split; [exact Hge|].
    intros E. rewrite Hm, E. exact E0.
Qed.

Section Batch.
Variable res : Z.
Hypothesis res_pos : 0 < res.

Lemma batch_run b : good_batch b ->
  run_list [] (fst (downsample_batch cw res b)) (batch_windows cw res b).
Proof.
  intros [Hne [Hs Hnn]]. unfold downsample_batch, batch_windows.
  assert (HL : 0 <= last_t b).
  { rewrite Forall_forall in Hnn. apply (Hnn _ (last_in b (0, 0) Hne)). }
  assert (Hcw : forall t, 0 <= t -> 0 <= cw t res) by (intros t Ht; pose proof (cw_ge res res_pos t Ht); lia).
  pose proof (db_run_lockstep cw res (last_t b) b (-1) a0 [] []
                (conj eq_refl (fun H => False_ind _ (H eq_refl))) (fun _ => eq_refl) Hnn HL Hcw) as L.
  pose proof (db_loop_total cw res (last_t b) b (-1) a0) as T.
  destruct (db_loop cw res (last_t b) b (-1) a0) as [out [nT a']].
  destruct (gh_loop cw res (last_t b) b (-1) []) as [gout [gT cur']].
  destruct L as [L1 L2]. cbn [fst snd] in *.
  replace (a_total a' >? 0) with true
    by (symmetry; apply Z.gtb_lt; rewrite T; cbn [a_total a0]; destruct b; [congruence|cbn [length]; lia]).
  apply run_list_app; [exact L1|]. cbn [run_list app snd map]. split; [|exact I].
  cbn [app] in L2. exact L2.
Qed.

Lemma batch_sep_windows b : good_batch b -> sep_windows (batch_windows cw res b).
Proof.
  intros Hg. destruct (batch_windows_facts cw res (cw_ge res res_pos) (cw_same res res_pos) b Hg)
    as (_ & Bok & _ & Bcs & _).
  induction (batch_windows cw res b) as [|g r IH]; [exact I|].
  apply Forall_cons_iff in Bok as [Hgok Bok]. cbn [map] in Bcs. apply StronglySorted_inv in Bcs as [Bcs Hlt].
  cbn [sep_windows]. split; [|apply IH; assumption].
  rewrite Forall_forall. intros g' Hin. rewrite Forall_forall. intros s' Hs'.
  rewrite Forall_forall in Bok. destruct (Bok g' Hin) as (_ & _ & A). rewrite Forall_forall in A.
  destruct (A s' Hs') as (H0 & _ & Ecw).
  rewrite Forall_map, Forall_forall in Hlt. specialize (Hlt g' Hin). cbv beta in Hlt.
  destruct Hgok as (_ & Hg0 & _).
  destruct (Z_lt_le_dec (fst g) (fst s')) as [H|H]; [exact H|exfalso].
  pose proof (cw_mono cw res (cw_ge res res_pos) (cw_same res res_pos) (fst s') (fst g) H0 H). lia.
Qed.

(* the counter chunk of a batch, as a cchunk *)
Definition q_of (b : list (Z * Z)) : cchunk :=
  mkQ (fst (hd (0, 0) b)) (snd (hd (0, 0) b))
      (proj a_counter (fst (downsample_batch cw res b))) (snd (last b (0, 0))).

Definition counter_batch (b : list (Z * Z)) : Prop :=
  good_batch b /\ StronglySorted Z.lt (map fst b) /\ Forall (fun s => 0 <= snd s) b.

(* the per-window samples: the windows' labels, with floatAggregator.counter after each window *)
Lemma q_of_mids b : good_batch b ->
  map fst (q_mids (q_of b)) = map fst (batch_windows cw res b) /\
  map snd (q_mids (q_of b)) = map adj (prefixes [] (batch_windows cw res b)).
Proof.
  intros Hg. destruct (batch_windows_facts cw res (cw_ge res res_pos) (cw_same res res_pos) b Hg)
    as (_ & Bok & _ & _ & _ & _ & BF & _).
  unfold q_of, proj. cbn [q_mids]. rewrite !map_map. cbn [fst snd]. split.
  - exact (snap_ok_labels _ _ BF).
  - apply run_list_counters; [apply batch_run, Hg|]. eapply Forall_impl; [|exact Bok]. intros p (H & _). exact H.
Qed.

Lemma q_of_exact b : counter_batch b -> chunk_exact (q_of b) b.
Proof.
  intros (Hg & Hstrict & Hval).
  destruct (batch_windows_facts cw res (cw_ge res res_pos) (cw_same res res_pos) b Hg)
    as (Bcat & Bok & Bsort & _).
  destruct (batch_labels cw res (cw_ge res res_pos) (cw_same res res_pos) b Hg) as (Lne & Lsort & Llast & Lge).
  destruct (q_of_mids b Hg) as [Emf Ems].
  assert (El : map fst (q_mids (q_of b)) = map fst (fst (downsample_batch cw res b)))
    by (unfold q_of, proj; cbn [q_mids]; apply map_map).
  rewrite <- El in Lne, Lsort, Llast, Lge.
  assert (C1 : Forall (fun g : Z * list (Z * Z) => Forall (fun s => fst s <= fst g) (snd g)) (batch_windows cw res b)).
  { eapply Forall_impl; [|exact Bok]. intros g (_ & _ & A). eapply Forall_impl; [|exact A]. intros s (_ & H & _). exact H. }
  assert (Hm : Forall (fun m => snd m = adj_at b (fst m)) (q_mids (q_of b))).
  { apply Forall_forall, map_ext_in_iff. rewrite <- (map_map fst (adj_at b)), Emf, Ems.
    rewrite (prefixes_upto _ [] C1 Bsort (batch_sep_windows b Hg)), Bcat, !map_map. reflexivity. }
  assert (Hend : q_end (q_of b) = last_t b) by (unfold q_end; rewrite (last_default _ _ 0 Lne); exact Llast).
  destruct Hg as [Hne _]. destruct b as [|[t0 v0] b']; [congruence|].
  split; [|exact Hm]. split; [|repeat split; [discriminate|exact Hend]].
  apply (exact_mids_ok t0 v0 b'); [exact Hstrict|exact Hval|exact Lsort| |exact Hm].
  (* every label is at or after some sample of the batch, hence after the first *)
  rewrite Forall_map in Lge. eapply Forall_impl; [|exact Lge]. intros m (s & Hsb & Hsw).
  cbn [map] in Hstrict. apply StronglySorted_inv in Hstrict as [_ H]. rewrite Forall_map, Forall_forall in H.
  destruct Hsb as [<-|Hsb]; [exact Hsw|]. specialize (H s Hsb). cbn [fst] in *. lia.
Qed.

Lemma q_of_ok b : counter_batch b ->
  q_ok (q_of b) /\ q_end (q_of b) = last_t b /\
  k_counter (float_batch cw res b) = Some (q_samples (q_of b)) /\
  map snd (q_mids (q_of b)) = map adj (prefixes [] (batch_windows cw res b)).
Proof.
  intros Hcb. destruct (q_of_exact b Hcb) as [(Hok & _ & _ & Hend & _) _]. destruct Hcb as [Hg _].
  split; [exact Hok|]. split; [exact Hend|]. split; [|apply q_of_mids, Hg].
  destruct (batch_windows_facts cw res (cw_ge res res_pos) (cw_same res res_pos) b Hg) as (_ & _ & _ & _ & _ & _ & _ & BnT).
  unfold q_samples. rewrite Hend. unfold float_batch, q_of.
  destruct (downsample_batch cw res b) as [out lt]. cbn [fst snd q_t0 q_v0 q_mids q_vl k_counter] in *.
  rewrite BnT. destruct (hd (0, 0) b). reflexivity.
Qed.

End Batch.

Lemma keep_nonnan_sorted_lt l :
  StronglySorted Z.lt (map fst l) -> StronglySorted Z.lt (map fst (keep_nonnan l)).
Proof.
  induction l as [|[t [v|]] l IH]; intros Hs; cbn [keep_nonnan flat_map map app fst snd] in *.
  - constructor.
  - apply StronglySorted_inv in Hs as [Hs Hle]. constructor; [apply IH; exact Hs|].
    rewrite Forall_map in Hle |- *. apply (keep_nonnan_forall (fun x => t < x)). exact Hle.
  - apply StronglySorted_inv in Hs as [Hs _]. apply IH. exact Hs.
Qed.

Lemma keep_nonnan_vals l :
  Forall (fun s : Z * option Z => match snd s with Some v => 0 <= v | None => True end) l ->
  Forall (fun s : Z * Z => 0 <= snd s) (keep_nonnan l).
Proof.
  intros H. rewrite Forall_forall in *. intros s Hin.
  apply keep_nonnan_in in Hin as (s' & Hin & _ & E). specialize (H s' Hin). rewrite E in H. exact H.
Qed.

Section Level1.
Variable res : Z.
Hypothesis res_pos : 0 < res.

Lemma level1_structure nc data :
  valid_counter res data ->
  exists batches,
    level1 res nc data = Some (map (float_batch cw res) batches) /\
    concat batches = keep_nonnan data /\
    Forall (counter_batch) batches /\ seps cw res batches.
Proof.
  intros (_ & Hs & Hb). unfold level1, downsample_raw.
  assert (Hnn : Forall (fun s : Z * option Z => 0 <= fst s) data)
    by (eapply Forall_impl; [|exact Hb]; intros s [? _]; lia).
  destruct (raw_batches_spec cw res (cw_ge res res_pos) (cw_same res res_pos) (length data / nc + 1)%nat ltac:(lia)
              (length data) data (le_n _) (sorted_lt_le _ Hs) Hnn) as (batches & E & Hcat & Hne & Hsep & Hgood).
  exists batches. rewrite E. split; [reflexivity|]. split; [exact Hcat|]. split; [|exact Hsep].
  pose proof (keep_nonnan_sorted_lt data Hs) as Hks. rewrite <- Hcat in Hks.
  pose proof (concat_parts_sorted _ Hks) as Hst.
  assert (Hv : Forall (fun s : Z * Z => 0 <= snd s) (concat batches)).
  { rewrite Hcat. apply keep_nonnan_vals. eapply Forall_impl; [|exact Hb]. intros s [_ H]. exact H. }
  apply Forall_concat in Hv.
  rewrite Forall_forall in *. intros b Hin. split; [split; [apply Hne|apply Hgood]; exact Hin|].
  split; [apply Hst|apply Hv]; exact Hin.
Qed.

Lemma present_counters : forall batches,
  Forall counter_batch batches ->
  present k_counter (map (float_batch cw res) batches) = map q_samples (map (q_of res) batches).
Proof.
  induction batches as [|b r IH]; intros H; [reflexivity|].
  apply Forall_cons_iff in H as [Hb H]. unfold present in *. cbn [map flat_map].
  destruct (q_of_ok res res_pos b Hb) as (_ & _ & Ek & _). rewrite Ek, (IH H). reflexivity.
Qed.

Lemma batches_exact batches :
  Forall counter_batch batches -> Forall2 chunk_exact (map (q_of res) batches) batches.
Proof.
  intros H. apply (Forall_impl _ (q_of_exact res res_pos)), (Forall2_maps _ _ (fun b => b)) in H.
  rewrite map_id in H. exact H.
Qed.

End Level1.

(* Level 1: reading the counter aggregate of DownsampleRaw's output yields, at every emitted
   timestamp, the raw counter adjusted for all resets up to the last raw sample at or before it *)
Lemma level1_full res nc data :
  valid_counter res data ->
  exists l1 emitted,
    level1 res nc data = Some l1 /\ read_counter l1 = Some emitted /\ exact_read (keep_nonnan data) emitted.
Proof.
  intros Hv. pose proof Hv as (Hr & Hstrict & _).
  destruct (level1_structure res Hr nc data Hv) as (batches & E & Hcat & Hcb & _).
  destruct (chunks_read_exact _ _ _ _ (present_counters res Hr batches Hcb) (batches_exact res Hr batches Hcb) Hcat
              (keep_nonnan_sorted_lt data Hstrict)) as (em & R & X).
  exists (map (float_batch cw res) batches), em. split; [exact E|]. split; [exact R|exact X].
Qed.

(* Seek is implemented with Next: whatever Next/Seek program is run on any chunks, it terminates
   and every sample it returns is one that the Next-only reading returns *)
Lemma programs_subset ks prog em :
  read_counter ks = Some em ->
  exists pres,
    run_prog prog (counter_toks ks) acr0 = Some pres /\
    Forall (fun o => match o with Some s => In s em | None => True end) pres.
Proof.
  intros R. pose proof (run_prog_total prog (counter_toks ks) acr0) as T.
  destruct (run_prog prog (counter_toks ks) acr0) as [pres|] eqn:Ep; [|congruence].
  exists pres. split; [reflexivity|].
  assert (HR : Rem (counter_toks ks) acr0 em).
  { unfold Rem, RUN. unfold read_counter in R. destruct (acr_run _ _ acr0) as [[out fin]|]; [|discriminate].
    injection R as ->. eexists. reflexivity. }
  exact (prog_subset prog _ _ em em pres HR (ex_intro _ [] eq_refl) ltac:(cbn; discriminate) Ep).
Qed.

(* ... hence, on the 5m chunks, the adjusted raw counter at its timestamp *)
Lemma programs_exact res nc data l1 prog :
  valid_counter res data -> level1 res nc data = Some l1 ->
  exists pres,
    run_prog prog (counter_toks l1) acr0 = Some pres /\
    Forall (fun o => match o with Some s => snd s = adj_at (keep_nonnan data) (fst s) | None => True end) pres.
Proof.
  intros Hv E1. destruct (level1_full res nc data Hv) as (l1' & em & E1' & R & A & _).
  rewrite E1 in E1'. injection E1' as <-.
  destruct (programs_subset l1 prog em R) as (pres & Ep & S). exists pres. split; [exact Ep|].
  eapply Forall_impl; [|exact S]. intros [s|] Hs; [|exact I]. rewrite Forall_forall in A. apply A, Hs.
Qed.

Lemma strictly_inc_sorted l : strictly_inc l = true <-> StronglySorted Z.lt l.
Proof.
  split; intros H.
  - apply Sorted_StronglySorted; [exact Z.lt_trans|].
    induction l as [|a l IH]; [constructor|]. destruct l as [|b l']; [repeat constructor|].
    change (strictly_inc (a :: b :: l')) with ((a <? b) && strictly_inc (b :: l')) in H.
    apply andb_true_iff in H as [Hab H]. constructor; [exact (IH H)|constructor; apply Z.ltb_lt, Hab].
  - apply StronglySorted_Sorted in H. induction H as [|a l _ IH Hd]; [reflexivity|].
    destruct Hd as [|b l' Hab]; [reflexivity|].
    change (strictly_inc (a :: b :: l')) with ((a <? b) && strictly_inc (b :: l')).
    apply Z.ltb_lt in Hab. rewrite Hab, IH. reflexivity.
Qed.

Lemma valid_input_counter res1 res2 data : valid_input res1 res2 data = true -> valid_counter res1 data.
Proof.
  unfold valid_input. intros H. apply andb_true_iff in H as [H Hinc]. apply andb_true_iff in H as [H Hall].
  apply andb_true_iff in H as [Hr1 _]. apply Z.ltb_lt in Hr1. split; [exact Hr1|].
  split; [apply strictly_inc_sorted, Hinc|].
  rewrite forallb_forall in Hall. rewrite Forall_forall. intros s Hs. specialize (Hall s Hs).
  apply andb_true_iff in Hall as [Hall Hv]. apply andb_true_iff in Hall as [A B].
  apply Z.leb_le in A. apply Z.leb_le in B. split; [lia|].
  destruct (snd s); [apply Z.leb_le; exact Hv|exact I].
Qed.

Lemma values_ok_intro d em : Forall (fun s => snd s = adj_at d (fst s)) em -> values_ok d em = true.
Proof. intros A. apply forallb_forall. rewrite Forall_forall in A. intros s Hs. apply Z.eqb_eq, A, Hs. Qed.

Lemma level_ok_intro d em : exact_read d em -> level_ok d em = true.
Proof.
  intros (A & S & Z0 & L). unfold level_ok, reads_ok. rewrite (values_ok_intro d em A), (proj2 (strictly_inc_sorted _) S).
  unfold last_ok. destruct d as [|s0 d'].
  - rewrite (Z0 eq_refl). reflexivity.
  - destruct (L ltac:(discriminate)) as [Hne Hl]. destruct em; [congruence|]. apply Z.eqb_eq, Hl.
Qed.

Lemma level1_values res1 res2 nc data :
  valid_input res1 res2 data = true ->
  exists l1 emitted,
    level1 res1 nc data = Some l1 /\ read_counter l1 = Some emitted /\
    values_ok (keep_nonnan data) emitted = true.
Proof.
  intros Hv. destruct (level1_full res1 nc data (valid_input_counter _ _ _ Hv)) as (l1 & em & E & R & A & _).
  exists l1, em. split; [exact E|]. split; [exact R|apply values_ok_intro, A].
Qed.

Lemma level1_pred res1 res2 nc data :
  valid_input res1 res2 data = true ->
  exists l1 emitted,
    level1 res1 nc data = Some l1 /\ read_counter l1 = Some emitted /\
    level_ok (keep_nonnan data) emitted = true.
Proof.
  intros Hv. destruct (level1_full res1 nc data (valid_input_counter _ _ _ Hv)) as (l1 & em & E & R & X).
  exists l1, em. split; [exact E|]. split; [exact R|apply level_ok_intro, X].
Qed.

(* tie T for the batch sizes: the formulas written in the model are the ones in the
   Go source (regenerated into Gen on every run); instances for Gen.C37's copies *)
Lemma raw_batch_size_model len nc :
  Z.to_nat (raw_batch_size (Z.of_nat len) (Z.of_nat nc)) = (len / nc + 1)%nat.
Proof. exact (raw_batch_size_nat raw_batch_size (fun _ _ => eq_refl) len nc). Qed.

Lemma aggr_batch_size_model len nc :
  Z.to_nat (aggr_batch_size (Z.of_nat len) (Z.of_nat nc)) = Nat.max (len / nc) 1.
Proof.
  unfold aggr_batch_size. cbv zeta beta. rewrite quot_of_nat.
  change 1 with (Z.of_nat 1). rewrite <- Nat2Z.inj_max. apply Nat2Z.id.
Qed.

(* tie T: the comparison of downsampleRawLoop's batch-extension loop in the Go source is the
   inclusive `<=` the model's take_le uses (curW is the window's last millisecond) *)
Lemma ext_take_model : forall t w, ext_take t w = (t <=? w).
Proof. intros t w. reflexivity. Qed.

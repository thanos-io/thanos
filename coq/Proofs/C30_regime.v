(* C30 — two regimes that plan / apply keeps (aligned and non-overlapping; every
   block inside one window of the largest range), what they give at the state
   where the planner stops, and when a vertical merge exceeds the largest range. *)
From Coq Require Import ZArith List Bool Lia Arith Permutation.
Import ListNotations.
From Verif Require Import Lib.Corr Lib.ListFacts Lib.Compact_List Gen.C30 Model.C30 Proofs.C30.
Open Scope Z_scope.

(* a block has positive length (TSDB blocks: MinTime < MaxTime) *)
Definition pos (m : meta) : Prop := mint m < maxt m.

(* two blocks do not overlap (order-free) *)
Definition srel (a b : meta) : Prop := maxt a <= mint b \/ maxt b <= mint a.
Definition sdisj (l : list meta) : Prop := pairwise srel l.

Lemma srel_sym a b : srel a b -> srel b a.
Proof. unfold srel. tauto. Qed.

(* a block lies inside one aligned window [iv*k, iv*k+iv] of a configured range *)
Definition aligned (ranges : list Z) (m : meta) : Prop :=
  exists iv k, In iv ranges /\ iv * k <= mint m /\ maxt m <= iv * k + iv.

(* the regime: sorted by MinTime, positive lengths, the not-excluded blocks
   pairwise non-overlapping, every block aligned *)
Definition Reg (ranges marks : list Z) (l : list meta) : Prop :=
  sorted_mint l /\ Forall pos l /\ sdisj (filter (unmarked marks) l) /\ Forall (aligned ranges) l.

Lemma ordered_disjoint l : sorted_mint l -> Forall pos l -> sdisj l -> disjoint_sorted l.
Proof.
  intros Hs Hp Hd. unfold disjoint_sorted.
  apply (pairwise_Forall2 (fun a b => mint a <= mint b) srel _ pos l); auto.
  intros a b Ha Hb Hab [H|H]; auto. unfold pos in *. lia.
Qed.

Lemma sorted_filter f l : sorted_mint l -> sorted_mint (filter f l).
Proof. apply pairwise_sublist, sublist_filter. Qed.

Lemma hull_pos p newid : p <> [] -> Forall pos p -> pos (hull p newid).
Proof.
  intros Hne Hp. destruct p as [|a r]; [congruence|]. inversion Hp; subst.
  destruct (hull_bounds (a :: r) newid a (or_introl eq_refl)). unfold pos in *. lia.
Qed.

Lemma hull_single m newid : mint (hull [m] newid) = mint m /\ maxt (hull [m] newid) = maxt m.
Proof. unfold hull. simpl. split; lia. Qed.

Lemma window_plan_aligned ranges marks l p newid :
  plan ranges marks l = Some p -> disjoint_sorted (filter (unmarked marks) l) ->
  positive_ranges ranges -> sorted_mint l -> (2 <= length p)%nat -> aligned ranges (hull p newid).
Proof.
  intros Hp Hds Hr Hs Hlen. destruct (plan_disjoint_window _ _ _ _ Hp Hds Hr Hs Hlen) as (iv & k & Hiv & Hw).
  assert (Hne : p <> []) by (intros ->; simpl in Hlen; lia).
  destruct (hull_in_window (iv * k) iv p newid Hne Hw).
  exists iv, k. repeat split; auto. destruct ranges; [contradiction | now right].
Qed.

Lemma sdisj_apply marks l p newid :
  Forall (srel (hull p newid)) (filter (unmarked marks) (filter (fun m => negb (in_plan p m)) l)) ->
  sdisj (filter (unmarked marks) l) -> sdisj (filter (unmarked marks) (apply_plan l p newid)).
Proof.
  intros Hh Hd. unfold sdisj.
  eapply (pairwise_perm srel srel_sym); [apply filter_perm, Permutation_sym, apply_plan_perm|].
  assert (sdisj (filter (unmarked marks) (filter (fun m => negb (in_plan p m)) l)))
    by (eapply pairwise_sublist; [apply sublist_filter_mono, sublist_filter | exact Hd]).
  simpl. destruct (unmarked marks (hull p newid)); simpl; auto.
Qed.

Lemma reg_step ranges marks l p newid :
  positive_ranges ranges -> Reg ranges marks l -> plan ranges marks l = Some p -> p <> [] ->
  Reg ranges marks (apply_plan l p newid).
Proof.
  intros Hr (Hs & Hpos & Hd & Hal) Hp Hne.
  assert (Hds : disjoint_sorted (filter (unmarked marks) l)).
  { apply ordered_disjoint; auto using sorted_filter. eapply sublist_Forall; [apply sublist_filter | exact Hpos]. }
  assert (Hposp : Forall pos p) by (eapply sublist_Forall; [eapply plan_sublist|]; eauto).
  set (keep := fun m => negb (in_plan p m)).
  assert (Hrest : forall q, In q (filter (unmarked marks) (filter keep l)) ->
                            In q (filter (unmarked marks) l) /\ ~ In q p).
  { intros q Hq. apply filter_In in Hq. destruct Hq as [Hq Hu]. apply filter_In in Hq. destruct Hq as [Hq Hk].
    split; [apply filter_In; auto|]. intros Hin. unfold keep in Hk. now rewrite (in_plan_self p q Hin) in Hk. }
  (* the new block does not overlap any remaining not-excluded block, and is aligned *)
  assert (Hnew : Forall (srel (hull p newid)) (filter (unmarked marks) (filter keep l)) /\ aligned ranges (hull p newid)).
  { rewrite Forall_forall.
    destruct (plan_origin _ _ _ _ Hp) as [[-> Hlen]|[_ [->| iv g _ Hg Hseg Hlen Hup | m t -> Hmu _ _ _ _]]].
    - apply select_overlapping_nil in Hds. rewrite Hds in Hlen. simpl in Hlen. lia.
    - congruence.
    - (* a range plan is contiguous in the list, hence in the not-excluded blocks: those
         before it end before it starts, those after it start after it ends *)
      split; [|exact (window_plan_aligned _ _ _ _ _ Hp Hds Hr Hs Hlen)].
      assert (Hsg : segment p (filter (unmarked marks) l)).
      { apply segment_filter; [|apply Forall_forall, Hup].
        exact (segment_trans _ _ _ Hseg (segment_trans _ _ _ (group_segment _ _ _ Hg) (segment_removelast l))). }
      intros q Hq. destruct (Hrest q Hq) as [Hq1 Hqp].
      destruct (pairwise_segment _ _ _ q Hsg Hds Hq1) as [Hc|[Hb|Ha]]; [contradiction| |].
      + right. apply hull_ge; auto. apply Forall_forall, Hb.
      + left. apply hull_le; auto. apply Forall_forall, Ha.
    - (* a single tombstone-heavy block is rewritten in place *)
      destruct (hull_single m newid) as [E1 E2]. unfold srel, aligned. rewrite E1, E2. split.
      + intros q Hq. destruct (Hrest q Hq) as [Hq1 Hqp].
        apply (pairwise_In_distinct srel srel_sym _ m q Hd); auto. intros ->. apply Hqp. now left.
      + rewrite Forall_forall in Hal. apply Hal. apply filter_In in Hmu. tauto. }
  destruct Hnew as [Hrel Halh]. repeat split.
  - apply sorted_apply, Hs.
  - apply apply_plan_Forall; auto using hull_pos.
  - apply sdisj_apply; auto.
  - apply apply_plan_Forall; auto.
Qed.

Definition maxr (ranges : list Z) : Z := fold_right Z.max 0 ranges.

Lemma maxr_ge ranges iv : In iv ranges -> iv <= maxr ranges.
Proof. unfold maxr. induction ranges as [|a r IH]; simpl; intros H; [contradiction|]. destruct H as [->|H]; [lia | specialize (IH H); lia]. Qed.

Lemma maxr_pos ranges : ranges <> [] -> positive_ranges ranges -> 0 < maxr ranges.
Proof.
  intros Hne Hp. destruct ranges as [|a r]; [congruence|]. inversion Hp; subst.
  pose proof (maxr_ge (a :: r) a (or_introl eq_refl)). lia.
Qed.

Lemma aligned_length ranges m : aligned ranges m -> maxt m - mint m <= maxr ranges.
Proof. intros (iv & k & Hiv & H1 & H2). pose proof (maxr_ge _ _ Hiv). lia. Qed.

(* when every configured range divides the largest one (Thanos: 2h | 8h | 2d | 14d),
   an aligned block lies inside one window of the largest range *)
Lemma aligned_max_window ranges m :
  positive_ranges ranges -> Forall (fun iv => (iv | maxr ranges)) ranges -> aligned ranges m -> pos m ->
  exists k, maxr ranges * k <= mint m /\ maxt m <= maxr ranges * k + maxr ranges.
Proof.
  intros Hp Hdiv (iv & k & Hiv & H1 & H2) Hpos.
  unfold positive_ranges in Hp. rewrite Forall_forall in Hp, Hdiv.
  specialize (Hp iv Hiv). destruct (Hdiv iv Hiv) as (c & Hc).
  pose proof (maxr_ge _ _ Hiv) as Hge. set (R := maxr ranges) in *.
  assert (Hcpos : 0 < c) by nia.
  exists (k / c).
  pose proof (Z.mul_div_le k c Hcpos). pose proof (Z.mul_succ_div_gt k c Hcpos).
  split; nia.
Qed.

Lemma regime_history ranges marks l newid :
  ranges <> [] -> positive_ranges ranges -> l <> [] -> wf l -> Reg ranges marks l ->
  exists h fin, iterate (S (measure l)) ranges marks l newid = Some (h, fin) /\
    plan ranges marks fin = Some [] /\ (length h <= measure l)%nat /\
    Reg ranges marks fin /\
    disjoint_sorted (filter (unmarked marks) fin) /\
    Forall (fun m => maxt m - mint m <= maxr ranges) fin.
Proof.
  intros Hne Hr Hl Hw HR.
  destruct (converges ranges marks l newid Hne Hl Hw) as (h & fin & Hit & Hfin & Hlen & Hdis).
  assert (HRf : Reg ranges marks fin).
  { eapply (iterate_invariant (Reg ranges marks)); [|exact HR|exact Hit]. intros. eapply reg_step; eauto. }
  exists h, fin. repeat split; auto; try apply HRf.
  destruct HRf as (_ & _ & _ & Hal). eapply Forall_impl; [|exact Hal]. intros m. apply aligned_length.
Qed.

Lemma regime_history_windows ranges marks l newid :
  ranges <> [] -> positive_ranges ranges -> Forall (fun iv => (iv | maxr ranges)) ranges ->
  l <> [] -> wf l -> Reg ranges marks l ->
  exists h fin, iterate (S (measure l)) ranges marks l newid = Some (h, fin) /\
    plan ranges marks fin = Some [] /\
    Forall (fun m => exists k, maxr ranges * k <= mint m /\ maxt m <= maxr ranges * k + maxr ranges) fin.
Proof.
  intros Hne Hr Hdiv Hl Hw HR.
  destruct (regime_history ranges marks l newid Hne Hr Hl Hw HR) as (h & fin & Hit & Hfin & _ & (_ & Hpos & _ & Hal) & _ & _).
  exists h, fin. repeat split; auto.
  apply Forall_forall. intros m Hm. rewrite Forall_forall in Hpos, Hal.
  apply aligned_max_window; auto.
Qed.

(* When the largest range IS exceeded: a vertical merge of a misaligned
   overlapping chain.  For every largest range R > 1: two blocks of length R,
   the second starting one unit before the first ends; both are planned (they
   overlap) and the block replacing them is 2R-1 long. *)
Definition chain (R : Z) : list meta :=
  [mk_meta 1 0 R false 0 0 1; mk_meta 2 (R - 1) (2 * R - 1) false 0 0 1].

Lemma overlap_can_exceed R : 1 < R ->
  plan [R] [] (chain R) = Some (chain R)
  /\ Forall (fun m => maxt m - mint m <= maxr [R]) (chain R)
  /\ sorted_mint (chain R) /\ Forall pos (chain R)
  /\ maxt (hull (chain R) 3) - mint (hull (chain R) 3) = 2 * R - 1
  /\ maxr [R] < maxt (hull (chain R) 3) - mint (hull (chain R) 3)
  /\ ~ Reg [R] [] (chain R).
Proof.
  intros HR. unfold chain, maxr. cbn [fold_right].
  assert (E : (R - 1 <? R) = true) by (apply Z.ltb_lt; lia).
  split; [|split; [|split; [|split; [|split; [|split]]]]].
  - unfold plan. cbn [filter unmarked marked existsb negb bid]. cbn [select_overlapping ov_scan ov_take mint maxt]. now rewrite E.
  - repeat constructor; cbn [mint maxt]; lia.
  - unfold sorted_mint. simpl. repeat split; repeat constructor; simpl; lia.
  - repeat constructor; unfold pos; cbn [mint maxt]; lia.
  - unfold hull. cbn [map hd fold_right mint maxt]. lia.
  - unfold hull. cbn [map hd fold_right mint maxt]. lia.
  - intros (_ & _ & Hd & _). cbn [filter unmarked marked existsb negb bid] in Hd.
    unfold sdisj in Hd. cbn [pairwise] in Hd. destruct Hd as [Hf _]. apply Forall_inv in Hf.
    unfold srel in Hf. cbn [mint maxt] in Hf. lia.
Qed.

(* Every block inside one window of the largest range: an invariant of
   plan/apply for ALL such inputs (overlapping or not) when every configured
   range divides the largest one. *)

Definition inwin (R k : Z) (m : meta) : Prop := R * k <= mint m /\ maxt m <= R * k + R.
Definition in_some_win (R : Z) (m : meta) : Prop := exists k, inwin R k m.

Definition Win (ranges : list Z) (l : list meta) : Prop :=
  sorted_mint l /\ Forall pos l /\ Forall (in_some_win (maxr ranges)) l.

Lemma same_window R k k' x : 0 < R -> R * k <= x < R * k + R -> R * k' <= x < R * k' + R -> k = k'.
Proof. intros. nia. Qed.

(* overlapping blocks of positive length share their window: a block that starts
   before the running maximum [g] of the chain, itself inside window k, starts
   inside window k *)
Lemma ov_take_window R k : 0 < R -> forall l g, g <= R * k + R ->
  Forall (fun m => R * k <= mint m) l -> Forall pos l -> Forall (in_some_win R) l ->
  Forall (inwin R k) (ov_take g l).
Proof.
  intros HR. induction l as [|m r IH]; intros g Hg Hlo Hp Hw; simpl; [constructor|].
  inversion Hlo; subst. inversion Hp; subst. inversion Hw; subst.
  destruct (mint m <? g) eqn:E; [|constructor]. apply Z.ltb_lt in E.
  destruct H5 as (k' & Hk1 & Hk2). unfold pos in H3.
  assert (k = k') by (apply (same_window R k k' (mint m)); auto; lia). subst k'.
  constructor; [split; auto|]. apply IH; auto. lia.
Qed.

Lemma ov_scan_window R : 0 < R -> forall l prev k,
  inwin R k prev -> pos prev ->
  Forall (fun m => mint prev <= mint m) l -> sorted_mint l -> Forall pos l -> Forall (in_some_win R) l ->
  exists k0, Forall (inwin R k0) (ov_scan prev (maxt prev) l).
Proof.
  intros HR. induction l as [|m r IH]; intros prev k Hprev Hpp Hlo Hs Hp Hw.
  - exists k. constructor.
  - cbn [ov_scan]. destruct (mint m <? maxt prev) eqn:E.
    + (* the chain found is prev followed by what ov_take takes of m :: r *)
      assert (Ht : m :: ov_take (Z.max (maxt prev) (maxt m)) r = ov_take (maxt prev) (m :: r))
        by (simpl; now rewrite E).
      rewrite Ht. exists k. destruct Hprev as [Hp1 Hp2]. constructor; [now split|].
      apply ov_take_window; auto. eapply Forall_impl; [|exact Hlo]. simpl. intros x Hx. lia.
    + apply Z.ltb_ge in E. inversion Hp; subst. inversion Hw as [|? ? (k' & Hk') ?]; subst. destruct Hs as [Hsm Hs].
      unfold pos in *. rewrite Z.max_r by lia. now apply (IH m k').
Qed.

Lemma select_overlapping_window R l : 0 < R -> sorted_mint l -> Forall pos l -> Forall (in_some_win R) l ->
  exists k0, Forall (inwin R k0) (select_overlapping l).
Proof.
  intros HR Hs Hp Hw. destruct l as [|m0 r]; simpl; [exists 0; constructor|].
  destruct Hs as [Hlo Hs]. inversion Hp; subst. inversion Hw as [|? ? (k & Hk) ?]; subst.
  now apply (ov_scan_window R HR r m0 k).
Qed.

Lemma win_step ranges marks l p newid :
  ranges <> [] -> positive_ranges ranges -> Forall (fun iv => (iv | maxr ranges)) ranges ->
  Win ranges l -> plan ranges marks l = Some p -> p <> [] -> Win ranges (apply_plan l p newid).
Proof.
  intros Hrne Hr Hdiv (Hs & Hpos & Hw) Hp Hne.
  pose proof (maxr_pos ranges Hrne Hr) as HR.
  assert (Hposp : Forall pos p) by (eapply sublist_Forall; [eapply plan_sublist|]; eauto).
  assert (Hh : in_some_win (maxr ranges) (hull p newid)).
  { destruct (plan_origin _ _ _ _ Hp) as [[E Hlen]|[Hov [->| iv g _ _ _ Hlen _ | m t -> Hmu _ _ _ _]]].
    - destruct (select_overlapping_window _ (filter (unmarked marks) l) HR) as (k0 & Hk0).
      + apply sorted_filter, Hs.
      + eapply sublist_Forall; [apply sublist_filter | exact Hpos].
      + eapply sublist_Forall; [apply sublist_filter | exact Hw].
      + exists k0. rewrite <- E in Hk0. now apply hull_in_window.
    - congruence.
    - apply select_overlapping_nil in Hov.
      apply aligned_max_window; auto using hull_pos, (window_plan_aligned _ _ _ _ newid Hp Hov).
    - destruct (hull_single m newid) as [E1 E2]. rewrite Forall_forall in Hw. apply filter_In in Hmu.
      destruct (Hw m (proj1 Hmu)) as (k & Hk1 & Hk2). exists k. unfold inwin. now rewrite E1, E2. }
  repeat split.
  - apply sorted_apply, Hs.
  - apply apply_plan_Forall; auto using hull_pos.
  - apply apply_plan_Forall; auto.
Qed.

Lemma inwin_length R m : in_some_win R m -> maxt m - mint m <= R.
Proof. intros (k & H1 & H2). lia. Qed.

Lemma window_history ranges marks l newid :
  ranges <> [] -> positive_ranges ranges -> Forall (fun iv => (iv | maxr ranges)) ranges ->
  l <> [] -> wf l -> Win ranges l ->
  exists h fin, iterate (S (measure l)) ranges marks l newid = Some (h, fin) /\
    plan ranges marks fin = Some [] /\ (length h <= measure l)%nat /\
    disjoint_sorted (filter (unmarked marks) fin) /\
    Forall (in_some_win (maxr ranges)) fin /\
    Forall (fun m => maxt m - mint m <= maxr ranges) fin.
Proof.
  intros Hne Hr Hdiv Hl Hw HW.
  destruct (converges ranges marks l newid Hne Hl Hw) as (h & fin & Hit & Hfin & Hlen & Hdis).
  assert (HWf : Win ranges fin).
  { eapply (iterate_invariant (Win ranges)); [|exact HW|exact Hit]. intros. eapply win_step; eauto. }
  exists h, fin. destruct HWf as (_ & _ & Hwf). repeat split; auto.
  eapply Forall_impl; [|exact Hwf]. intros m. apply inwin_length.
Qed.

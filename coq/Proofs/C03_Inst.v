(* C03 — facts about the concrete labels / chunks of Model/C03.v that do not depend on any
   regenerated source fact (shared with C06). *)
From Coq Require Import ZArith NArith List Bool Lia.
Import ListNotations.
From Verif Require Import Lib.Corr Lib.Proxy_Order Lib.Proxy_Model Model.C03.
Open Scope Z_scope.

Definition wrlb (wrl : list str) : bool := match wrl with [] => false | _ => true end.

Lemma keqb_spec a b : keqb a b = true <-> a = b.
Proof. unfold keqb. apply list_eqb_spec. exact (option_eqb_spec N.eqb N.eqb_eq). Qed.

(* "ordered by time": by MinTime, then MaxTime *)
Definition time_ord (a b : chunk) : Prop :=
  cmin a < cmin b \/ (cmin a = cmin b /\ cmax a <= cmax b).

Lemma cleb_true c d : cleb c d = true -> time_ord c d.
Proof.
  unfold cleb, aggr_compare, time_ord. intros H. apply negb_true_iff in H.
  destruct (cmin d <? cmin c) eqn:A; [cbn in H; discriminate|].
  destruct (cmin d >? cmin c) eqn:B; [apply Z.gtb_lt in B; lia|].
  apply Z.ltb_ge in A. rewrite Z.gtb_ltb in B. apply Z.ltb_ge in B.
  destruct (cmax d <? cmax c) eqn:A2; [cbn in H; discriminate|].
  apply Z.ltb_ge in A2. lia.
Qed.

Lemma cleb_false c d : cleb c d = false -> time_ord d c.
Proof.
  unfold cleb, aggr_compare, time_ord. intros H. apply negb_false_iff in H.
  destruct (cmin d <? cmin c) eqn:A; [apply Z.ltb_lt in A; lia|].
  destruct (cmin d >? cmin c) eqn:B; [cbn in H; discriminate|].
  apply Z.ltb_ge in A. rewrite Z.gtb_ltb in B. apply Z.ltb_ge in B.
  destruct (cmax d <? cmax c) eqn:A2; [apply Z.ltb_lt in A2; lia|].
  destruct (cmax d >? cmax c) eqn:B2; [cbn in H; discriminate|].
  apply Z.ltb_ge in A2. rewrite Z.gtb_ltb in B2. apply Z.ltb_ge in B2. lia.
Qed.


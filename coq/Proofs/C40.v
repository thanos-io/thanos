(* C40 — proofs: every output chunk carries, for each aggregate, a sample at
   every timestamp of its count aggregate. Two ingredients: the penalty merge
   picks samples by timestamp only, so the five aggregates of well-formed chunks
   merge to streams with the count aggregate's timestamps (the counter's up to
   its repeated last one); and toChunk (Proofs/C40_Chunk.v) cuts a stream at the
   count chunk's last timestamp without losing the sample it read ahead. *)
From Coq Require Import ZArith List Bool Lia.
Import ListNotations.
From Verif Require Import Lib.Corr Lib.ListFacts Lib.Dedup_Iter Lib.Dedup_SpecFacts Lib.Dedup_Refine Gen.C40 Model.C40.
From Verif Require Import Proofs.C40_Chunk.
Open Scope Z_scope.

Lemma cfg_is_ok : cfg_ok cfg.
Proof.
  unfold cfg_ok, cfg; cbn [ipen penfA penfB]. unfold initialPenalty, penA_formula, penB_formula.
  repeat split; intros; lia.
Qed.

Lemma source_shape : to_chunk_shape_ok = true.
Proof. vm_compute. reflexivity. Qed.

Lemma split_pos : (0 < Z.to_nat seriesToChunkEncoderSplit)%nat.
Proof. vm_compute. lia. Qed.

(* same timestamps; the right list may end with one repeated timestamp *)
Inductive trel : list sample -> list sample -> Prop :=
| trel_nil : trel [] []
| trel_cons x y l l' : ts x = ts y -> trel l l' -> trel (x :: l) (y :: l')
| trel_dup x y d : ts x = ts y -> ts d = ts y -> trel [x] [y; d].

Lemma trel_of_tss : forall l l', tss l = tss l' -> trel l l'.
Proof.
  induction l as [|x l IH]; intros [|y l'] H; simpl in H; try discriminate; [constructor|].
  inversion H. constructor; [assumption|apply IH; assumption].
Qed.

Lemma trel_app_dup : forall l l' d, l <> [] -> tss l = tss l' -> ts d = ts (last l (0, 0)) -> trel l (l' ++ [d]).
Proof.
  induction l as [|x l IH]; intros l' d Hne H Hd; [congruence|].
  destruct l' as [|y l']; simpl in H; [discriminate|]. inversion H.
  destruct l as [|x2 l].
  - destruct l'; [|discriminate]. simpl. simpl in Hd. apply trel_dup; congruence.
  - simpl. constructor; [assumption|]. apply IH; [discriminate|assumption|exact Hd].
Qed.

Lemma trel_drop t : forall l l', trel l l' -> trel (drop_lt t l) (drop_lt t l').
Proof.
  intros l l' H. induction H.
  - constructor.
  - simpl. rewrite <- H. destruct (ts x <? t); [exact IHtrel|constructor; assumption].
  - simpl. rewrite H0, <- H. destruct (ts x <? t); [constructor|apply trel_dup; assumption].
Qed.

Lemma trel_sdrop lt p l l' : trel l l' -> trel (sdrop lt p l) (sdrop lt p l').
Proof. intro H. destruct lt; simpl; [apply trel_drop|]; exact H. Qed.

(* related streams lead to the same decision, up to the value of the sample picked *)
Lemma choose_trel cfg lt pA pB la la' lb lb' :
  trel la la' -> trel lb lb' ->
  match choose cfg lt pA pB la lb, choose cfg lt pA pB la' lb' with
  | None, None => True
  | Some (_, s, qA, qB), Some (_, s', qA', qB') => ts s = ts s' /\ qA = qA' /\ qB = qB'
  | _, _ => False
  end.
Proof.
  intros [|xa ya ra ra' Hxa _|xa ya da Hxa _] [|xb yb rb rb' Hxb _|xb yb db Hxb _]; cbn; auto;
    rewrite Hxa, Hxb; destruct (ts ya <=? ts yb); auto.
Qed.

Lemma pm_trel cfg : forall f lt pA pB la la' lb lb',
  trel la la' -> trel lb lb' ->
  tss (pm cfg f lt pA pB la lb) = tss (pm cfg f lt pA pB la' lb').
Proof.
  induction f as [|f IH]; intros lt pA pB la la' lb lb' Ha Hb; [reflexivity|].
  rewrite !pm_S. cbv zeta.
  pose proof (trel_sdrop lt pA _ _ Ha) as Ha'. pose proof (trel_sdrop lt pB _ _ Hb) as Hb'.
  pose proof (choose_trel cfg lt pA pB _ _ _ _ Ha' Hb') as Hc.
  destruct (choose cfg lt pA pB (sdrop lt pA la) _) as [[[[sd s] qA] qB]|],
           (choose cfg lt pA pB (sdrop lt pA la') _) as [[[[sd' s'] qA'] qB']|];
    try contradiction; [|reflexivity].
  destruct Hc as (Hs & <- & <-). cbn [tss map]. rewrite Hs. f_equal. apply IH; assumption.
Qed.

Lemma trel_length l l' : trel l l' -> (length l <= length l')%nat.
Proof. intro H. induction H; simpl; lia. Qed.

Lemma pmerge_trel cfg la la' lb lb' :
  trel la la' -> trel lb lb' -> tss (pmerge cfg la lb) = tss (pmerge cfg la' lb').
Proof.
  intros Ha Hb. unfold pmerge.
  pose proof (trel_length _ _ Ha). pose proof (trel_length _ _ Hb).
  rewrite (pm_fuel cfg (S (length la + length lb)) (S (length la' + length lb')) None 0 0 la lb).
  - apply pm_trel; assumption.
  - pose proof (mu_le None 0 0 la lb). lia.
  - pose proof (mu_le None 0 0 la lb). lia.
Qed.

Lemma pmerge_all_tss cfg : forall rest rest' acc acc',
  tss acc = tss acc' -> Forall2 trel rest rest' ->
  tss (pmerge_all cfg acc rest) = tss (pmerge_all cfg acc' rest').
Proof.
  induction rest as [|b rest IH]; intros rest' acc acc' Ha Hr; inversion Hr; subst.
  - exact Ha.
  - simpl. apply IH; [|assumption]. apply pmerge_trel; [apply trel_of_tss; exact Ha|assumption].
Qed.

Lemma pmerge_all_trel cfg first first' b b' rest rest' :
  trel first first' -> trel b b' -> Forall2 trel rest rest' ->
  tss (pmerge_all cfg first (b :: rest)) = tss (pmerge_all cfg first' (b' :: rest')).
Proof.
  intros Hf Hb Hr. simpl. apply pmerge_all_tss; [|exact Hr]. apply pmerge_trel; assumption.
Qed.

Lemma last_t_cons x y l : last_t (x :: y :: l) = last_t (y :: l).
Proof. reflexivity. Qed.

Lemma strict_app_inv : forall w rest lo,
  strict_incr_from lo (w ++ rest) = true -> w <> [] ->
  strict_incr_from lo w = true /\ strict_incr_from (Some (last_t w)) rest = true.
Proof.
  induction w as [|x w IH]; intros rest lo H Hne; [congruence|].
  destruct w as [|y w].
  - simpl in *. apply andb_true_iff in H as [H1 H2]. split; [rewrite H1; reflexivity|exact H2].
  - change ((x :: y :: w) ++ rest) with (x :: ((y :: w) ++ rest)) in H.
    cbn [strict_incr_from] in H. apply andb_true_iff in H as [H1 H2].
    destruct (IH rest (Some (ts x)) H2) as [H3 H4]; [discriminate|].
    rewrite last_t_cons. split; [|exact H4].
    cbn [strict_incr_from]. rewrite H1. exact H3.
Qed.

Lemma strict_le_last : forall w lo s,
  strict_incr_from lo w = true -> In s w -> ts s <= last_t w.
Proof.
  induction w as [|x w IH]; intros lo s H Hin; [contradiction|].
  destruct w as [|y w].
  - destruct Hin as [->|[]]. unfold last_t. simpl. lia.
  - rewrite last_t_cons. apply strict_from_tail in H.
    destruct Hin as [->|Hin].
    + assert (H1 : ts s < ts y).
      { pose proof H as H'. simpl in H'. apply andb_true_iff in H' as [H1 _]. apply Z.ltb_lt; exact H1. }
      specialize (IH _ y H (or_introl eq_refl)). lia.
    + eapply IH; eassumption.
Qed.

Lemma strict_ge_first w s : strict_incr w = true -> In s w -> first_t w <= ts s.
Proof.
  destruct w as [|x w]; [contradiction|]. intros H [->|Hin]; [simpl; lia|].
  apply strict_cons in H. pose proof (strict_from_all _ _ _ H Hin). simpl. lia.
Qed.

Lemma last_tss l : last (tss l) 0 = last_t l.
Proof. exact (last_map ts l (0, 0)). Qed.

Lemma tss_app a b : tss (a ++ b) = tss a ++ tss b.
Proof. apply map_app. Qed.

(* where toChunk cuts depends on timestamps only *)
Lemma tss_cut m : forall R L, tss R = tss L ->
  tss (take_le m R) = tss (take_le m L) /\ tss (drop_le m R) = tss (drop_le m L).
Proof.
  induction R as [|x R IH]; intros [|y L] H; try discriminate; [split; reflexivity|].
  inversion H as [[Hxy HRL]]. cbn [take_le drop_le]. rewrite Hxy.
  destruct (ts y >? m); [split; [reflexivity|exact H]|].
  destruct (IH L HRL) as [H1 H2]. split; [cbn [tss map]; f_equal; assumption|exact H2].
Qed.

Lemma tss_keep_ge m : forall R L, tss R = tss L -> tss (keep_ge m R) = tss (keep_ge m L).
Proof.
  induction R as [|x R IH]; intros [|y L] H; try discriminate; [reflexivity|].
  inversion H as [[Hxy HRL]]. unfold keep_ge. cbn [filter]. rewrite Hxy.
  destruct (ts y >=? m); [cbn [tss map]; f_equal; [exact Hxy|]|]; apply IH; exact HRL.
Qed.

(* on the count stream itself the cut at the last timestamp of w is exact *)
Lemma split_at_last w rest :
  w <> [] -> strict_incr (w ++ rest) = true ->
  take_le (last_t w) (w ++ rest) = w /\ drop_le (last_t w) (w ++ rest) = rest /\ keep_ge (first_t w) w = w.
Proof.
  intros Hne Hs. destruct (strict_app_inv w rest None Hs Hne) as [Hw Hr].
  destruct (take_drop_app (last_t w) w rest) as [H1 H2].
  - intros s Hin. exact (strict_le_last w None s Hw Hin).
  - destruct rest as [|q Q]; [exact I|]. apply (strict_from_all _ _ _ Hr). left; reflexivity.
  - split; [exact H1|]. split; [exact H2|]. apply keep_ge_all. intros s Hin. exact (strict_ge_first w s Hw Hin).
Qed.

(* one aggregate at one boundary: from a stream with the timestamps of w ++ rest
   toChunk cuts a chunk with the timestamps of w (the counter with its last
   sample once more) and leaves the stream reading the timestamps of rest *)
Lemma window_chunk counter st R w rest :
  w <> [] -> strict_incr (w ++ rest) = true -> areads st R -> tss R = tss (w ++ rest) ->
  exists st' c R', to_chunk counter st (first_t w) (last_t w) = (st', Some c) /\
    tss c = (if counter then tss w ++ [last_t w] else tss w) /\ areads st' R' /\ tss R' = tss rest.
Proof.
  intros Hne Hs A T.
  destruct (split_at_last w rest Hne Hs) as (Ht & Hd & Hk).
  destruct (tss_cut (last_t w) _ _ T) as [T1 T2]. rewrite Ht in T1. rewrite Hd in T2.
  apply (tss_keep_ge (first_t w)) in T1. rewrite Hk in T1.
  destruct (to_chunk_spec counter st R (first_t w) (last_t w) A) as (st' & E & A').
  set (P := keep_ge (first_t w) (take_le (last_t w) R)) in *.
  assert (N : P <> []) by (intros EP; rewrite EP in T1; destruct w; [congruence|discriminate]).
  exists st', (if counter then P ++ [last P (0, 0)] else P), (drop_le (last_t w) R).
  split; [rewrite E; destruct P; [congruence|reflexivity]|]. split; [|split; assumption].
  destruct counter; [|exact T1]. rewrite tss_app, T1. cbn [tss map]. do 2 f_equal.
  change (last_t P = last_t w). rewrite <- (last_tss P), <- (last_tss w), T1. reflexivity.
Qed.

Lemma zlist_eqb_refl l : list_eqb Z.eqb l l = true.
Proof. apply list_eqb_refl. exact Z.eqb_refl. Qed.

Lemma windows_ok : forall ws s1 s2 s3 s4 R1 R2 R3 R4,
  Forall (fun w => w <> []) ws -> strict_incr (concat ws) = true ->
  areads s1 R1 -> areads s2 R2 -> areads s3 R3 -> areads s4 R4 ->
  tss R1 = tss (concat ws) -> tss R2 = tss (concat ws) ->
  tss R3 = tss (concat ws) -> tss R4 = tss (concat ws) ->
  forallb ochunk_ok (windows ws (Some s1) (Some s2) (Some s3) (Some s4)) = true.
Proof.
  induction ws as [|w ws IH]; intros s1 s2 s3 s4 R1 R2 R3 R4 Hne Hs A1 A2 A3 A4 T1 T2 T3 T4; [reflexivity|].
  inversion Hne as [|? ? Hw Hws]; subst. cbn [concat] in *.
  destruct (window_chunk false s1 R1 w _ Hw Hs A1 T1) as (s1' & c1 & Q1 & E1 & C1 & A1' & T1').
  destruct (window_chunk false s2 R2 w _ Hw Hs A2 T2) as (s2' & c2 & Q2 & E2 & C2 & A2' & T2').
  destruct (window_chunk false s3 R3 w _ Hw Hs A3 T3) as (s3' & c3 & Q3 & E3 & C3 & A3' & T3').
  destruct (window_chunk true s4 R4 w _ Hw Hs A4 T4) as (s4' & c4 & Q4 & E4 & C4 & A4' & T4').
  cbn [windows opt_to_chunk]. rewrite E1, E2, E3, E4. cbn [forallb].
  apply andb_true_iff. split.
  - unfold ochunk_ok. rewrite C1, C2, C3, C4, !zlist_eqb_refl. reflexivity.
  - destruct (strict_app_inv w (concat ws) None Hs Hw) as [_ Hr].
    eapply IH; try eassumption. eapply strict_from_none; exact Hr.
Qed.

(* storage.NewSeriesToChunkEncoder's cut *)
Lemma cut_loop_spec n : (0 < n)%nat -> forall fuel l, (length l <= fuel)%nat ->
  concat (cut_loop fuel n l) = l /\ Forall (fun w => w <> []) (cut_loop fuel n l).
Proof.
  intro Hn. induction fuel as [|f IH]; intros l Hl.
  - destruct l; [split; [reflexivity|constructor]|simpl in Hl; lia].
  - destruct l as [|x l]; [split; [reflexivity|constructor]|].
    cbn [cut_loop]. set (l0 := x :: l) in *.
    destruct (IH (skipn n l0)) as [H1 H2].
    { rewrite skipn_length. unfold l0 in *. cbn [length] in *. lia. }
    split.
    + cbn [concat]. rewrite H1. apply firstn_skipn.
    + constructor; [|exact H2]. destruct n; [lia|]. unfold l0. simpl. discriminate.
Qed.

Lemma cut_spec n l : (0 < n)%nat -> concat (cut n l) = l /\ Forall (fun w => w <> []) (cut n l).
Proof. intro Hn. apply cut_loop_spec; [exact Hn|lia]. Qed.

Definition well_formed (c : achunk) : Prop := wf_chunk c = true.

Definition proj (i : nat) (c : achunk) : list sample := match aggr i c with Some l => l | None => [] end.

Lemma zlist_eqb_eq l1 l2 : list_eqb Z.eqb l1 l2 = true -> l1 = l2.
Proof. apply (list_eqb_spec Z.eqb Z.eqb_eq). Qed.

Lemma wf_chunk_inv c : well_formed c ->
  exists c0 c1 c2 c3 c4, c = [Some c0; Some c1; Some c2; Some c3; Some c4] /\
    c0 <> [] /\ strict_incr c0 = true /\ tss c1 = tss c0 /\ tss c2 = tss c0 /\ tss c3 = tss c0 /\
    tss c4 = tss c0 ++ [last_t c0].
Proof.
  unfold well_formed, wf_chunk.
  destruct c as [|[c0|] c]; try discriminate. destruct c as [|[c1|] c]; try discriminate.
  destruct c as [|[c2|] c]; try discriminate. destruct c as [|[c3|] c]; try discriminate.
  destruct c as [|[c4|] c]; try discriminate. destruct c; [|discriminate].
  intro H. repeat (apply andb_true_iff in H as [H ?]).
  exists c0, c1, c2, c3, c4.
  repeat split; try (apply zlist_eqb_eq; assumption); try assumption.
  destruct c0; [discriminate|discriminate].
Qed.

Lemma trel_counter c0 c4 : c0 <> [] -> tss c4 = tss c0 ++ [last_t c0] -> trel c0 c4.
Proof.
  intros Hne H.
  assert (Hc4 : c4 <> []) by (intro; subst; destruct (tss c0); discriminate).
  rewrite (app_removelast_last (0, 0) Hc4) in H |- *.
  rewrite tss_app in H. cbn [tss map] in H. apply app_inj_tail in H as [H1 H2].
  apply trel_app_dup; [exact Hne|symmetry; exact H1|]. rewrite H2. reflexivity.
Qed.

Lemma wf_trel c i : well_formed c -> (1 <= i <= 4)%nat -> trel (proj 0 c) (proj i c).
Proof.
  intros H Hi. destruct (wf_chunk_inv c H) as (c0 & c1 & c2 & c3 & c4 & -> & Hne & Hs & T1 & T2 & T3 & T4).
  destruct i as [|[|[|[|[|i]]]]]; try lia; unfold proj, aggr; cbn [nth].
  - apply trel_of_tss. symmetry. exact T1.
  - apply trel_of_tss. symmetry. exact T2.
  - apply trel_of_tss. symmetry. exact T3.
  - apply trel_counter; assumption.
Qed.

Lemma agg_lists_wf i base others :
  (i <= 4)%nat -> well_formed base -> Forall well_formed others ->
  agg_lists i base others = map (proj i) (others ++ [base]).
Proof.
  intros Hi Hb Ho. unfold agg_lists. rewrite map_app. f_equal.
  - induction Ho as [|c l Hc Hl IH]; [reflexivity|].
    cbn [flat_map map]. rewrite IH. f_equal.
    destruct (wf_chunk_inv c Hc) as (c0 & c1 & c2 & c3 & c4 & -> & _).
    destruct i as [|[|[|[|[|i]]]]]; try lia; reflexivity.
  - destruct (wf_chunk_inv base Hb) as (c0 & c1 & c2 & c3 & c4 & -> & _).
    destruct i as [|[|[|[|[|i]]]]]; try lia; reflexivity.
Qed.

Lemma Forall2_map_trel i l :
  (1 <= i <= 4)%nat -> Forall well_formed l -> Forall2 trel (map (proj 0) l) (map (proj i) l).
Proof.
  intros Hi H. induction H as [|c l Hc Hl IH]; [constructor|].
  cbn [map]. constructor; [apply wf_trel; assumption|exact IH].
Qed.

Lemma init_reads f r : areads (mkA false (tower false cfg f r)) (pmerge_all cfg f r).
Proof.
  destruct (tower_contract cfg f r) as (C & Hi & Hf & Hfut).
  exists C. cbn. split; [exact Hi|]. split; assumption.
Qed.

Theorem every_timestamp base o1 others :
  well_formed base -> well_formed o1 -> Forall well_formed others ->
  exists out, merge_group base (o1 :: others) = Some out /\ forallb ochunk_ok out = true.
Proof.
  intros Hb Ho1 Ho.
  assert (Hall : Forall well_formed (o1 :: others)) by (constructor; assumption).
  assert (Hall' : Forall well_formed (others ++ [base])).
  { apply Forall_app. split; [exact Ho|constructor; [exact Hb|constructor]]. }
  unfold merge_group, init_state, agg_iter.
  rewrite !(agg_lists_wf _ base (o1 :: others)) by (try lia; assumption).
  cbn [app map option_map].
  rewrite tower_drain.
  eexists. split; [reflexivity|].
  set (cnt := pmerge_all cfg (proj 0 o1) (map (proj 0) (others ++ [base]))).
  destruct (cut_spec (Z.to_nat seriesToChunkEncoderSplit) cnt split_pos) as [Hc Hne].
  assert (Hrest : map (proj 0) (others ++ [base]) <> []).
  { destruct others; discriminate. }
  assert (Hstrict : strict_incr cnt = true).
  { apply pmerge_all_strict; [exact cfg_is_ok|left; exact Hrest]. }
  assert (Hts : forall i, (1 <= i <= 4)%nat ->
            tss (pmerge_all cfg (proj i o1) (map (proj i) (others ++ [base]))) = tss (concat (cut (Z.to_nat seriesToChunkEncoderSplit) cnt))).
  { intros i Hi. rewrite Hc. unfold cnt. symmetry.
    pose proof (Forall2_map_trel i _ Hi Hall') as HF.
    destruct (others ++ [base]) as [|b rest] eqn:E; [destruct others; discriminate|].
    cbn [map] in *. inversion HF; subst.
    apply pmerge_all_trel; [apply wf_trel; assumption|assumption|assumption]. }
  eapply windows_ok.
  - exact Hne.
  - rewrite Hc. exact Hstrict.
  - apply init_reads.
  - apply init_reads.
  - apply init_reads.
  - apply init_reads.
  - apply Hts; lia.
  - apply Hts; lia.
  - apply Hts; lia.
  - apply Hts; lia.
Qed.

Lemma om_empty_wf g : Forall (fun c => wf_chunk c = true) g -> om_empty g = true -> g = [].
Proof.
  intros H He. destruct g as [|c g]; [reflexivity|]. inversion H; subst.
  destruct (wf_chunk_inv c H2) as (c0 & c1 & c2 & c3 & c4 & -> & _).
  simpl in He. discriminate.
Qed.

Lemma take_group_wf : forall rest omax prev g r',
  take_group omax prev rest = (g, r') -> Forall well_formed rest ->
  Forall well_formed g /\ Forall well_formed r' /\ (length r' <= length rest)%nat.
Proof.
  induction rest as [|c r IH]; intros omax prev g r' E H; cbn [take_group] in E.
  - inversion E; subst. repeat split; auto.
  - inversion H; subst. destruct (c_mint c >? omax).
    + inversion E; subst. repeat split; auto.
    + destruct (achunk_eqb c prev).
      * destruct (IH _ _ _ _ E H3) as (A & B & L). repeat split; auto. simpl. lia.
      * destruct (take_group (Z.max omax (c_maxt c)) c r) as [g0 r0] eqn:E0.
        inversion E; subst. destruct (IH _ _ _ _ E0 H3) as (A & B & L).
        repeat split; auto. simpl. lia.
Qed.

Lemma passthrough_ok c : well_formed c -> ochunk_ok (passthrough c) = true.
Proof.
  intro H. destruct (wf_chunk_inv c H) as (c0 & c1 & c2 & c3 & c4 & -> & _ & _ & T1 & T2 & T3 & T4).
  unfold passthrough, ochunk_ok. rewrite T1, T2, T3, T4. rewrite !zlist_eqb_refl. reflexivity.
Qed.

Lemma series_loop_ok : forall fuel chunks,
  (length chunks <= fuel)%nat -> Forall well_formed chunks ->
  exists out, merge_series_loop fuel chunks = Some out /\ forallb ochunk_ok out = true.
Proof.
  induction fuel as [|f IH]; intros chunks Hl Hw.
  - destruct chunks; [exists []; split; reflexivity|simpl in Hl; lia].
  - destruct chunks as [|base rest]; [exists []; split; reflexivity|].
    inversion Hw; subst. cbn [merge_series_loop].
    destruct (take_group (c_maxt base) base rest) as [grp rest'] eqn:E.
    destruct (take_group_wf _ _ _ _ _ E H2) as (Hg & Hr & Hlen).
    destruct (IH rest') as (out2 & E2 & O2); [simpl in Hl; lia|exact Hr|].
    rewrite E2.
    destruct (om_empty grp) eqn:Eo.
    + exists ([passthrough base] ++ out2). split; [reflexivity|].
      rewrite forallb_app. rewrite O2. cbn [forallb]. rewrite (passthrough_ok base H1). reflexivity.
    + destruct grp as [|o1 others]; [discriminate|].
      assert (Ho1 : well_formed o1) by (inversion Hg; assumption).
      assert (Hot : Forall well_formed others) by (inversion Hg; assumption).
      destruct (every_timestamp base o1 others H1 Ho1 Hot) as (out1 & E1 & O1).
      rewrite E1. exists (out1 ++ out2). split; [reflexivity|].
      rewrite forallb_app, O1, O2. reflexivity.
Qed.

Theorem every_timestamp_series chunks :
  Forall well_formed chunks ->
  exists out, merge_series chunks = Some out /\ forallb ochunk_ok out = true.
Proof. intro H. apply series_loop_ok; [unfold merge_series; lia|exact H]. Qed.

Lemma sample_eqb_spec x y : sample_eqb x y = true <-> x = y.
Proof.
  unfold sample_eqb. destruct x as [a b], y as [c d]; simpl. rewrite andb_true_iff, !Z.eqb_eq.
  split; [intros [-> ->]; reflexivity|intro H; inversion H; auto].
Qed.

Lemma ochunk_eqb_spec a b : ochunk_eqb a b = true <-> a = b.
Proof.
  destruct a as [[m1 x1] l1], b as [[m2 x2] l2]. unfold ochunk_eqb.
  rewrite !andb_true_iff, !Z.eqb_eq.
  rewrite (list_eqb_spec _ (option_eqb_spec _ (list_eqb_spec _ sample_eqb_spec))).
  split; [intros [[-> ->] ->]; reflexivity|intro E; inversion E; auto].
Qed.

Lemma corr_implies_pred c : corr_ok c = true -> pred_ok c = true.
Proof.
  unfold corr_ok, pred_ok. intros Hc.
  apply (option_eqb_spec _ (list_eqb_spec _ ochunk_eqb_spec)) in Hc.
  destruct (forallb wf_chunk (case_input c)) eqn:Ewf; [|reflexivity].
  destruct (every_timestamp_series (case_input c)) as (out & Hm & Hok).
  - apply Forall_forall. intros x Hx. exact (proj1 (forallb_forall _ _) Ewf x Hx).
  - rewrite Hm in Hc. inversion Hc; subst. exact Hok.
Qed.

(* C23 — the side condition "every series gets one response per replica" of
   the order / status theorems follows from the shape of the forwarded writes:
   distinct (node, replica) destinations that are exactly the hashring
   placements of the series on the request's replicas (what
   distributeTimeseriesToReplicas + sendWrites produce; C22 proves that of
   their model, here it is only used). *)
From Coq Require Import ZArith List Bool Lia String.
Import ListNotations.
From Verif Require Import Lib.Corr Lib.Receive_Fanout Gen.C23 Model.C23 Proofs.C23 Proofs.C23_order.
Open Scope Z_scope.

(* Model/C23.v has no distribution of its own: these three repeat Model/C22.v *)
Definition dest := (nat * nat)%type.
Definition write_dest (w : write) : dest := fst w.

Definition replicas_of (rf rep : Z) : list nat :=
  if rep =? 0 then seq 0 (Z.to_nat rf) else [Z.to_nat (rep - 1)].

Lemma handle_pred_structural : forall rf rep place ws, 1 <= rf -> 0 <= rep ->
  NoDup (map write_dest ws) ->
  (forall d, In d (map write_dest ws) <->
     exists s r, (s < List.length place)%nat /\ In r (replicas_of rf rep) /\ d = (placed place s r, r)) ->
  exists st, handle rf rep place ws = Some st /\ pred_ok (CFan rf rep place ws st) = true.
Proof.
  intros rf rep place ws Hrf Hrep Hnd Hkeys. apply handle_pred; [exact Hrf|exact Hrep|].
  assert (Hr : NoDup (replicas_of rf rep)).
  { unfold replicas_of. destruct (rep =? 0); [apply seq_NoDup|]. constructor; [intros []|constructor]. }
  intros s Hs. transitivity (Z.of_nat (List.length (replicas_of rf rep))).
  - unfold responses_of. f_equal.
    exact (one_response_per_replica (placed place) (List.length place) _ ws Hr Hnd Hkeys s Hs).
  - unfold replicas_of, n_replicas. destruct (rep =? 0); [rewrite seq_length; lia|reflexivity].
Qed.

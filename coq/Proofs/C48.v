(* C48 — lemmas about the model of the deletion modifier (Model/C48.v).
   Part 1: what Intervals.Add, the request loop and the chunk iterator end up
   covering lies within the requested intervals, whatever their order or shape;
   so nothing outside them is removed. Then the witness on which
   [rewrite_unfixed] loses samples and the source fact on the emptied-chunk branch. *)
From Coq Require Import NArith ZArith List Bool Lia Sorted.
Import ListNotations.
From Verif Require Import Lib.Corr Lib.Misc_Cmp Gen.C48 Model.C48.
Open Scope Z_scope.

Lemma inb_iff i t : inb i t = true <-> fst i <= t <= snd i.
Proof. unfold inb. rewrite andb_true_iff, !Z.leb_le. tauto. Qed.

Lemma covered_iff ivs t : covered ivs t = true <-> exists i, In i ivs /\ fst i <= t <= snd i.
Proof.
  unfold covered. rewrite existsb_exists. split; intros [i [Hi H]]; exists i; (split; [exact Hi|]); apply inb_iff; exact H.
Qed.

Lemma covered_cons i l t : covered (i :: l) t = inb i t || covered l t.
Proof. reflexivity. Qed.

Lemma covered_cons_iff i l t : covered (i :: l) t = true <-> fst i <= t <= snd i \/ covered l t = true.
Proof. rewrite covered_cons, orb_true_iff, inb_iff. reflexivity. Qed.

Lemma covered_app a b t : covered (a ++ b) t = covered a t || covered b t.
Proof. unfold covered. apply existsb_app. Qed.

(* the intervals absorbed into the new one reach up to [hi]: whatever lies
   between the new interval's end and [hi] was covered before *)
Lemma absorb_sound y : forall l hi0 hi rest,
  absorb y hi0 l = (hi, rest) ->
  (forall t, covered rest t = true -> covered l t = true)
  /\ (forall t, y < t <= hi -> t <= hi0 \/ covered l t = true).
Proof.
  induction l as [|[a b] r IH]; intros hi0 hi rest H; simpl in H.
  - injection H as <- <-. split; [auto | left; lia].
  - destruct (Z.gtb_spec a (y + 1)).
    + injection H as <- <-. split; [auto | left; lia].
    + apply IH in H as [H1 H2]. split; intros t Ht; [|right]; apply covered_cons_iff; simpl.
      * right. apply H1, Ht.
      * destruct (H2 t Ht); [left; lia | right; assumption].
Qed.

Lemma add_go_sound x y : forall l t,
  covered (add_go x y l) t = true -> (x <= t <= y) \/ covered l t = true.
Proof.
  induction l as [|[a b] r IH]; intros t H; cbn [add_go] in H.
  - apply covered_cons_iff in H. exact H.
  - destruct (Z.ltb_spec b (x - 1)) as [E1|E1]; [|destruct (Z.gtb_spec a (y + 1)) as [E2|E2]].
    + apply covered_cons_iff in H as [H|H]; [right; apply covered_cons_iff; left; exact H|].
      apply IH in H as [H|H]; [left; exact H | right; apply covered_cons_iff; right; exact H].
    + apply covered_cons_iff in H. exact H.
    + (* the merged interval [min x a, max y hi]: left of x it is (a, b), right of y what was absorbed *)
      destruct (absorb y b r) as [hi rest] eqn:Ea. apply absorb_sound in Ea as [Hrest Hhi].
      apply covered_cons_iff in H as [H|H]; [simpl in H | right; apply covered_cons_iff; right; apply Hrest, H].
      destruct (Z_le_gt_dec t y); [destruct (Z_le_gt_dec x t); [left; lia|]|];
        right; apply covered_cons_iff; simpl; [left; lia|].
      destruct (Hhi t ltac:(lia)); [left; lia | right; assumption].
Qed.

Lemma fold_add_sound ivs : forall acc t,
  covered (fold_left (fun a i => add_iv i a) ivs acc) t = true ->
  covered ivs t = true \/ covered acc t = true.
Proof.
  induction ivs as [|i ivs IH]; intros acc t H; simpl in H; [right; exact H|].
  apply IH in H as [H|H]; [left; apply covered_cons_iff; right; exact H|].
  apply add_go_sound in H as [H|H]; [left; apply covered_cons_iff; left; exact H | right; exact H].
Qed.

(* bufIter.Intervals is built by Add from the intervals that overlap the chunk *)
Lemma buf_as_filter mn mx ivs :
  buf_intervals mn mx ivs = fold_left (fun a i => add_iv i a) (filter (overlaps mn mx) ivs) [].
Proof.
  unfold buf_intervals. generalize (@nil interval).
  induction ivs as [|i ivs IH]; intro acc; simpl; [reflexivity|].
  destruct (overlaps mn mx i); apply IH.
Qed.

Lemma buf_sound mn mx ivs t :
  covered (buf_intervals mn mx ivs) t = true -> covered ivs t = true.
Proof.
  rewrite buf_as_filter. intro H. apply fold_add_sound in H as [H|H]; [|discriminate].
  apply covered_iff in H as [i [Hi Hb]]. apply filter_In in Hi as [Hi _].
  apply covered_iff. exists i. split; assumption.
Qed.

Section R.
  Variable re : str -> str -> bool.

  Lemma del_loop_none reqs ls : forall acc,
    del_loop re reqs ls acc = None <-> whole_deleted re reqs ls = true.
  Proof.
    unfold whole_deleted, applying.
    induction reqs as [|[ms ivs] reqs IH]; intros acc; simpl.
    - split; discriminate.
    - destruct (req_applies re ms ls) eqn:E; simpl.
      + destruct ivs as [|i ivs]; simpl.
        * split; reflexivity.
        * apply IH.
      + apply IH.
  Qed.

  Lemma del_loop_sound reqs ls : forall acc ivs t,
    del_loop re reqs ls acc = Some ivs -> covered ivs t = true ->
    covered acc t = true \/ covered (spec_intervals re reqs ls) t = true.
  Proof.
    unfold spec_intervals, applying.
    induction reqs as [|[ms ivs0] reqs IH]; intros acc ivs t H Hc; simpl in H.
    - injection H as <-. left. exact Hc.
    - simpl. destruct (req_applies re ms ls); simpl; [|exact (IH _ _ _ H Hc)].
      destruct ivs0 as [|i0 ivs0]; [discriminate|]. rewrite covered_app.
      destruct (IH _ _ _ H Hc) as [H1|H1]; [|right; rewrite H1; apply orb_true_r].
      apply fold_add_sound in H1 as [H1|H1]; [right; rewrite H1; reflexivity | left; exact H1].
  Qed.
End R.

Definition chunk_ok (c : chunk) : Prop :=
  c <> [] /\ StronglySorted (fun a b : sample => fst a < fst b) c.

Lemma cmax_cons s c : c <> [] -> cmax (s :: c) = cmax c.
Proof. unfold cmax. intro H. destruct c; [congruence | reflexivity]. Qed.

Lemma chunk_bounds c : chunk_ok c -> forall s, In s c -> cmin c <= fst s <= cmax c.
Proof.
  intros [Hne Hs]. induction Hs as [|a c Hs IH Hall]; [congruence|].
  intros s Hin. rewrite Forall_forall in Hall. simpl cmin.
  destruct c as [|b c].
  - destruct Hin as [Hin|[]]. subst. unfold cmax. simpl. lia.
  - rewrite cmax_cons by discriminate.
    assert (IH' := IH ltac:(discriminate)).
    destruct Hin as [Hin|Hin].
    + subst s. specialize (Hall b (or_introl eq_refl)). specialize (IH' b (or_introl eq_refl)). simpl in IH'. lia.
    + specialize (IH' s Hin). specialize (Hall s Hin). lia.
Qed.

Lemma di_sample_sound ivs ts : forall keep ivs',
  di_sample ivs ts = (keep, ivs') ->
  (keep = false -> covered ivs ts = true) /\ (forall t, covered ivs' t = true -> covered ivs t = true).
Proof.
  induction ivs as [|tr rest IH]; intros keep ivs' H; simpl in H.
  - injection H as <- <-. split; [discriminate | auto].
  - destruct (inb tr ts) eqn:E; [|destruct (ts <=? snd tr)]; try (injection H as <- <-).
    + split; [intros _; apply covered_cons_iff; left; apply inb_iff, E | auto].
    + split; [discriminate | auto].
    + apply IH in H as [H1 H2]. split; intros; apply covered_cons_iff; right; auto.
Qed.

Lemma di_sound c : forall ivs,
  (forall s, In s (di ivs c) -> In s c)
  /\ (forall s, In s c -> In s (di ivs c) \/ covered ivs (fst s) = true).
Proof.
  induction c as [|s0 c IH]; intros ivs; simpl; [split; [auto | intros s []]|].
  destruct (di_sample ivs (fst s0)) as [keep ivs'] eqn:E. apply di_sample_sound in E as [K S].
  destruct (IH ivs') as [IH1 IH2]. split.
  - intros s Hs. destruct keep; [destruct Hs as [Hs|Hs]; [left; exact Hs|]|]; right; apply IH1, Hs.
  - intros s [<-|Hs].
    + destruct keep; [left; left; reflexivity | right; apply K; reflexivity].
    + destruct (IH2 s Hs) as [H|H]; [left; destruct keep; [right|]; exact H | right; apply S, H].
Qed.

Lemma is_subrange_covers mn mx ivs t :
  is_subrange mn mx ivs = true -> mn <= t <= mx -> covered ivs t = true.
Proof.
  unfold is_subrange. rewrite existsb_exists. intros [r [Hr H]] Ht.
  apply andb_true_iff in H as [H1 H2]. apply inb_iff in H1, H2.
  apply covered_iff. exists r. split; [exact Hr | lia].
Qed.

(* the samples one chunk contributes to the output, whichever way it is handled *)
Definition kept (r : step_result) : chunk := match r with Out o => snd o | _ => [] end.

Lemma kept_chunk_step ivs c :
  kept (chunk_step ivs c)
  = if is_subrange (cmin c) (cmax c) ivs then []
    else match buf_intervals (cmin c) (cmax c) ivs with [] => c | buf => di buf c end.
Proof.
  unfold chunk_step. destruct (is_subrange _ _ ivs); [reflexivity|].
  destruct (buf_intervals _ _ ivs); [reflexivity|]. destruct (di _ c); reflexivity.
Qed.

Lemma series_chunks_kept ivs cs :
  concat (map snd (series_chunks ivs cs)) = concat (map (fun c => kept (chunk_step ivs c)) cs).
Proof.
  induction cs as [|c cs IH]; simpl; [reflexivity|].
  destruct (chunk_step ivs c); simpl; rewrite IH; reflexivity.
Qed.

(* every chunk written is non-empty, with MinTime/MaxTime of its first/last sample *)
Lemma series_chunks_wf ivs cs :
  Forall (fun c => c <> []) cs -> forallb ochunk_wf (series_chunks ivs cs) = true.
Proof.
  induction 1 as [|c cs Hc _ IH]; simpl; [reflexivity|]. unfold chunk_step.
  destruct (is_subrange _ _ ivs); [exact IH|]. destruct (buf_intervals _ _ ivs).
  - destruct c as [|s0 c0]; [congruence|]. simpl. unfold ochunk_wf. simpl. rewrite !Z.eqb_refl. exact IH.
  - destruct (di _ c); [exact IH|]. simpl. unfold ochunk_wf. simpl. rewrite !Z.eqb_refl. exact IH.
Qed.

Lemma kept_sound ivs c :
  chunk_ok c ->
  (forall s, In s (kept (chunk_step ivs c)) -> In s c)
  /\ (forall s, In s c -> In s (kept (chunk_step ivs c)) \/ covered ivs (fst s) = true).
Proof.
  intro Hok. rewrite kept_chunk_step. destruct (is_subrange _ _ ivs) eqn:Es.
  - split; [intros s []|]. intros s Hs. right.
    exact (is_subrange_covers _ _ _ _ Es (chunk_bounds c Hok s Hs)).
  - destruct (buf_intervals _ _ ivs) as [|b0 buf] eqn:Eb; [split; auto|].
    destruct (di_sound c (b0 :: buf)) as [D1 D2]. split; [exact D1|].
    intros s Hs. destruct (D2 s Hs) as [H|H]; [left; exact H | right].
    rewrite <- Eb in H. exact (buf_sound _ _ _ _ H).
Qed.

Lemma series_chunks_sound ivs cs :
  Forall chunk_ok cs ->
  (forall s, In s (concat (map snd (series_chunks ivs cs))) -> In s (concat cs))
  /\ (forall s, In s (concat cs) ->
        In s (concat (map snd (series_chunks ivs cs))) \/ covered ivs (fst s) = true).
Proof.
  rewrite series_chunks_kept. induction 1 as [|c cs Hc _ [IH1 IH2]]; simpl; [split; [auto | intros s []]|].
  destruct (kept_sound ivs c Hc) as [S1 S2].
  split; intros s Hs; apply in_app_or in Hs as [Hs|Hs]; rewrite in_app_iff.
  - left. exact (S1 s Hs).
  - right. exact (IH1 s Hs).
  - destruct (S2 s Hs); auto.
  - destruct (IH2 s Hs); auto.
Qed.

Definition series_ok (s : series) : Prop := Forall chunk_ok (snd s).

Section W.
  Variable re : str -> str -> bool.

  Lemma rewrite_in reqs ss ls ocs :
    In (ls, ocs) (rewrite re reqs ss) ->
    exists s ivs, In s ss /\ fst s = ls /\ del_loop re reqs ls [] = Some ivs
                  /\ ocs = series_chunks ivs (snd s) /\ whole_deleted re reqs ls = false.
  Proof.
    unfold rewrite, rewrite_with. intro H. apply in_flat_map in H as [s [Hs H]].
    destruct (del_loop re reqs (fst s) []) as [ivs|] eqn:E; [|destruct H].
    destruct H as [H|[]]. inversion H; subst.
    exists s, ivs. repeat split; auto.
    destruct (whole_deleted re reqs (fst s)) eqn:W; [|reflexivity].
    apply (del_loop_none re reqs (fst s) []) in W. congruence.
  Qed.

  Lemma rewrite_keeps reqs ss s :
    In s ss -> whole_deleted re reqs (fst s) = false ->
    exists ivs, del_loop re reqs (fst s) [] = Some ivs
                /\ In (fst s, series_chunks ivs (snd s)) (rewrite re reqs ss).
  Proof.
    intros Hs W. destruct (del_loop re reqs (fst s) []) as [ivs|] eqn:E.
    - exists ivs. split; [reflexivity|]. unfold rewrite, rewrite_with. apply in_flat_map.
      exists s. split; [exact Hs|]. rewrite E. left. reflexivity.
    - apply del_loop_none in E. congruence.
  Qed.

  Lemma keeps_outside reqs ss s :
    In s ss -> series_ok s -> whole_deleted re reqs (fst s) = false ->
    exists ocs, In (fst s, ocs) (rewrite re reqs ss)
      /\ (forall sm, In sm (concat (map snd ocs)) -> In sm (concat (snd s)))
      /\ (forall sm, In sm (concat (snd s)) ->
            covered (spec_intervals re reqs (fst s)) (fst sm) = false ->
            In sm (concat (map snd ocs))).
  Proof.
    intros Hs Hok W. destruct (rewrite_keeps reqs ss s Hs W) as [ivs [E Hin]].
    exists (series_chunks ivs (snd s)). split; [exact Hin|].
    destruct (series_chunks_sound ivs (snd s) Hok) as [S1 S2]. split; [exact S1|].
    intros sm Hsm Hnc. destruct (S2 sm Hsm) as [H|H]; [exact H|].
    destruct (del_loop_sound re reqs (fst s) [] ivs (fst sm) E H) as [H'|H']; [discriminate | congruence].
  Qed.
End W.

(* [rewrite_unfixed]: a chunk emptied by two intervals ends the series *)
Definition w_reqs : list request := [([Matcher 0 [97%N] [120%N]], [(10, 10); (20, 20)])].
Definition w_series : list series := [([([97%N], [120%N])], [[(10, 1); (20, 2)]; [(30, 3); (40, 4)]])].

Lemma unfixed_loses_samples :
  rewrite_unfixed (fun _ _ => false) w_reqs w_series = [([([97%N], [120%N])], [])]
  /\ covered (spec_intervals (fun _ _ => false) w_reqs [([97%N], [120%N])]) 30 = false
  /\ rewrite (fun _ _ => false) w_reqs w_series = [([([97%N], [120%N])], [(30, 40, [(30, 3); (40, 4)])])].
Proof. vm_compute. repeat split; reflexivity. Qed.

(* the emptied-chunk branch of delChunkSeriesIterator.Next, read off the source events *)
From Coq Require Import String.

(* events strictly inside the `if p.currDelIter.Next() == chunkenc.ValNone { ... }` block *)
Fixpoint block_after (evs : list (string * string)) (depth : nat) : list (string * string) :=
  match evs with
  | [] => []
  | (k, t) :: r =>
    if String.eqb k "if" then (k, t) :: block_after r (S depth)
    else if String.eqb k "endif" then
      match depth with O => [] | S d => (k, t) :: block_after r d end
    else (k, t) :: block_after r depth
  end.

Fixpoint emptied_block (evs : list (string * string)) : list (string * string) :=
  match evs with
  | [] => []
  | (k, t) :: r =>
    if String.eqb k "if" && String.eqb t "p.currDelIter.Next() == chunkenc.ValNone"
    then block_after r 0 else emptied_block r
  end.

(* the block ends by moving on to the next chunk (`return p.Next()`); its only
   `return false` is the one guarded by the iterator's error *)
Definition emptied_branch_ok : bool :=
  match rev (emptied_block chunkNext_events) with
  | (k, t) :: _ => String.eqb k "return" && String.eqb t "p.Next()"
  | [] => false
  end
  && (List.length (filter (fun e => String.eqb (fst e) "return" && String.eqb (snd e) "false")
                          (emptied_block chunkNext_events)) =? 1)%nat.

Lemma emptied_branch : emptied_branch_ok = true.
Proof. vm_compute. reflexivity. Qed.

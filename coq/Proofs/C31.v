(* C31 — the duplicate-block filter (Model/C31.v), group by group: the childLoop hides a block
   only behind a block it has kept ([child_loop_spec]); the sort is an insertion sort by an
   order that is total on distinct ULIDs, so the sorted group, and with it the outcome, does
   not depend on the listing order ([isort_unique]). *)
From Coq Require Import ZArith List Bool Lia Permutation Sorting.Sorted RelationClasses.
Import ListNotations.
From Verif Require Import Lib.Corr Lib.ListFacts Gen.C31 Model.C31.
Open Scope Z_scope.

Lemma mem_In x l : mem x l = true <-> In x l.
Proof.
  unfold mem. rewrite existsb_exists. split.
  - intros (y & Hy & E). apply Z.eqb_eq in E. now subst.
  - intros H. exists x. split; auto. apply Z.eqb_refl.
Qed.

Lemma mem_false x l : mem x l = false <-> ~ In x l.
Proof. rewrite <- mem_In. destruct (mem x l); split; congruence. Qed.

Lemma contains_incl s1 s2 : contains s1 s2 = true <-> incl s2 s1.
Proof.
  unfold contains, incl. rewrite forallb_forall. split; intros H a Ha; apply mem_In, H, Ha.
Qed.

Lemma subset_incl a b : subset a b = true <-> incl a b.
Proof. unfold subset, incl. rewrite forallb_forall. split; intros H x Hx; apply mem_In, H, Hx. Qed.

Lemma child_loop_spec l : forall cov k d, NoDup (map bid l) -> child_loop cov l = (k, d) ->
  (forall i, In i d -> exists c, In c l /\ bid c = i /\ exists p, In p k /\ contains (srcs p) (srcs c) = true)
  /\ (forall p, In p k <-> In p cov \/ (In p l /\ ~ In (bid p) d)).
Proof.
  induction l as [|c r IH]; intros cov k d Hn H; simpl in H.
  - inversion H; subst. split; [intros i []|]. intros p. simpl. tauto.
  - inversion Hn as [|? ? Hc Hr]; subst.
    destruct (covered cov c) eqn:Cv.
    + destruct (child_loop cov r) as [k' d'] eqn:CL. inversion H; subst.
      destruct (IH cov k d' Hr CL) as [Ha Hb]. split.
      * intros i [<-|Hi].
        -- exists c. split; [left; auto|]. split; auto.
           unfold covered in Cv. apply existsb_exists in Cv. destruct Cv as (p & Hp & Hcont).
           exists p. split; auto. apply Hb. left; auto.
        -- destruct (Ha i Hi) as (c' & Hc' & E & p & Hp & Hcont). exists c'. split; [right; auto|]. eauto.
      * intros p. rewrite Hb. simpl. split.
        -- intros [Hp|[Hp Hnd]]; auto. right. split; auto. intros [E|Hd]; auto.
           apply Hc. rewrite E. now apply in_map.
        -- intros [Hp|[[->|Hp] Hnd]]; auto.
           ++ exfalso. apply Hnd. left; auto.
           ++ right. split; auto.
    + destruct (IH (c :: cov) k d Hr H) as [Ha Hb]. split.
      * intros i Hi. destruct (Ha i Hi) as (c' & Hc' & E & p & Hp & Hcont). exists c'. split; [right; auto|]. eauto.
      * intros p. rewrite Hb. simpl. split.
        -- intros [[->|Hp]|[Hp Hnd]]; auto. right. split; auto. intros Hd.
           destruct (Ha _ Hd) as (c' & Hc' & E & _). apply Hc. rewrite <- E. now apply in_map.
        -- intros [Hp|[[->|Hp] Hnd]]; auto.
Qed.

Definition le (a b : blk) : Prop := before b a = false.

(* the comparator orders by (more sources, higher level, smaller ULID), lexicographically *)
Lemma before_spec a b :
  let m := Z.of_nat (length (srcs a)) in let n := Z.of_nat (length (srcs b)) in
  before a b = true <-> m > n \/ m = n /\ (lvl a > lvl b \/ lvl a = lvl b /\ bid a < bid b).
Proof.
  unfold before, filterGroup_tie, filterGroup_len_first, filterGroup_level_differs,
    filterGroup_level_first, filterGroup_ulid_first, ulid_cmp.
  destruct (Z.eqb_spec (Z.of_nat (length (srcs a))) (Z.of_nat (length (srcs b)))) as [->|];
    [destruct (Z.eqb_spec (lvl a) (lvl b)) as [->|]; simpl|];
    rewrite ?Z.gtb_ltb, Z.ltb_lt; [destruct (Z.compare_spec (bid a) (bid b))|..]; lia.
Qed.

Lemma le_spec a b :
  let m := Z.of_nat (length (srcs a)) in let n := Z.of_nat (length (srcs b)) in
  le a b <-> m > n \/ m = n /\ (lvl a > lvl b \/ lvl a = lvl b /\ bid a <= bid b).
Proof. unfold le. rewrite <- not_true_iff_false, before_spec. lia. Qed.

Lemma le_trans : Transitive le.
Proof. intros a b c. rewrite !le_spec. lia. Qed.

Lemma before_le a b : before a b = true -> le a b.
Proof. rewrite before_spec, le_spec. lia. Qed.

Lemma le_antisym a b : le a b -> le b a -> bid a = bid b.
Proof. rewrite !le_spec. lia. Qed.

Lemma insert_ins x l : insert x l = ins before x l.
Proof. induction l as [|y r IH]; simpl; [|rewrite IH]; reflexivity. Qed.

Lemma isort_ins l : isort l = ListFacts.isort before l.
Proof.
  unfold isort, ListFacts.isort. induction l as [|x l IH]; simpl; [|rewrite IH, insert_ins]; reflexivity.
Qed.

Lemma isort_perm l : Permutation (isort l) l.
Proof. rewrite isort_ins. apply ListFacts.isort_perm. Qed.

Lemma isort_In l x : In x (isort l) <-> In x l.
Proof. rewrite isort_ins. apply ListFacts.isort_In. Qed.

Lemma isort_sorted l : StronglySorted le (isort l).
Proof. rewrite isort_ins. apply isort_StronglySorted; [exact before_le|exact (fun x y H => H)|exact le_trans]. Qed.

(* distinct ULIDs make the order antisymmetric, so the sorted arrangement is unique *)
Lemma isort_unique l l' : Permutation l l' -> NoDup (map bid l) -> isort l = isort l'.
Proof.
  intros P Hn. apply (StronglySorted_perm_eq le).
  - intros x y Hx Hy H1 H2. apply (NoDup_map_inj bid l); auto using le_antisym; now apply (proj1 (isort_In l _)).
  - now rewrite !isort_perm.
  - apply isort_sorted.
  - apply isort_sorted.
Qed.

Lemma filter_group_spec g k d : NoDup (map bid g) -> filter_group g = (k, d) ->
  (forall i, In i d -> exists c, In c g /\ bid c = i /\ exists p, In p k /\ incl (srcs c) (srcs p))
  /\ (forall p, In p k <-> In p g /\ ~ In (bid p) d).
Proof.
  intros Hn H. rewrite <- (isort_perm g) in Hn.
  destruct (child_loop_spec _ _ _ _ Hn H) as [Ha Hb]. split.
  - intros i Hi. destruct (Ha i Hi) as (c & Hc & E & p & Hp & Hcont).
    exists c. rewrite <- (isort_In g). repeat split; auto. exists p. now rewrite <- contains_incl.
  - intros p. rewrite Hb, isort_In. simpl. tauto.
Qed.

Lemma in_dups_in_order keys l i :
  In i (dups_in_order keys l) <-> exists k, In k keys /\ In i (snd (filter_group (filter (in_group k) l))).
Proof. unfold dups_in_order. apply in_flat_map. Qed.

Lemma in_group_keys l k : In k (group_keys l) <-> exists b, In b l /\ grp b = k.
Proof.
  unfold group_keys. rewrite nodup_In, in_map_iff. split; intros (b & H1 & H2); exists b; tauto.
Qed.

Lemma in_dups l b : NoDup (map bid l) -> In b l ->
  (In (bid b) (dups l) <-> In (bid b) (snd (filter_group (filter (in_group (grp b)) l)))).
Proof.
  intros Hn Hb. unfold dups. rewrite in_dups_in_order. split.
  - intros (k & Hk & Hi).
    destruct (filter_group (filter (in_group k) l)) as [kk d] eqn:FG.
    destruct (filter_group_spec _ _ _ (NoDup_map_filter bid _ l Hn) FG) as [Ha _].
    destruct (Ha _ Hi) as (c & Hc & E & _). apply filter_In in Hc. destruct Hc as [Hc Hg].
    assert (c = b) as -> by (apply (NoDup_map_inj bid l); auto).
    unfold in_group in Hg. apply Z.eqb_eq in Hg. subst k. rewrite FG. exact Hi.
  - intros Hi. exists (grp b). split; auto. apply in_group_keys. eauto.
Qed.

Lemma hidden_covered l b : NoDup (map bid l) -> In b l -> hidden l b = true ->
  exists p, In p l /\ grp p = grp b /\ hidden l p = false /\ incl (srcs b) (srcs p).
Proof.
  intros Hn Hb Hh. unfold hidden in Hh. apply mem_In in Hh. apply (in_dups l b Hn Hb) in Hh.
  destruct (filter_group (filter (in_group (grp b)) l)) as [k d] eqn:FG. simpl in Hh.
  destruct (filter_group_spec _ _ _ (NoDup_map_filter bid _ l Hn) FG) as [Ha Hk].
  destruct (Ha _ Hh) as (c & Hc & E & p & Hp & Hincl).
  apply filter_In in Hc. destruct Hc as [Hc _].
  assert (c = b) as -> by (apply (NoDup_map_inj bid l); auto).
  apply Hk in Hp. destruct Hp as [Hp Hnd]. apply filter_In in Hp. destruct Hp as [Hp Hg].
  unfold in_group in Hg. apply Z.eqb_eq in Hg.
  exists p. repeat split; auto.
  unfold hidden. apply mem_false. rewrite (in_dups l p Hn Hp), Hg, FG. exact Hnd.
Qed.

Lemma kept_cover l b s : NoDup (map bid l) -> In b l -> In s (srcs b) ->
  exists p, In p l /\ grp p = grp b /\ hidden l p = false /\ In s (srcs p).
Proof.
  intros Hn Hb Hs. destruct (hidden l b) eqn:Hh.
  - destruct (hidden_covered l b Hn Hb Hh) as (p & Hp & Hg & Hk & Hi). exists p. repeat split; auto.
  - exists b. repeat split; auto.
Qed.

Lemma dups_perm l l' : Permutation l l' -> NoDup (map bid l) -> incl (dups l) (dups l').
Proof.
  intros P Hn i. unfold dups. rewrite !in_dups_in_order. intros (k & Hk & Hi). exists k. split.
  - apply in_group_keys in Hk as (c & Hc & E). apply in_group_keys. exists c. split; [exact (Permutation_in _ P Hc)|exact E].
  - unfold filter_group in *.
    now rewrite <- (isort_unique (filter (in_group k) l) (filter (in_group k) l')); auto using filter_perm, NoDup_map_filter.
Qed.

(* listing order does not matter *)
Lemma order_independent l l' : Permutation l l' -> NoDup (map bid l) ->
  forall b, hidden l b = hidden l' b.
Proof.
  intros P Hn b. apply eq_true_iff_eq. unfold hidden. rewrite !mem_In. split; apply dups_perm; auto.
  - now symmetry.
  - now rewrite <- P.
Qed.

(* the order in which the groups are handed to the workers does not matter *)
Lemma schedule_independent keys keys' l : Permutation keys keys' ->
  forall i, In i (dups_in_order keys l) <-> In i (dups_in_order keys' l).
Proof. intros P i. unfold dups_in_order. now rewrite P. Qed.

Lemma dups_are_ids l i : NoDup (map bid l) -> In i (dups l) -> exists b, In b l /\ bid b = i /\ hidden l b = true.
Proof.
  intros Hn Hi. pose proof Hi as Hi'. unfold dups in Hi. apply in_dups_in_order in Hi. destruct Hi as (k & Hk & Hi).
  destruct (filter_group (filter (in_group k) l)) as [kk d] eqn:FG.
  destruct (filter_group_spec _ _ _ (NoDup_map_filter bid _ l Hn) FG) as [Ha _].
  destruct (Ha _ Hi) as (c & Hc & E & _). apply filter_In in Hc. exists c. repeat split; try tauto.
  unfold hidden. apply mem_In. now rewrite E.
Qed.

Lemma find_blk_In l b : NoDup (map bid l) -> In b l -> find_blk l (bid b) = Some b.
Proof.
  unfold find_blk. induction l as [|a l IH]; simpl; intros Hn Hb; [contradiction|].
  inversion Hn; subst. destruct Hb as [->|Hb]; [now rewrite Z.eqb_refl|].
  destruct (bid a =? bid b) eqn:E; auto. apply Z.eqb_eq in E. exfalso. apply H1. rewrite E. now apply in_map.
Qed.

Lemma kept_In l p : In p (kept l) <-> In p l /\ hidden l p = false.
Proof. unfold kept. rewrite filter_In. destruct (hidden l p); simpl; intuition congruence. Qed.

Lemma kept_witness l b p (x : bool) : grp p = grp b -> In p l -> hidden l p = false -> x = true ->
  in_group (grp b) p && mem (bid p) (map bid (kept l)) && x = true.
Proof.
  intros Hg Hp Hk ->. unfold in_group. rewrite Hg, Z.eqb_refl, andb_true_r. apply mem_In, in_map, kept_In. auto.
Qed.

Lemma model_run_pred l conc : NoDup (map bid l) -> run_pred l (conc, map bid (kept l), dups l) = true.
Proof.
  intros Hn. unfold run_pred, set_eqb. rewrite !andb_true_iff. repeat split.
  - apply subset_incl. intros i [Hi|Hi]%in_app_or.
    + apply in_map_iff in Hi as (b & <- & Hb). apply kept_In in Hb. apply in_map. tauto.
    + destruct (dups_are_ids l i Hn Hi) as (b & Hb & <- & _). now apply in_map.
  - apply subset_incl. intros i Hi. apply in_map_iff in Hi as (b & <- & Hb). apply in_or_app.
    destruct (hidden l b) eqn:Hh; [right; now apply mem_In|left; now apply in_map, kept_In].
  - apply forallb_forall. intros i Hi. apply in_map_iff in Hi as (b & <- & Hb).
    apply kept_In in Hb as [_ Hh]. unfold hidden in Hh. now rewrite Hh.
  - apply forallb_forall. intros i Hi. destruct (dups_are_ids l i Hn Hi) as (b & Hb & <- & Hh).
    rewrite (find_blk_In l b Hn Hb).
    destruct (hidden_covered l b Hn Hb Hh) as (p & Hp & Hg & Hk & Hincl).
    apply existsb_exists. exists p. split; [exact Hp|]. apply kept_witness; auto. now apply contains_incl.
  - apply forallb_forall. intros b Hb. apply forallb_forall. intros s Hs.
    destruct (kept_cover l b s Hn Hb Hs) as (p & Hp & Hg & Hk & Hi).
    apply existsb_exists. exists p. split; [exact Hp|]. apply kept_witness; auto. now apply mem_In.
Qed.

(* the view used by the correspondence check is the model's kept / dups *)
Lemma model_view_spec l : model_view l = (map bid (kept l), dups l).
Proof. reflexivity. Qed.

(* a history of Filter calls on one instance: the result of the n-th call depends only on
   the n-th input, whatever was remembered before *)
Lemma history_stateless prev ls : run_history prev ls = map model_view ls.
Proof. revert prev. induction ls as [|l r IH]; intros prev; simpl; auto. now rewrite IH. Qed.

Lemma history_nth prev ls n l : nth_error ls n = Some l ->
  nth_error (run_history prev ls) n = Some (map bid (kept l), dups l).
Proof.
  intros H. rewrite history_stateless, nth_error_map, H. reflexivity.
Qed.

Lemma filter_stateless_fact : filter_reads_no_previous_result = true.
Proof. reflexivity. Qed.

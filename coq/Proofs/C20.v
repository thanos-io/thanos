(* C20 — lemmas: the list-level statement about first occurrences on a walk, the new
   ring without the new node's sections is the old ring, and the same through the
   multi-hashring of the public constructor. *)
From Coq Require Import ZArith List Bool Lia Arith Permutation Sorting.Sorted.
Import ListNotations.
From Verif Require Import Lib.Corr Lib.ListFacts Lib.Hashring_Ketama Lib.Hashring_KetamaFacts Lib.Hashring_RingFacts
  Lib.Hashring_Answers Lib.Hashring_AnswersFacts Lib.Hashring_Order Gen.C20 Model.C20.
Close Scope Z_scope.

Definition differs_from (p x : nat) : bool := negb (x =? p).

Lemma mem_In x l : mem x l = true <-> In x l.
Proof. apply existsb_nat_In. Qed.

Lemma dedup_seen_ext l : forall seen seen', (forall x, In x seen <-> In x seen') -> dedup seen l = dedup seen' l.
Proof.
  induction l as [|x r IH]; intros seen seen' H; simpl; [reflexivity|].
  rewrite (existsb_congr x seen seen' (H x)).
  destruct (existsb (Nat.eqb x) seen'); [apply IH; exact H|]. f_equal. apply IH.
  intro y. simpl. rewrite (H y). reflexivity.
Qed.

Lemma dedup_filter p : forall l seen seen',
  (forall x, x <> p -> (In x seen <-> In x seen')) ->
  filter (differs_from p) (dedup seen l) = dedup seen' (filter (differs_from p) l).
Proof.
  induction l as [|x r IH]; intros seen seen' H; simpl; [reflexivity|].
  unfold differs_from at 2. destruct (x =? p) eqn:E; simpl.
  - apply Nat.eqb_eq in E. subst x.
    destruct (existsb (Nat.eqb p) seen); simpl.
    + apply IH. exact H.
    + unfold differs_from at 1. rewrite Nat.eqb_refl. simpl. apply IH.
      intros x Hx. simpl. rewrite <- (H x Hx). split; [intros [->|]; [congruence|assumption]|auto].
  - apply Nat.eqb_neq in E. rewrite (existsb_congr x seen seen' (H x E)).
    destruct (existsb (Nat.eqb x) seen'); simpl.
    + apply IH. exact H.
    + unfold differs_from at 1. rewrite (proj2 (Nat.eqb_neq x p) E). simpl. f_equal. apply IH.
      intros y Hy. simpl. rewrite (H y Hy). reflexivity.
Qed.

Lemma dedup_map_inj (f : nat -> nat) : (forall a b, f a = f b -> a = b) ->
  forall l seen, dedup (map f seen) (map f l) = map f (dedup seen l).
Proof.
  intros Hinj. induction l as [|x r IH]; intro seen; simpl; [reflexivity|].
  rewrite existsb_map_inj by (intros y _; apply Hinj).
  destruct (existsb (Nat.eqb x) seen); [apply IH|]. simpl. f_equal. apply (IH (x :: seen)).
Qed.

Lemma dedup_spec : forall l seen,
  NoDup (dedup seen l) /\ forall x, In x (dedup seen l) -> ~ In x seen /\ In x l.
Proof.
  induction l as [|x r IH]; intro seen; simpl.
  - split; [constructor|intros ? []].
  - destruct (existsb (Nat.eqb x) seen) eqn:E.
    + destruct (IH seen) as [H1 H2]. split; [exact H1|]. intros y Hy. destruct (H2 y Hy). auto.
    + destruct (IH (x :: seen)) as [H1 H2]. split.
      * constructor; [|exact H1]. intro Hin. destruct (H2 x Hin) as [Hn _]. apply Hn. now left.
      * intros y [<-|Hy].
        -- split; [|now left]. intro Hin. apply existsb_nat_In in Hin. congruence.
        -- destruct (H2 y Hy) as [Hn Hi]. split; [|now right]. intro. apply Hn. now right.
Qed.

Lemma dedup_complete : forall l seen x, In x l -> In x seen \/ In x (dedup seen l).
Proof.
  induction l as [|y r IH]; intros seen x Hin; simpl; [contradiction|].
  destruct (existsb (Nat.eqb y) seen) eqn:E.
  - destruct Hin as [->|Hin]; [left; apply existsb_nat_In; exact E|apply IH; exact Hin].
  - destruct Hin as [->|Hin]; [right; now left|].
    destruct (IH (y :: seen) x Hin) as [[->|H]|H]; [right; now left|now left|right; now right].
Qed.

Lemma filter_firstn_prefix {A} (f : A -> bool) : forall l k,
  filter f (firstn k l) = firstn (length (filter f (firstn k l))) (filter f l).
Proof.
  induction l as [|a l IH]; intro k; destruct k; simpl; try reflexivity.
  destruct (f a); simpl; [f_equal|]; apply IH.
Qed.

Lemma firstn_filter_all {A} (f : A -> bool) : forall l k,
  (forall x, In x (firstn k l) -> f x = true) -> firstn k l = firstn k (filter f l).
Proof.
  induction l as [|a l IH]; intros [|k] H; simpl in *; try reflexivity.
  rewrite (H a (or_introl eq_refl)). simpl. f_equal. apply IH. intros. apply H. now right.
Qed.

Lemma In_firstn_le {A} (x : A) : forall l m k, m <= k -> In x (firstn m l) -> In x (firstn k l).
Proof.
  induction l as [|a l IH]; intros m k Hle Hin; destruct m, k; simpl in *; try contradiction; try lia.
  destruct Hin as [->|Hin]; [now left|right]. eapply IH; [|exact Hin]. lia.
Qed.

Lemma differs_from_true p x : x <> p -> differs_from p x = true.
Proof. intro H. apply negb_true_iff, Nat.eqb_neq, H. Qed.

Lemma count_p_le_1 p l : NoDup l -> length l <= length (filter (differs_from p) l) + 1.
Proof.
  induction l as [|a l IH]; simpl; intro H; [lia|]. inversion H as [|? ? Hn H']; subst.
  unfold differs_from at 1. destruct (a =? p) eqn:E; simpl.
  - apply Nat.eqb_eq in E. subst a. rewrite filter_all; [lia|].
    intros x Hx. apply differs_from_true. intros ->. contradiction.
  - specialize (IH H'). lia.
Qed.

Section Insert.
  Variable p : nat.
  Variable f : nat -> nat.                 (* old position -> new position *)
  Hypothesis f_inj : forall a b, f a = f b -> a = b.
  Variables W W' : list nat.               (* endpoints met on the walk: before / after *)
  Hypothesis HW : filter (differs_from p) W' = map f W.
  Variable rf : nat.

  Let D := dedup [] W.
  Let D' := dedup [] W'.
  Let A := firstn rf D.
  Let A' := firstn rf D'.

  Lemma D'_filter : filter (differs_from p) D' = map f D.
  Proof.
    unfold D', D. rewrite (dedup_filter p W' [] []) by (intros; reflexivity).
    rewrite HW. apply (dedup_map_inj f f_inj W []).
  Qed.

  (* the new replicas other than p are the images of a prefix of the old first
     occurrences that misses at most one of the old replicas *)
  Lemma A'_filter : exists m, m <= rf /\ length A <= m + 1 /\ filter (differs_from p) A' = map f (firstn m D).
  Proof.
    exists (length (filter (differs_from p) A')).
    assert (Hnd : NoDup A') by (apply NoDup_firstn, dedup_spec).
    pose proof (count_p_le_1 p _ Hnd) as Hc.
    pose proof (filter_length_le (differs_from p) A') as Hle.
    assert (HA' : length A' = Nat.min rf (length D')) by apply firstn_length.
    assert (HA : length A = Nat.min rf (length D)) by apply firstn_length.
    split; [lia|]. split.
    - destruct (le_lt_dec rf (length D')) as [Hge|Hlt]; [lia|].
      (* fewer than rf endpoints in all: A' is all of D' *)
      unfold A'. rewrite firstn_all2 by lia. rewrite D'_filter, map_length. lia.
    - unfold A'. rewrite filter_firstn_prefix at 1. rewrite D'_filter, firstn_map. reflexivity.
  Qed.

  Lemma new_replicas_were_replicas x : In x A' -> x = p \/ In x (map f A).
  Proof.
    intro Hin. destruct (Nat.eq_dec x p) as [->|Hne]; [now left|right].
    destruct A'_filter as [m [Hm [_ E]]].
    assert (Hx : In x (filter (differs_from p) A')) by (apply filter_In; split; [exact Hin|apply differs_from_true, Hne]).
    rewrite E, <- firstn_map in Hx. unfold A. rewrite <- firstn_map. eapply In_firstn_le; eauto.
  Qed.

  Lemma unchanged_without_new : ~ In p A' -> A' = map f A.
  Proof.
    intro Hn. unfold A', A. rewrite <- firstn_map, <- D'_filter. apply firstn_filter_all.
    intros x Hx. apply differs_from_true. intros ->. exact (Hn Hx).
  Qed.

  Lemma at_most_one_lost : length (filter (fun y => negb (mem (f y) A')) A) <= 1.
  Proof.
    destruct A'_filter as [m [Hm [HA E]]].
    rewrite <- (firstn_skipn m A), filter_app, app_length, (filter_none _ (firstn m A)).
    - simpl. etransitivity; [apply filter_length_le|]. rewrite skipn_length. lia.
    - intros y Hy. apply negb_false_iff, mem_In.
      assert (H : In (f y) (filter (differs_from p) A')).
      { rewrite E. apply in_map. unfold A in Hy. rewrite firstn_firstn, Nat.min_l in Hy by lia. exact Hy. }
      apply filter_In in H. apply H.
  Qed.

  Lemma only_onto_new_holds : only_onto_new_gen p f A A' = true.
  Proof.
    unfold only_onto_new_gen. rewrite !andb_true_iff. split; [split|].
    - apply forallb_forall. intros x Hx. destruct (new_replicas_were_replicas x Hx) as [->|Hin].
      + rewrite Nat.eqb_refl. reflexivity.
      + apply orb_true_iff. right. apply mem_In. exact Hin.
    - apply Nat.leb_le. exact at_most_one_lost.
    - destruct (mem p A') eqn:E; [reflexivity|]. simpl.
      unfold q_eqb. apply (proj2 (list_eqb_spec Nat.eqb Nat.eqb_eq _ _)).
      apply unchanged_without_new. intro Hin. apply mem_In in Hin. congruence.
  Qed.
End Insert.

Lemma iota_inj p a b : iota p a = iota p b -> a = b.
Proof.
  unfold iota. destruct (Nat.ltb_spec a p), (Nat.ltb_spec b p); lia.
Qed.

Lemma iota_not_p p a : iota p a <> p.
Proof. unfold iota. destruct (Nat.ltb_spec a p); lia. Qed.

Lemma nozone_ins p e hs : nozone (ins p e hs) = ins p (0%Z, e) (nozone hs).
Proof. unfold nozone, ins. rewrite map_app, firstn_map. simpl. rewrite skipn_map. reflexivity. Qed.

Definition not_new (p : nat) (s : section) : bool := differs_from p (s_ep s).

Lemma sections_filter_new_at e : forall p eps idx, p <= length eps ->
  filter (not_new (idx + p)) (sections_of idx (ins p e eps))
  = map (rename (fun k => if k <? idx + p then k else S k)) (sections_of idx eps).
Proof.
  induction p as [|p IH]; intros eps idx Hp.
  - (* the new endpoint's sections disappear, the later endpoints move up by one *)
    destruct e as [az hs]. unfold ins. simpl. rewrite Nat.add_0_r, filter_app, filter_none, filter_all.
    + change (S idx) with (1 + idx). rewrite sections_of_shift. apply map_ext_in.
      intros s Hs. apply sections_of_In in Hs as [B _]. unfold rename. simpl.
      destruct (Nat.ltb_spec (s_ep s) idx); [lia|reflexivity].
    + intros s Hs. apply sections_of_In in Hs as [B _]. apply differs_from_true. lia.
    + intros s Hs. apply in_map_iff in Hs as [h [<- _]]. unfold not_new, differs_from. simpl. rewrite Nat.eqb_refl. reflexivity.
  - (* an endpoint before p keeps its position *)
    destruct eps as [|[az hs] eps]; [simpl in Hp; lia|]. unfold ins. simpl.
    rewrite filter_app, map_app, <- Nat.add_succ_comm. f_equal; [|apply IH; simpl in Hp; lia].
    rewrite filter_all, map_map.
    + apply map_ext. intro h. unfold rename. simpl.
      destruct (Nat.ltb_spec idx (S (idx + p))); [reflexivity|lia].
    + intros s Hs. apply in_map_iff in Hs as [h [<- _]]. apply differs_from_true. simpl. lia.
Qed.

Lemma sections_filter_new p e eps : p <= length eps ->
  filter (not_new p) (sections_of 0 (ins p e eps)) = map (rename (iota p)) (sections_of 0 eps).
Proof. exact (sections_filter_new_at e p eps 0). Qed.

Lemma ring_filter_new p e eps : p <= length eps ->
  NoDup (map s_hash (sections_of 0 (ins p e eps))) ->
  filter (not_new p) (sort_sections (sections_of 0 (ins p e eps)))
  = map (rename (iota p)) (sort_sections (sections_of 0 eps)).
Proof.
  intros Hp Hnd. set (X' := sections_of 0 (ins p e eps)) in *. set (X := sections_of 0 eps).
  apply sorted_unique.
  - apply StronglySorted_filter, sort_sections_StronglySorted.
  - apply StronglySorted_map_hash; [reflexivity|apply sort_sections_StronglySorted].
  - eapply Permutation_trans; [apply filter_perm, Permutation_sym, sort_sections_perm|].
    unfold X'. rewrite (sections_filter_new p e eps Hp). apply Permutation_map, sort_sections_perm.
  - apply NoDup_map_filter. eapply Permutation_NoDup; [|exact Hnd]. apply Permutation_map, sort_sections_perm.
Qed.

Lemma rot_v_filter g ring v : rot_v (filter g ring) v = filter g (rot_v ring v).
Proof. unfold rot_v. rewrite filter_app. f_equal; apply filter_comm. Qed.

Lemma rot_v_map_rename f ring v : rot_v (map (rename f) ring) v = map (rename f) (rot_v ring v).
Proof. unfold rot_v. rewrite map_app, !filter_map_comm. reflexivity. Qed.

Lemma walk_lists_related p e hs v : p <= length hs ->
  NoDup (map s_hash (sections_of 0 (nozone (ins p e hs)))) ->
  filter (differs_from p) (map s_ep (rot_v (spec_ring (ins p e hs)) v))
  = map (iota p) (map s_ep (rot_v (spec_ring hs) v)).
Proof.
  intros Hp Hnd. unfold spec_ring. rewrite nozone_ins in *.
  assert (Hp' : p <= length (nozone hs)) by (unfold nozone; rewrite map_length; exact Hp).
  rewrite filter_map_comm, <- rot_v_filter. fold (not_new p).
  rewrite (ring_filter_new p (0%Z, e) (nozone hs) Hp' Hnd).
  rewrite rot_v_map_rename, map_map. rewrite map_map. reflexivity.
Qed.

Lemma add_node_only_onto_new hs p e rf v : p <= length hs ->
  NoDup (map s_hash (sections_of 0 (nozone (ins p e hs)))) ->
  only_onto_new p (spec_answers (spec_ring hs) rf v) (spec_answers (spec_ring (ins p e hs)) rf v) = true.
Proof.
  intros Hp Hnd. unfold only_onto_new, spec_answers.
  apply (only_onto_new_holds p (iota p) (iota_inj p) _ _ (walk_lists_related p e hs v Hp Hnd)).
Qed.

Lemma add_node_readable hs p e rf v : p <= length hs ->
  NoDup (map s_hash (sections_of 0 (nozone (ins p e hs)))) ->
  let A := spec_answers (spec_ring hs) rf v in
  let A' := spec_answers (spec_ring (ins p e hs)) rf v in
  (forall x, In x A' -> x = p \/ exists y, In y A /\ x = iota p y) /\
  length (filter (fun y => negb (mem (iota p y) A')) A) <= 1 /\
  (~ In p A' -> A' = map (iota p) A).
Proof.
  intros Hp Hnd A A'. pose proof (walk_lists_related p e hs v Hp Hnd) as HW.
  split; [|split].
  - intros x Hx. destruct (new_replicas_were_replicas p (iota p) (iota_inj p) _ _ HW rf x Hx) as [->|Hin]; [now left|right].
    apply in_map_iff in Hin as [y [<- Hy]]. eauto.
  - apply (at_most_one_lost p (iota p) (iota_inj p) _ _ HW rf).
  - apply (unchanged_without_new p (iota p) (iota_inj p) _ _ HW rf).
Qed.

Lemma ins_length {A} p (e : A) l : length (ins p e l) = S (length l).
Proof.
  unfold ins. rewrite app_length. simpl.
  rewrite <- (firstn_skipn p l) at 3. rewrite app_length. lia.
Qed.

(* tie T: every assignment to m.nodes in NewMultiHashring appends onto m.nodes itself *)
Lemma nodes_copied_true : nodes_copied = true.
Proof. reflexivity. Qed.

Lemma permute_nth (addrs : list Z) perm i : i < length perm ->
  nth i (permute (-1)%Z addrs perm) (-1)%Z = nth (nth i perm 0) addrs (-1)%Z.
Proof.
  intro Hi. unfold permute.
  rewrite (nth_indep _ (-1)%Z (nth 0 addrs (-1)%Z)) by (rewrite map_length; exact Hi).
  apply (map_nth (fun j => nth j addrs (-1)%Z) perm 0 i).
Qed.

(* the ring inside the multi-hashring built by NewMultiHashring: placement depends on the
   endpoint set only, given that the constructor's final sort of m.nodes does not touch
   the ring's own endpoint slice ([copied] = true) *)
Lemma multi_set_only addrs eps perm :
  Permutation perm (seq 0 (length eps)) ->
  NoDup (map s_hash (sections_of 0 eps)) ->
  forall rf v, sections_of 0 eps <> [] ->
  multi_getn_gen true (permute (-1)%Z addrs perm) (permute (0%Z, []) eps perm) rf v
  = multi_getn_gen true addrs eps rf v.
Proof.
  intros Hperm Hnd rf v Hne. unfold multi_getn_gen.
  rewrite <- (ketama_answers_perm eps perm Hperm Hnd rf v Hne).
  pose proof (sections_perm_nonempty eps perm Hperm Hne) as Hne'. unfold dflt_ep in *.
  destruct (ketama_answers (permute (0%Z, []) eps perm) rf v) as [a'|] eqn:A; simpl; [|reflexivity].
  f_equal. rewrite map_map. apply map_ext_in. intros i Hi.
  destruct (ketama_answers_distinct _ _ _ _ Hne' A) as [_ [_ Hlt]]. specialize (Hlt i Hi).
  unfold permute in Hlt at 1. rewrite map_length in Hlt.
  unfold ring_endpoint_gen. apply permute_nth. exact Hlt.
Qed.

(* if the sort did reorder the ring's slice, the order of the list would matter *)
Lemma aliased_order_dependent :
  exists addrs eps perm rf v,
    Permutation perm (seq 0 (length eps)) /\ NoDup (map s_hash (sections_of 0 eps)) /\
    multi_getn_gen false (permute (-1)%Z addrs perm) (permute (0%Z, []) eps perm) rf v
    <> multi_getn_gen false addrs eps rf v.
Proof.
  exists [0; 1]%Z, [(0, [5]); (0, [9])]%Z, [1; 0], 1, 6%Z.
  split; [apply perm_swap|]. split; [vm_compute; repeat constructor; simpl; intuition discriminate|].
  vm_compute. discriminate.
Qed.

Lemma index_of_z_nth addrs : NoDup addrs -> forall i, i < length addrs ->
  index_of_z (nth i addrs (-1)%Z) addrs = i.
Proof.
  induction addrs as [|a r IH]; intros Hnd i Hi; simpl in Hi; [lia|].
  inversion Hnd as [|? ? Hn Hnd']; subst. destruct i as [|i]; simpl.
  - rewrite Z.eqb_refl. reflexivity.
  - destruct (Z.eqb_spec (nth i r (-1)%Z) a) as [E|E].
    + exfalso. apply Hn. rewrite <- E. apply nth_In. lia.
    + f_equal. apply IH; [exact Hnd'|lia].
Qed.

(* m.nodes being a copy, the ring's endpoint slice is the configured list itself: the node
   answered for ring index i stands at position i of that list *)
Lemma answered_pos_id addrs i : NoDup addrs -> i < length addrs -> answered_pos addrs i = i.
Proof.
  intros Hnd Hi. unfold answered_pos, ring_endpoint, ring_endpoint_gen. rewrite nodes_copied_true.
  apply index_of_z_nth; assumption.
Qed.

Lemma spec_answers_lt hs rf v x : In x (spec_answers (spec_ring hs) rf v) -> x < length hs.
Proof.
  unfold spec_answers. intro H. apply firstn_In, dedup_spec in H as [_ H].
  apply in_map_iff in H as [s [<- Hs]]. unfold rot_v in Hs.
  assert (Hin : In s (spec_ring hs)) by (apply in_app_or in Hs as [Hs|Hs]; apply filter_In in Hs; apply Hs).
  apply ring_ep_lt in Hin. unfold nozone in Hin. rewrite map_length in Hin. exact Hin.
Qed.

Lemma map_answered_pos_id addrs hs rf v : NoDup addrs -> length addrs = length hs ->
  map (answered_pos addrs) (spec_answers (spec_ring hs) rf v) = spec_answers (spec_ring hs) rf v.
Proof.
  intros Hnd Hlen. rewrite <- (map_id (spec_answers (spec_ring hs) rf v)) at 2.
  apply map_ext_in. intros i Hi. apply answered_pos_id; [exact Hnd|]. rewrite Hlen. eapply spec_answers_lt; eauto.
Qed.

Lemma add_node_multi addrs a_new hs p e rf v :
  p <= length hs -> length addrs = length hs ->
  NoDup addrs -> NoDup (ins p a_new addrs) ->
  NoDup (map s_hash (sections_of 0 (nozone (ins p e hs)))) ->
  only_onto_new p
    (map (answered_pos addrs) (spec_answers (spec_ring hs) rf v))
    (map (answered_pos (ins p a_new addrs)) (spec_answers (spec_ring (ins p e hs)) rf v)) = true.
Proof.
  intros Hp Hlen Hnd Hnd' Hh.
  rewrite (map_answered_pos_id addrs hs rf v Hnd Hlen).
  rewrite (map_answered_pos_id (ins p a_new addrs) (ins p e hs) rf v Hnd') by (rewrite !ins_length, Hlen; reflexivity).
  apply add_node_only_onto_new; assumption.
Qed.

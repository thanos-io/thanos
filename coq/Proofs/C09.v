(* C09 — Limiter.Reserve, limitedServer.Send over a stream of responses, and the reservation
   schedule of BucketStore.Series. *)
From Coq Require Import String.
From Coq Require Import ZArith NArith List Bool Lia.
Import ListNotations.
From Verif Require Import Lib.Corr Gen.C09 Model.C09.
Open Scope N_scope.

Lemma two64_pos : 0 < two64. Proof. reflexivity. Qed.

Lemma reserve_nowrap l n : lim l <> 0 -> reserved l + n < two64 ->
  reserve l n = (reserved l + n <=? lim l, mkL (lim l) (reserved l + n)).
Proof.
  intros Hl Hw. unfold reserve. assert (E : lim l =? 0 = false) by (apply N.eqb_neq; exact Hl). rewrite E.
  rewrite N.mod_small by exact Hw. reflexivity.
Qed.

Lemma reserve_unlimited l n : lim l = 0 -> reserve l n = (true, l).
Proof. intro H. unfold reserve. rewrite H. reflexivity. Qed.

Fixpoint oks_spec (limit acc : N) (nums : list N) : list bool :=
  match nums with
  | [] => []
  | n :: r => (acc + n <=? limit) :: oks_spec limit (acc + n) r
  end.

Lemma reserves_spec limit : limit <> 0 -> forall nums acc, acc + sum_n nums < two64 ->
  reserves (mkL limit acc) nums = oks_spec limit acc nums.
Proof.
  intro Hl. induction nums as [|n r IH]; intros acc Hw; cbn [reserves oks_spec sum_n] in *; [reflexivity|].
  rewrite reserve_nowrap by (cbn [lim reserved]; lia). cbn [lim reserved]. f_equal. apply IH. lia.
Qed.

Lemma limiter_pred_spec limit : forall nums acc, limiter_pred limit acc nums (oks_spec limit acc nums) = true.
Proof.
  induction nums as [|n r IH]; intro acc; cbn [limiter_pred oks_spec]; [reflexivity|].
  rewrite eqb_reflx, IH. reflexivity.
Qed.

Lemma oks_all_true limit : forall nums acc, acc <= limit ->
  forallb (fun b => b) (oks_spec limit acc nums) = true <-> acc + sum_n nums <= limit.
Proof.
  induction nums as [|n r IH]; intros acc Ha; cbn [oks_spec forallb sum_n]; [split; [lia|reflexivity]|].
  rewrite andb_true_iff, N.leb_le. split.
  - intros [H1 H2]. apply (IH _ H1) in H2. lia.
  - intro H. assert (H1 : acc + n <= limit) by lia. split; [exact H1|]. apply (IH _ H1). lia.
Qed.

Lemma oks_sticky limit : forall nums acc, limit < acc -> Forall (fun b => b = false) (oks_spec limit acc nums).
Proof.
  induction nums as [|n r IH]; intros acc H; cbn [oks_spec]; constructor.
  - apply N.leb_gt. lia.
  - apply IH. lia.
Qed.

Lemma oks_after_failure limit : forall nums acc l1 l2,
  oks_spec limit acc nums = l1 ++ false :: l2 -> Forall (fun b => b = false) l2.
Proof.
  induction nums as [|n r IH]; intros acc l1 l2 H; cbn [oks_spec] in H.
  - destruct l1; discriminate.
  - destruct l1 as [|b l1]; cbn in H.
    + injection H as H1 H2. subst l2. apply N.leb_gt in H1. apply oks_sticky. exact H1.
    + injection H as _ H2. apply (IH _ _ _ H2).
Qed.

Lemma oks_length limit : forall nums acc, length (oks_spec limit acc nums) = length nums.
Proof. induction nums as [|n r IH]; intro acc; cbn [oks_spec length]; [reflexivity|]. f_equal. apply IH. Qed.

Lemma limiter_sound limit nums : limit <> 0 -> sum_n nums < two64 ->
  let oks := reserves (new_limiter limit) nums in
  length oks = length nums /\
  (forallb (fun b => b) oks = true <-> sum_n nums <= limit) /\
  (forall l1 l2, oks = l1 ++ false :: l2 -> Forall (fun b => b = false) l2) /\
  limiter_pred limit 0 nums oks = true.
Proof.
  intros Hl Hw. cbn zeta. unfold new_limiter. rewrite (reserves_spec limit Hl nums 0) by lia.
  split; [|split; [|split]].
  - apply oks_length.
  - apply (oks_all_true limit nums 0), N.le_0_l.
  - intros l1 l2 H. apply (oks_after_failure limit nums 0 l1 l2 H).
  - apply limiter_pred_spec.
Qed.

Lemma forallb_all_true {A} (l : list A) : forallb (fun b => b) (map (fun _ => true) l) = true.
Proof. induction l as [|x r IH]; [reflexivity|exact IH]. Qed.

Lemma limiter_unlimited nums : forall l, lim l = 0 -> reserves l nums = map (fun _ => true) nums.
Proof.
  induction nums as [|n r IH]; intros l H; cbn [reserves map]; [reflexivity|].
  rewrite reserve_unlimited by exact H. f_equal. apply IH. exact H.
Qed.

Lemma limiter_case_pred limit nums : pred_ok (CLimiter limit nums (reserves (new_limiter limit) nums)) = true.
Proof.
  cbn [pred_ok]. destruct (limit =? 0) eqn:E.
  - apply N.eqb_eq in E. subst. rewrite limiter_unlimited by reflexivity.
    rewrite map_length, Nat.eqb_refl, andb_true_r. apply forallb_all_true.
  - apply N.eqb_neq in E. destruct (sum_n nums <? two64) eqn:W; [|reflexivity]. apply N.ltb_lt in W.
    apply (limiter_sound limit nums E W).
Qed.

Definition tot_s (rs : list resp) : N := fst (totals rs).
Definition tot_c (rs : list resp) : N := snd (totals rs).

Definition r_s (r : resp) : N := match counts r with Some (s, _) => s | None => 0 end.
Definition r_c (r : resp) : N := match counts r with Some (_, c) => c | None => 0 end.

Lemma totals_pair rs : totals rs = (tot_s rs, tot_c rs).
Proof. unfold tot_s, tot_c. destruct (totals rs); reflexivity. Qed.

Lemma totals_cons r rest : totals (r :: rest) = (tot_s rest + r_s r, tot_c rest + r_c r).
Proof.
  cbn [totals]. rewrite totals_pair. unfold r_s, r_c.
  destruct (counts r) as [[s1 c1]|]; [reflexivity|]. rewrite !N.add_0_r. reflexivity.
Qed.

Lemma tot_s_cons r rest : tot_s (r :: rest) = tot_s rest + r_s r.
Proof. unfold tot_s at 1. rewrite totals_cons. reflexivity. Qed.
Lemma tot_c_cons r rest : tot_c (r :: rest) = tot_c rest + r_c r.
Proof. unfold tot_c at 1. rewrite totals_cons. reflexivity. Qed.

Lemma within_0 limit : within limit 0 = true.
Proof. destruct limit; reflexivity. Qed.

Lemma within_mono limit a b : a <= b -> within limit b = true -> within limit a = true.
Proof.
  unfold within. intros L H. apply orb_true_iff in H as [H|H]; [rewrite H; reflexivity|].
  apply N.leb_le in H. apply orb_true_iff. right. apply N.leb_le. lia.
Qed.

Lemma within_exceeded limit tot : limit <> 0 -> limit < tot -> within limit tot = false.
Proof.
  intros H0 H. unfold within. apply orb_false_iff. split; [apply N.eqb_neq; exact H0|apply N.leb_gt; exact H].
Qed.

Definition fits (l : limiter) (n : N) : bool := within (lim l) (reserved l + n).

(* [l'] is [l] after [n] were reserved on it. An unlimited limiter does not count, so this
   does not say [reserved l' = reserved l + n]; what matters later is what still fits. *)
Definition advanced (l : limiter) (n : N) (l' : limiter) : Prop :=
  reserved l' <= reserved l + n /\ forall x, fits l' x = fits l (x + n).

Lemma advanced_0 l : advanced l 0 l.
Proof. split; [lia|]. intro x. rewrite N.add_0_r. reflexivity. Qed.

Lemma fits_false l a b : a <= b -> fits l a = false -> fits l b = false.
Proof.
  unfold fits. intros L H. destruct (within (lim l) (reserved l + b)) eqn:F; [|reflexivity].
  rewrite (within_mono _ _ _ (proj1 (N.add_le_mono_l a b (reserved l)) L) F) in H. discriminate.
Qed.

Lemma reserve_fits l n : reserved l + n < two64 ->
  exists l', reserve l n = (fits l n, l') /\ advanced l n l'.
Proof.
  intro W. unfold reserve, advanced, fits, within. destruct (lim l =? 0) eqn:E.
  - exists l. rewrite E. repeat split. lia.
  - rewrite N.mod_small by exact W. eexists. split; [reflexivity|]. cbn [lim reserved]. rewrite E.
    split; [lia|]. intro x. f_equal. f_equal. lia.
Qed.

(* The limiters after Send are only described: a response without counts leaves them as they
   are, one with counts replaces them. *)
Lemma send_spec ls lc r :
  reserved ls + r_s r < two64 -> reserved lc + r_c r * samples_per_chunk < two64 ->
  fits ls 0 = true -> fits lc 0 = true ->
  exists ls' lc',
    send ls lc r = (fits ls (r_s r) && fits lc (r_c r * samples_per_chunk), ls', lc') /\
    (fits ls (r_s r) && fits lc (r_c r * samples_per_chunk) = true ->
     advanced ls (r_s r) ls' /\ advanced lc (r_c r * samples_per_chunk) lc').
Proof.
  unfold send, r_s, r_c. destruct (counts r) as [[s c]|]; intros Ws Wc Is Ic.
  - destruct (reserve_fits ls s Ws) as (ls' & -> & As).
    destruct (fits ls s); [|exists ls', lc; split; [reflexivity|discriminate]].
    rewrite N.mod_small by lia. destruct (reserve_fits lc _ Wc) as (lc' & -> & Ac).
    exists ls', lc'. auto.
  - exists ls, lc. rewrite N.mul_0_l, Is, Ic. split; [reflexivity|]. intros _. split; apply advanced_0.
Qed.

Lemma stream_spec : forall rs ls lc,
  reserved ls + tot_s rs < two64 -> reserved lc + tot_c rs * samples_per_chunk < two64 ->
  fits ls 0 = true -> fits lc 0 = true ->
  let n := fst (stream ls lc rs) in
  let fin := snd (stream ls lc rs) in
  let pre := firstn (N.to_nat n) rs in
  fits ls (tot_s pre) = true /\ fits lc (tot_c pre * samples_per_chunk) = true /\
  fin = fits ls (tot_s rs) && fits lc (tot_c rs * samples_per_chunk) /\
  (fin = true -> n = N.of_nat (length rs)).
Proof.
  induction rs as [|r rest IH]; intros ls lc Ws Wc Is Ic; cbn zeta.
  - cbn [stream fst snd firstn length]. change (tot_s []) with 0. change (tot_c []) with 0.
    rewrite N.mul_0_l, Is, Ic. auto.
  - rewrite tot_s_cons in Ws |- *. rewrite tot_c_cons, N.mul_add_distr_r in Wc |- *.
    cbn [stream].
    destruct (send_spec ls lc r) as (ls' & lc' & -> & A); try assumption; try lia.
    destruct (fits ls (r_s r) && fits lc (r_c r * samples_per_chunk)) eqn:Ok.
    + (* forwarded: the rest of the stream runs on the advanced limiters *)
      destruct (A eq_refl) as [[Ls As] [Lc Ac]].
      apply andb_true_iff in Ok as [Os Oc].
      specialize (IH ls' lc'). cbn zeta in IH.
      destruct (stream ls' lc' rest) as [n fin]. cbn [fst snd] in *.
      rewrite !As, !Ac in IH. destruct IH as (I1 & I2 & I3 & I4); try assumption; try lia.
      rewrite N.add_1_r, N2Nat.inj_succ. cbn [firstn length].
      rewrite tot_s_cons, tot_c_cons, N.mul_add_distr_r, Nat2N.inj_succ.
      repeat split; try assumption. intro F. rewrite (I4 F). reflexivity.
    + (* refused: nothing was forwarded, and the totals cannot fit either *)
      cbn [fst snd]. change (N.to_nat 0) with 0%nat. cbn [firstn]. change (tot_s []) with 0. change (tot_c []) with 0.
      rewrite N.mul_0_l, Is, Ic. repeat split; try discriminate.
      symmetry. apply andb_false_iff. apply andb_false_iff in Ok as [Ok|Ok]; [left|right];
        refine (fits_false _ _ _ _ Ok); lia.
Qed.

(* What reaches the client respects both limits; Series returns nil exactly when the
   totals are within the limits, and then nothing was dropped. *)
Lemma server_sound sl cl rs : tot_s rs < two64 -> tot_c rs * samples_per_chunk < two64 ->
  let n := fst (stream (new_limiter sl) (new_limiter cl) rs) in
  let fin := snd (stream (new_limiter sl) (new_limiter cl) rs) in
  let pre := firstn (N.to_nat n) rs in
  within sl (tot_s pre) = true /\ within cl (tot_c pre * samples_per_chunk) = true /\
  fin = within sl (tot_s rs) && within cl (tot_c rs * samples_per_chunk) /\
  (fin = true -> n = N.of_nat (length rs)).
Proof.
  intros Ws Wc. exact (stream_spec rs (new_limiter sl) (new_limiter cl) Ws Wc (within_0 sl) (within_0 cl)).
Qed.

Lemma server_case_pred sl cl rs :
  pred_ok (CServer sl cl rs (fst (stream (new_limiter sl) (new_limiter cl) rs))
                            (snd (stream (new_limiter sl) (new_limiter cl) rs))) = true.
Proof.
  cbn [pred_ok]. rewrite totals_pair.
  destruct ((tot_c rs * samples_per_chunk <? two64) && (tot_s rs <? two64)) eqn:W; [|reflexivity].
  apply andb_true_iff in W as [W1 W2]. apply N.ltb_lt in W1, W2.
  destruct (server_sound sl cl rs W2 W1) as (A & B & C & D).
  rewrite totals_pair, A, B. cbn [andb]. rewrite <- C, eqb_reflx. cbn [andb].
  destruct (snd (stream (new_limiter sl) (new_limiter cl) rs)) eqn:F; [|reflexivity].
  rewrite (D eq_refl). apply N.eqb_refl.
Qed.

(* a request whose totals exceed a limit is refused, not shortened *)
Lemma server_no_silent_truncation sl cl rs : tot_s rs < two64 -> tot_c rs * samples_per_chunk < two64 ->
  (sl <> 0 /\ sl < tot_s rs) \/ (cl <> 0 /\ cl < tot_c rs * samples_per_chunk) ->
  snd (stream (new_limiter sl) (new_limiter cl) rs) = false.
Proof.
  intros Ws Wc H. destruct (server_sound sl cl rs Ws Wc) as (_ & _ & -> & _).
  apply andb_false_iff. destruct H as [[H1 H2]|[H1 H2]]; [left|right]; apply within_exceeded; assumption.
Qed.

Lemma source_shape :
  MaxSamplesPerChunk = 120%Z /\
  reserveEvents =
    [("if", "l == nil"); ("return", "nil"); ("endif", ""); ("if", "l.limit == 0"); ("return", "nil"); ("endif", "");
     ("call", "l.reserved.Add"); ("if", "reserved > l.limit"); ("call", "l.failedOnce.Do"); ("call", "errors.Errorf");
     ("return", "errors.Errorf(""limit %v violated (got %v)"", l.limit, reserved)"); ("endif", ""); ("return", "nil")]%string /\
  (exists pre post, sendEvents = pre ++
     [("call", "i.seriesLimiter.Reserve"); ("if", "err != nil"); ("call", "errors.Wrapf");
      ("return", "errors.Wrapf(err, ""failed to send series"")"); ("endif", "");
      ("call", "i.samplesLimiter.Reserve"); ("if", "err != nil"); ("call", "errors.Wrapf");
      ("return", "errors.Wrapf(err, ""failed to send samples"")"); ("endif", "");
      ("call", "i.Store_SeriesServer.Send"); ("return", "i.Store_SeriesServer.Send(response)")]%string ++ post /\ post = []).
Proof.
  split; [reflexivity|]. split; [reflexivity|].
  eexists (firstn 18 sendEvents), []. split; [|reflexivity]. reflexivity.
Qed.

Lemma all_ok_within limit nums : sum_n nums < two64 ->
  forallb (fun b => b) (reserves (new_limiter limit) nums) = within limit (sum_n nums).
Proof.
  intro W. unfold within. destruct (limit =? 0) eqn:E.
  - apply N.eqb_eq in E. subst. rewrite limiter_unlimited by reflexivity. apply forallb_all_true.
  - apply N.eqb_neq in E. cbn [orb]. destruct (limiter_sound limit nums E W) as (_ & H & _).
    apply eq_true_iff_eq. rewrite H, N.leb_le. reflexivity.
Qed.

Lemma sum_n_app l1 l2 : sum_n (l1 ++ l2) = sum_n l1 + sum_n l2.
Proof. induction l1 as [|x l1 IH]; cbn [app sum_n]; [reflexivity|]. rewrite IH. lia. Qed.

(* series of a batch that are sent: pass the lazy matchers and have a chunk in range *)
Definition wlist (es : list (bool * N)) : list N :=
  map snd (filter (fun e : bool * N => fst e && (0 <? snd e)) es).
Definition cnt (es : list (bool * N)) : N := N.of_nat (length (wlist es)).

Lemma wlist_cons lm k es : wlist ((lm, k) :: es) = if lm && (0 <? k) then k :: wlist es else wlist es.
Proof. unfold wlist. cbn [filter fst snd]. destruct (lm && (0 <? k)); reflexivity. Qed.

Lemma cnt_cons lm k es : cnt ((lm, k) :: es) = if lm && (0 <? k) then cnt es + 1 else cnt es.
Proof. unfold cnt. rewrite wlist_cons. destruct (lm && (0 <? k)); cbn [length]; lia. Qed.

Lemma wlist_app a b : wlist (a ++ b) = wlist a ++ wlist b.
Proof. unfold wlist. rewrite filter_app, map_app. reflexivity. Qed.

Lemma cnt_app a b : cnt (a ++ b) = cnt a + cnt b.
Proof. unfold cnt. rewrite wlist_app, app_length. lia. Qed.

Lemma cnt_le_len es : cnt es <= N.of_nat (length es).
Proof.
  induction es as [|[lm k] es IH]; [reflexivity|]. rewrite cnt_cons. cbn [length].
  destruct (lm && (0 <? k)); lia.
Qed.

Section Batch.
  Variable skip : bool.
  Variable reqlim : N.

  (* of [batch_go]'s result: seriesMatched at the end, the chunk reservations, the entries appended *)
  Definition b_m (r : N * list N * N * bool) : N := fst (fst (fst r)).
  Definition b_c (r : N * list N * N * bool) : list N := snd (fst (fst r)).
  Definition b_n (r : N * list N * N * bool) : N := snd (fst r).

  (* entries appended never exceed seriesMatched, nor the batch *)
  Lemma batch_go_le : forall es m, m + b_n (batch_go skip reqlim es m) <= b_m (batch_go skip reqlim es m)
    /\ b_n (batch_go skip reqlim es m) <= cnt es.
  Proof.
    unfold b_m, b_n.
    induction es as [|[lm k] r IH]; intro m; cbn [batch_go fst snd]; [cbn; lia|].
    rewrite cnt_cons, <- negb_andb. destruct (lm && (0 <? k)); cbn [negb]; [|apply IH].
    destruct ((0 <? reqlim) && (reqlim <? m + 1)); cbn [fst snd]; [lia|].
    specialize (IH (m + 1)). destruct (batch_go skip reqlim r (m + 1)) as [[[mf cr] ne] st]. cbn [fst snd] in *.
    lia.
  Qed.
End Batch.

Lemma batch_go_nolimit skip : forall es m,
  batch_go skip 0 es m = (m + cnt es, (if skip then [] else wlist es), cnt es, false).
Proof.
  induction es as [|[lm k] r IH]; intro m; cbn [batch_go].
  - change (cnt []) with 0. rewrite N.add_0_r. destruct skip; reflexivity.
  - rewrite cnt_cons, wlist_cons, <- negb_andb. destruct (lm && (0 <? k)); cbn [negb]; [|apply IH].
    change (0 <? 0) with false. cbn [andb]. rewrite IH, <- N.add_assoc, (N.add_comm 1).
    destruct skip; reflexivity.
Qed.

(* of the result of [batches_go], [block_run] and [request_run] *)
Definition reserved_series (r : list N * list N * N) : list N := fst (fst r).
Definition reserved_chunks (r : list N * list N * N) : list N := snd (fst r).
Definition sent_series (r : list N * list N * N) : N := snd r.

(* a lazy block reserves seriesMatched per batch, which covers what the batch sends; an eager one
   reserves no series here (it did in ExpandPostings) *)
Lemma batches_go_le skip reqlim lazy : forall bs,
  sent_series (batches_go lazy skip reqlim bs) <= cnt (concat bs) /\
  if lazy then sent_series (batches_go lazy skip reqlim bs) <= sum_n (reserved_series (batches_go lazy skip reqlim bs))
  else reserved_series (batches_go lazy skip reqlim bs) = [].
Proof.
  unfold sent_series, reserved_series.
  induction bs as [|b r IH]; cbn [batches_go concat fst snd]; [destruct lazy; split; reflexivity|].
  pose proof (batch_go_le skip reqlim b 0) as [L1 L2]. unfold b_m, b_n in *.
  destruct (batch_go skip reqlim b 0) as [[[m cr] ne] st]. rewrite cnt_app.
  destruct st.
  - cbn [fst snd] in *. destruct lazy; cbn [sum_n]; split; (lia || reflexivity).
  - destruct IH as [I1 I2]. destruct (batches_go lazy skip reqlim r) as [[s2 c2] n2]. cbn [fst snd] in *.
    destruct lazy; cbn [app sum_n]; split; (lia || assumption).
Qed.

Lemma batches_go_nolimit skip : forall lazy bs,
  sent_series (batches_go lazy skip 0 bs) = cnt (concat bs) /\
  reserved_chunks (batches_go lazy skip 0 bs) = (if skip then [] else wlist (concat bs)) /\
  (lazy = true -> sum_n (reserved_series (batches_go lazy skip 0 bs)) = cnt (concat bs)).
Proof.
  unfold sent_series, reserved_chunks, reserved_series.
  induction bs as [|b r IH]; cbn [batches_go concat fst snd].
  - destruct skip; auto.
  - rewrite batch_go_nolimit. destruct IH as (I1 & I2 & I3).
    destruct (batches_go lazy skip 0 r) as [[s2 c2] n2]. cbn [fst snd] in *.
    rewrite cnt_app, wlist_app. repeat split.
    + lia.
    + rewrite I2. destruct skip; reflexivity.
    + intros ->. cbn [app sum_n]. rewrite (I3 eq_refl). lia.
Qed.

Lemma chunked_concat {A} : forall fuel bsz (l : list A), (1 <= bsz)%nat -> (length l <= fuel)%nat ->
  concat (chunked fuel bsz l) = l.
Proof.
  induction fuel as [|f IH]; intros bsz l Hb Hl; cbn [chunked].
  - destruct l; [reflexivity|cbn in Hl; lia].
  - destruct l as [|x l']; [reflexivity|]. cbn [concat]. rewrite IH.
    + apply firstn_skipn.
    + exact Hb.
    + rewrite skipn_length. cbn [length] in *. lia.
Qed.

Lemma batches_concat {A} bsz (es : list A) : (1 <= bsz)%nat ->
  concat (chunked (length es) (Nat.min bsz (length es)) es) = es.
Proof.
  intro Hb. destruct es as [|e es]; [reflexivity|]. apply chunked_concat; cbn [length]; lia.
Qed.

(* one block: what it sends is covered by what it reserves *)
Lemma block_run_le bsz skip reqlim b : (1 <= bsz)%nat ->
  sent_series (block_run bsz skip reqlim b) <= sum_n (reserved_series (block_run bsz skip reqlim b)).
Proof.
  intro Hb. unfold block_run. destruct (b_entries b) as [|e es]; [reflexivity|].
  destruct (b_lazy b); [apply (batches_go_le skip reqlim true)|].
  set (es' := if (0 <? reqlim) && _ then _ else _).
  destruct (batches_go_le skip reqlim false (chunked (length es') (Nat.min bsz (length es')) es')) as (H1 & H3).
  rewrite batches_concat in H1 by exact Hb. pose proof (cnt_le_len es').
  unfold sent_series, reserved_series in *.
  destruct (batches_go false skip reqlim _) as [[s c] n]. cbn [fst snd] in *.
  rewrite H3. cbn [sum_n]. lia.
Qed.

(* one block without a request Limit: everything wanted is sent, its chunks are what is reserved *)
Lemma block_run_nolimit bsz skip b : (1 <= bsz)%nat ->
  sent_series (block_run bsz skip 0 b) = cnt (b_entries b) /\
  reserved_chunks (block_run bsz skip 0 b) = (if skip then [] else wlist (b_entries b)).
Proof.
  intro Hb. unfold block_run. destruct (b_entries b) as [|e es]; [destruct skip; auto|].
  change (0 <? 0) with false. cbn [andb]. set (bs := chunked _ _ _).
  assert (C : concat bs = e :: es) by (apply batches_concat; exact Hb).
  destruct (b_lazy b).
  - destruct (batches_go_nolimit skip true bs) as (H1 & H2 & _). rewrite C in H1, H2. auto.
  - destruct (batches_go_nolimit skip false bs) as (H1 & H2 & _). rewrite C in H1, H2.
    unfold sent_series, reserved_chunks in *. destruct (batches_go false skip 0 bs) as [[s c] n]. auto.
Qed.

Lemma request_run_le bsz skip reqlim : (1 <= bsz)%nat -> forall blocks,
  returned_series bsz skip reqlim blocks <= sum_n (series_reservations bsz skip reqlim blocks).
Proof.
  intro Hb. unfold returned_series, series_reservations.
  induction blocks as [|b r IH]; cbn [request_run fst snd]; [cbn; lia|].
  pose proof (block_run_le bsz skip reqlim b Hb) as L. unfold sent_series, reserved_series in L.
  destruct (block_run bsz skip reqlim b) as [[s1 c1] n1]. destruct (request_run bsz skip reqlim r) as [[s2 c2] n2].
  cbn [fst snd] in *. rewrite sum_n_app. lia.
Qed.

Lemma request_run_nolimit bsz skip : (1 <= bsz)%nat -> forall blocks,
  returned_series bsz skip 0 blocks = true_series blocks /\
  sum_n (chunk_reservations bsz skip 0 blocks) = true_chunks skip blocks.
Proof.
  intro Hb. unfold returned_series, chunk_reservations, true_series, true_chunks.
  induction blocks as [|b r IH]; cbn [request_run fst snd map concat].
  - destruct skip; auto.
  - destruct (block_run_nolimit bsz skip b Hb) as [B1 B2]. unfold sent_series, reserved_chunks in *.
    destruct (block_run bsz skip 0 b) as [[s1 c1] n1]. destruct (request_run bsz skip 0 r) as [[s2 c2] n2].
    cbn [fst snd] in *. destruct IH as [I1 I2]. rewrite app_length. change (wanted b) with (wlist (b_entries b)).
    unfold cnt in B1. split; [lia|].
    rewrite sum_n_app, I2, B2. destruct skip; [reflexivity|]. rewrite sum_n_app. reflexivity.
Qed.

Definition nowrap bsz skip reqlim blocks : Prop :=
  sum_n (series_reservations bsz skip reqlim blocks) < two64 /\ sum_n (chunk_reservations bsz skip reqlim blocks) < two64.

Lemma store_ok_spec sl cl bsz skip reqlim blocks : nowrap bsz skip reqlim blocks ->
  store_ok sl cl bsz skip reqlim blocks =
  within sl (sum_n (series_reservations bsz skip reqlim blocks)) && within cl (sum_n (chunk_reservations bsz skip reqlim blocks)).
Proof. intros [W1 W2]. unfold store_ok. rewrite !all_ok_within by assumption. reflexivity. Qed.

(* a request that succeeds sends at most the limits: returned <= reserved <= limit; eager and lazy
   postings, any request Limit, any batch size *)
Lemma store_bound sl cl bsz skip reqlim blocks : (1 <= bsz)%nat -> nowrap bsz skip reqlim blocks ->
  store_ok sl cl bsz skip reqlim blocks = true ->
  within sl (returned_series bsz skip reqlim blocks) = true /\
  within cl (sum_n (chunk_reservations bsz skip reqlim blocks)) = true.
Proof.
  intros Hb W H. rewrite (store_ok_spec _ _ _ _ _ _ W) in H. apply andb_true_iff in H as [H1 H2].
  split; [|exact H2]. apply (within_mono sl _ _ (request_run_le bsz skip reqlim Hb blocks) H1).
Qed.

(* without a request Limit: a request whose result exceeds a limit is refused, and a request that
   succeeds sends everything the blocks hold for it *)
Lemma store_no_silent_truncation sl cl bsz skip blocks : (1 <= bsz)%nat -> nowrap bsz skip 0 blocks ->
  returned_series bsz skip 0 blocks = true_series blocks /\
  sum_n (chunk_reservations bsz skip 0 blocks) = true_chunks skip blocks /\
  ((sl <> 0 /\ sl < true_series blocks) \/ (cl <> 0 /\ cl < true_chunks skip blocks) ->
   store_ok sl cl bsz skip 0 blocks = false).
Proof.
  intros Hb W. destruct (request_run_nolimit bsz skip Hb blocks) as [R1 R2]. split; [exact R1|]. split; [exact R2|].
  intro H. rewrite (store_ok_spec _ _ _ _ _ _ W), R2. apply andb_false_iff.
  pose proof (request_run_le bsz skip 0 Hb blocks) as L. rewrite R1 in L.
  destruct H as [[H1 H2]|[H1 H2]]; [left|right]; apply within_exceeded; (assumption || lia).
Qed.

Lemma store_case_pred sl cl bsz skip blocks sres cres tseries : (1 <= bsz)%nat -> nowrap bsz skip 0 blocks ->
  tseries <= true_series blocks ->
  pred_ok (CStore sl cl bsz skip 0 blocks (store_ok sl cl bsz skip 0 blocks) (negb (store_ok sl cl bsz skip 0 blocks)) sres cres
                  tseries (true_chunks skip blocks) tseries (true_chunks skip blocks)) = true.
Proof.
  intros Hb W T. cbn [pred_ok]. destruct (store_ok sl cl bsz skip 0 blocks) eqn:E; [|reflexivity].
  destruct (store_bound sl cl bsz skip 0 blocks Hb W E) as [B1 B2].
  destruct (store_no_silent_truncation sl cl bsz skip blocks Hb W) as (R1 & R2 & _).
  rewrite R1 in B1. rewrite R2 in B2.
  rewrite (within_mono sl _ _ T B1), B2. change (0 =? 0) with true. rewrite !N.eqb_refl. reflexivity.
Qed.

Lemma store_source_shape :
  blockClientReservations =
    ["blockSeriesClient.ExpandPostings: seriesLimiter.Reserve(uint64(len(b.lazyPostings.postings)))";
     "blockSeriesClient.nextBatch: b.chunksLimiter.Reserve(uint64(len(b.chkMetas)))";
     "blockSeriesClient.nextBatch: b.seriesLimiter.Reserve(uint64(seriesMatched))"]%string.
Proof. reflexivity. Qed.

(* C22 — the forward timeout (ctx.Done) as an input of the response loop. *)
From Coq Require Import ZArith List Bool Lia.
Import ListNotations.
From Verif Require Import Lib.Corr Gen.C22 Model.C22 Proofs.C22.
Open Scope Z_scope.

Lemma ctx_done_times_out : forall q ft st tail, loop_ev q ft st (ECtxDone :: tail) = EvTimedOut.
Proof. reflexivity. Qed.

Lemma loop_ev_no_ctx : forall q ft rs st, loop_ev q ft st (map EResp rs) = ev_of (loop q ft st rs).
Proof.
  intros q ft rs. induction rs as [|r rs IH]; intro st; cbn [map loop_ev loop]; [reflexivity|].
  destruct (can_return_early q ft (apply_resp st r)); [reflexivity|apply IH].
Qed.

Lemma handle_ev_no_hang : forall rf rep place ws, handle_ev rf rep place ws false = handle rf rep place ws.
Proof.
  intros rf rep place ws. unfold handle_ev, handle, events_of, fanout. rewrite app_nil_r, loop_ev_no_ctx.
  destruct (Nat.eqb (List.length place) 0); [reflexivity|]. destruct (rep >? rf); [reflexivity|].
  destruct (loop _ _ _ _); reflexivity.
Qed.

(* with hung peers an acknowledgement can only come from the early return, i.e.
   after a consumed prefix of the responses in which every series is decided
   and none failed — and then every series has its quorum in that prefix.
   No assumption on how many responses there are. *)
Lemma loop_ev_hang_ack : forall q ft n rs tail,
  loop_ev q ft (repeat sst0 n) (map EResp rs ++ ECtxDone :: tail) = EvAck ->
  exists k, (1 <= k <= List.length rs)%nat
    /\ can_return_early q ft (reach n (firstn k rs)) = true
    /\ quorum_everywhere n q (firstn k rs) = true.
Proof.
  intros q ft n rs tail.
  assert (G : forall rs st, loop_ev q ft st (map EResp rs ++ ECtxDone :: tail) = EvAck ->
            exists k, (1 <= k <= List.length rs)%nat
              /\ can_return_early q ft (fold_left apply_resp (firstn k rs) st) = true
              /\ finish ft (fold_left apply_resp (firstn k rs) st) = Ack).
  { induction rs0 as [|r rs0 IH]; intros st H; cbn [map app loop_ev] in H; [discriminate|].
    destruct (can_return_early q ft (apply_resp st r)) eqn:E.
    - exists 1%nat. cbn [firstn fold_left List.length]. split; [lia|]. split; [exact E|].
      destruct (finish ft (apply_resp st r)); [reflexivity|discriminate].
    - destruct (IH (apply_resp st r) H) as [k [Hk [Hc Hf]]]. exists (S k).
      cbn [firstn fold_left List.length]. split; [lia|]. split; assumption. }
  intro H. destruct (G rs (repeat sst0 n) H) as [k [Hk [Hc Hf]]]. fold (reach n (firstn k rs)) in Hc, Hf.
  exists k. split; [exact Hk|]. split; [exact Hc|]. exact (early_ack_quorum q ft n _ Hc Hf).
Qed.

Lemma hang_without_quorum_not_ack : forall q ft n rs tail s, (s < n)%nat -> successes_of s rs < q ->
  loop_ev q ft (repeat sst0 n) (map EResp rs ++ ECtxDone :: tail) <> EvAck.
Proof.
  intros q ft n rs tail s Hs Hlt H. destruct (loop_ev_hang_ack q ft n rs tail H) as [k [[_ Hk] [_ Hq]]].
  apply (quorum_firstn_mono n q rs k _ Hk) in Hq. rewrite firstn_all in Hq.
  pose proof (proj1 (quorum_everywhere_spec n q rs) Hq s Hs). lia.
Qed.

Lemma quorum_firstn_mono' : forall n q rs k d, (k <= d)%nat ->
  quorum_everywhere n q (firstn k rs) = true -> quorum_everywhere n q (firstn d rs) = true.
Proof. exact quorum_firstn_mono. Qed.

Lemma handle_ev_hang_pred : forall rf rep place ws, 1 <= rf -> 0 <= rep ->
  exists o, handle_ev rf rep place ws true = Some o
    /\ (o = OAck -> rep <= rf ->
        exists k, (k <= List.length ws)%nat /\ forall d hg obs obsr, (k <= d)%nat ->
          pred_ok (CAck rf rep place ws hg obs obsr 200 d) = true).
Proof.
  intros rf rep place ws Hrf Hrep. unfold handle_ev.
  destruct (Nat.eqb_spec (List.length place) 0) as [E0|E0].
  - exists OAck. split; [reflexivity|]. intros _ _.
    apply (pred_from_prefix rf rep place ws 0 Hrf); [lia|]. rewrite E0. reflexivity.
  - destruct (rep >? rf).
    + exists OBadReplica. split; [reflexivity|discriminate].
    + unfold events_of.
      destruct (loop_ev _ _ _ _) eqn:E; [|exists OFail; split; [reflexivity|discriminate]..].
      exists OAck. split; [reflexivity|]. intros _ _.
      destruct (loop_ev_hang_ack _ _ _ _ _ E) as [k [[_ Hk] [_ Hq]]].
      exact (pred_from_prefix rf rep place ws k Hrf Hk Hq).
Qed.

(* C15 — bucketBlockSet.getFor: the scan of one level with its gap-filling calls, the four clauses
   for the code with the fix, the refutations for the code before it, the checked predicate, and
   the block set under add / remove. *)
From Coq Require Import String.
From Coq Require Import ZArith NArith List Bool Lia Sorted Permutation RelationClasses.
Import ListNotations.
From Verif Require Import Lib.Corr Lib.ListFacts Gen.C15 Model.C15.
Open Scope Z_scope.

Lemma nodup_n_spec l : nodup_n l = true <-> NoDup l.
Proof.
  induction l as [|a r IH]; cbn [nodup_n]; [split; [constructor|reflexivity]|].
  rewrite andb_true_iff, negb_true_iff, IH, NoDup_cons_iff.
  split; intros [H1 H2]; (split; [|exact H2]).
  - intro Hin. apply not_true_iff_false in H1. apply H1, existsb_exists.
    exists a. split; [exact Hin|apply N.eqb_refl].
  - apply not_true_iff_false. intro E. apply existsb_exists in E as (x & Hx & Ex).
    apply N.eqb_eq in Ex. subst. contradiction.
Qed.

Lemma block_eqb_spec a b : block_eqb a b = true <-> a = b.
Proof.
  destruct a as [i1 m1 x1 r1], b as [i2 m2 x2 r2]. unfold block_eqb. cbn [bid bmin bmax bres].
  rewrite !andb_true_iff, N.eqb_eq, !Z.eqb_eq. split.
  - intros [[[-> ->] ->] ->]. reflexivity.
  - intro H. inversion H. auto.
Qed.

Lemma contains_spec l b : contains l b = true <-> In b l.
Proof.
  unfold contains. rewrite existsb_exists. split.
  - intros (x & Hx & E). apply block_eqb_spec in E. subst. exact Hx.
  - intro H. exists b. split; [exact H|]. apply block_eqb_spec. reflexivity.
Qed.

Lemma append_new_in : forall more acc x, In x (append_new acc more) <-> In x acc \/ In x more.
Proof.
  induction more as [|b r IH]; intros acc x; cbn [append_new].
  - cbn. tauto.
  - destruct (contains acc b) eqn:E.
    + rewrite IH. apply contains_spec in E. cbn [In]. split; [tauto|]. intros [H|[<-|H]]; auto.
    + rewrite IH, in_app_iff. cbn [In]. tauto.
Qed.

Lemma append_new_nodup : forall more acc, NoDup acc -> NoDup (append_new acc more).
Proof.
  induction more as [|b r IH]; intros acc H; cbn [append_new]; [exact H|].
  destruct (contains acc b) eqn:E; apply IH; [exact H|].
  apply NoDup_snoc; [exact H|].
  intro Hin. apply contains_spec in Hin. congruence.
Qed.

Lemma app_dd_in dd acc more x : In x (app_dd dd acc more) <-> In x acc \/ In x more.
Proof. destruct dd; cbn [app_dd]; [apply append_new_in | apply in_app_iff]. Qed.

Lemma sorted_min_head : forall r a, sorted_by min_le (a :: r) = true -> forall b, In b r -> bmin a <= bmin b.
Proof.
  induction r as [|c r IH]; intros a H b Hb; [contradiction|].
  cbn [sorted_by] in H. apply andb_true_iff in H as [H1 H2]. unfold min_le in H1. apply Z.leb_le in H1.
  destruct Hb as [<-|Hb]; [exact H1|].
  specialize (IH c H2 b Hb). lia.
Qed.

Lemma sorted_min_tail a r : sorted_by min_le (a :: r) = true -> sorted_by min_le r = true.
Proof. cbn [sorted_by]. intro H. apply andb_true_iff in H as [_ H]. exact H. Qed.

Lemma blk_le_spec a b : blk_le a b = true <-> bmin a < bmin b \/ (bmin a = bmin b /\ bmax a <= bmax b).
Proof. unfold blk_le. rewrite orb_true_iff, andb_true_iff, Z.ltb_lt, Z.eqb_eq, Z.leb_le. reflexivity. Qed.

Lemma blk_le_min a b : blk_le a b = true -> min_le a b = true.
Proof. rewrite blk_le_spec. intro H. apply Z.leb_le. lia. Qed.

Lemma sorted_blk_min : forall l, sorted_by blk_le l = true -> sorted_by min_le l = true.
Proof.
  induction l as [|a r IH]; intro H; [reflexivity|].
  cbn [sorted_by] in *. apply andb_true_iff in H as [H1 H2]. rewrite (IH H2), andb_true_r.
  destruct r; [reflexivity|]. apply blk_le_min. exact H1.
Qed.

Lemma covers_spec b t : covers b t = true <-> bmin b <= t < bmax b.
Proof. unfold covers. rewrite andb_true_iff, Z.leb_le, Z.ltb_lt. reflexivity. Qed.

Section Scan.
  Variable dd : bool.
  Variable lower : Z -> Z -> list block.
  Variables mint maxt : Z.

  Lemma scan_acc : forall bl start acc x, In x acc -> In x (scan dd lower mint maxt bl start acc).
  Proof.
    induction bl as [|b r IH]; intros start acc x H; cbn [scan].
    - apply app_dd_in. auto.
    - destruct (bmax b <=? mint); [apply IH; exact H|].
      destruct (bmin b >? maxt); [apply app_dd_in; auto|].
      apply IH. apply in_app_iff. left. apply app_dd_in. auto.
  Qed.

  Lemma scan_selects : forall bl start acc b, In b bl -> sorted_by min_le bl = true ->
    mint < bmax b -> bmin b <= maxt -> In b (scan dd lower mint maxt bl start acc).
  Proof.
    induction bl as [|b0 r IH]; intros start acc b Hin Hs Hmax Hmin; [contradiction|].
    cbn [scan].
    destruct Hin as [->|Hin].
    - assert (E1 : bmax b <=? mint = false) by (apply Z.leb_gt; lia). rewrite E1.
      assert (E2 : bmin b >? maxt = false) by (rewrite Z.gtb_ltb; apply Z.ltb_ge; lia). rewrite E2.
      apply scan_acc. apply in_app_iff. right. left. reflexivity.
    - pose proof (sorted_min_head _ _ Hs b Hin) as Hle. apply sorted_min_tail in Hs.
      destruct (bmax b0 <=? mint); [apply IH; assumption|].
      destruct (bmin b0 >? maxt) eqn:E2.
      + rewrite Z.gtb_ltb in E2. apply Z.ltb_lt in E2. lia.
      + apply IH; assumption.
  Qed.

  (* an instant covered by no block of the level lies in the range of a gap-filling call *)
  Lemma scan_gap : forall bl start acc t, (forall b, In b bl -> covers b t = false) ->
    start <= t <= maxt ->
    exists m' M', m' <= t <= M' /\ forall x, In x (lower m' M') -> In x (scan dd lower mint maxt bl start acc).
  Proof.
    induction bl as [|b r IH]; intros start acc t Hnc Ht; cbn [scan].
    - exists start, maxt. split; [lia|]. intros x Hx. apply app_dd_in. auto.
    - assert (Hr : forall b', In b' r -> covers b' t = false) by (intros; apply Hnc; right; assumption).
      destruct (bmax b <=? mint); [apply IH; assumption|].
      destruct (bmin b >? maxt).
      { exists start, maxt. split; [lia|]. intros x Hx. apply app_dd_in. auto. }
      destruct (Z_lt_le_dec t (bmin b)) as [Hlt|Hge].
      + exists start, (bmin b - 1). split; [lia|]. intros x Hx.
        apply scan_acc. apply in_app_iff. left. apply app_dd_in. auto.
      + assert (Hb : covers b t = false) by (apply Hnc; left; reflexivity).
        rewrite <- not_true_iff_false, covers_spec in Hb. apply IH; [assumption|lia].
  Qed.

  Lemma scan_origin : forall bl start acc x, mint <= start ->
    In x (scan dd lower mint maxt bl start acc) ->
    In x acc \/ (In x bl /\ mint < bmax x /\ bmin x <= maxt) \/
    (exists m' M', mint <= m' /\ M' <= maxt /\ In x (lower m' M')).
  Proof.
    induction bl as [|b r IH]; intros start acc x Hst H; cbn [scan] in H.
    - apply app_dd_in in H as [H|H]; [auto|]. right. right. exists start, maxt. repeat split; [lia|lia|exact H].
    - destruct (bmax b <=? mint) eqn:E1.
      { destruct (IH _ _ _ Hst H) as [H'|[(H1 & H2)|H']]; auto. right. left. split; [right; exact H1|exact H2]. }
      apply Z.leb_gt in E1.
      destruct (bmin b >? maxt) eqn:E2.
      { apply app_dd_in in H as [H|H]; [auto|]. right. right. exists start, maxt. repeat split; [lia|lia|exact H]. }
      rewrite Z.gtb_ltb in E2. apply Z.ltb_ge in E2.
      destruct (IH (bmax b) _ x ltac:(lia) H) as [H'|[(H1 & H2)|H']].
      + apply in_app_iff in H' as [H'|[<-|[]]].
        * apply app_dd_in in H' as [H'|H']; [auto|].
          right. right. exists start, (bmin b - 1). repeat split; [lia|lia|exact H'].
        * right. left. repeat split; [left; reflexivity|lia|lia].
      + right. left. split; [right; exact H1|exact H2].
      + auto.
  Qed.
End Scan.

Lemma get_for_incl : forall dd levels m M x, In x (get_for dd levels m M) -> In x (concat levels).
Proof.
  induction levels as [|cur lower IH]; intros m M x H; cbn [get_for] in H; [contradiction|].
  destruct (m >? M); [contradiction|].
  cbn [concat]. apply in_app_iff.
  destruct (scan_origin dd (get_for dd lower) m M cur m [] x ltac:(lia) H) as [[]|[(H1 & _)|(m' & M' & _ & _ & H')]].
  - left. exact H1.
  - right. apply (IH _ _ _ H').
Qed.

Lemma get_for_overlap : forall dd levels m M x, In x (get_for dd levels m M) -> bmin x <= M /\ m < bmax x.
Proof.
  induction levels as [|cur lower IH]; intros m M x H; cbn [get_for] in H; [contradiction|].
  destruct (m >? M); [contradiction|].
  destruct (scan_origin dd (get_for dd lower) m M cur m [] x ltac:(lia) H) as [[]|[(_ & H1 & H2)|(m' & M' & Hm & HM & H')]].
  - lia.
  - destruct (IH _ _ _ H'). lia.
Qed.

Lemma get_for_cover : forall dd levels m M t b,
  Forall (fun l => sorted_by min_le l = true) levels ->
  m <= t <= M -> In b (concat levels) -> covers b t = true ->
  exists b', In b' (get_for dd levels m M) /\ covers b' t = true.
Proof.
  induction levels as [|cur lower IH]; intros m M t b Hs Ht Hin Hc; [contradiction|].
  cbn [get_for]. assert (E : m >? M = false) by (rewrite Z.gtb_ltb; apply Z.ltb_ge; lia). rewrite E.
  inversion Hs as [|? ? Hcur Hlow]; subst.
  destruct (existsb (fun c => covers c t) cur) eqn:Ex.
  - apply existsb_exists in Ex as (c & Hcin & Hcc). exists c. split; [|exact Hcc].
    apply covers_spec in Hcc. apply scan_selects; [assumption|assumption|lia|lia].
  - assert (Hnc : forall c, In c cur -> covers c t = false).
    { intros c Hc'. apply not_true_iff_false. intro Ec. rewrite <- not_true_iff_false in Ex. apply Ex.
      apply existsb_exists. eauto. }
    cbn [concat] in Hin. apply in_app_iff in Hin as [Hin|Hin].
    { rewrite (Hnc b Hin) in Hc. discriminate. }
    destruct (scan_gap dd (get_for dd lower) m M cur m [] t Hnc ltac:(lia)) as (m' & M' & Hr & Hsub).
    destruct (IH m' M' t b Hlow Hr Hin Hc) as (b' & Hb' & Hcb'). exists b'. split; [apply Hsub; exact Hb'|exact Hcb'].
Qed.

(* [L] holds whatever the gap-filling calls return, and shares nothing with the level scanned *)
Lemma scan_nodup : forall lower mint maxt L bl start acc,
  (forall m' M' x, In x (lower m' M') -> In x L) ->
  NoDup (bl ++ L) -> NoDup acc -> (forall x, In x acc -> ~ In x bl) ->
  NoDup (scan true lower mint maxt bl start acc).
Proof.
  intros lower mint maxt L. induction bl as [|b r IH]; intros start acc HL Hnd Hacc Hdisj; cbn [scan app_dd].
  - apply append_new_nodup. exact Hacc.
  - cbn [app] in Hnd. apply NoDup_cons_iff in Hnd as [HbL Hnd].
    destruct (bmax b <=? mint).
    { apply IH; auto. intros x Hx Hr. apply (Hdisj x Hx). right. exact Hr. }
    destruct (bmin b >? maxt); [apply append_new_nodup; exact Hacc|].
    rewrite in_app_iff in HbL.
    apply IH; auto.
    + apply NoDup_snoc; [apply append_new_nodup; exact Hacc|].
      intro Hin. apply append_new_in in Hin as [Hin|Hin].
      * apply (Hdisj b Hin). left. reflexivity.
      * apply HbL. right. apply (HL _ _ _ Hin).
    + intros x Hx Hr. apply in_app_iff in Hx as [Hx|[<-|[]]]; [|tauto].
      apply append_new_in in Hx as [Hx|Hx].
      * apply (Hdisj x Hx). right. exact Hr.
      * apply HL in Hx. apply NoDup_app_iff in Hnd as (_ & _ & Hd). exact (Hd x Hr Hx).
Qed.

Lemma get_for_nodup : forall levels m M, NoDup (concat levels) -> NoDup (get_for true levels m M).
Proof.
  induction levels as [|cur lower IH]; intros m M H; cbn [get_for]; [constructor|].
  destruct (m >? M); [constructor|].
  cbn [concat] in H.
  apply (scan_nodup (get_for true lower) m M (concat lower)); auto.
  - intros m' M' x Hx. apply (get_for_incl _ _ _ _ _ Hx).
  - constructor.
Qed.

(* s.resolutions is strictly decreasing (the first three parts; [resolutions_sorted] and
   [resolutions_nodup] rest on them), so the recursive call with s.resolutions[i+1] lands on level
   i+1: the last two parts show it on the level indices *)
Lemma resolutions_decreasing : resolutions = [ResLevel2; ResLevel1; ResLevel0] /\ ResLevel2 > ResLevel1 /\ ResLevel1 > ResLevel0
  /\ drop_levels ResLevel1 resolutions [2%nat; 1%nat; 0%nat] = [1%nat; 0%nat]
  /\ drop_levels ResLevel0 resolutions [2%nat; 1%nat; 0%nat] = [0%nat].
Proof. repeat split; reflexivity. Qed.

Lemma resolutions_sorted : StronglySorted Z.gt resolutions.
Proof. destruct resolutions_decreasing as (-> & H21 & H10 & _). repeat constructor; lia. Qed.

Lemma resolutions_nodup : NoDup resolutions.
Proof. destruct resolutions_decreasing as (-> & H21 & H10 & _). repeat constructor; cbn [In]; lia. Qed.

Lemma known_res_in r : known_res r = true <-> In r resolutions.
Proof.
  unfold known_res. rewrite existsb_exists. split.
  - intros (x & Hx & E). apply Z.eqb_eq in E. subst. exact Hx.
  - intro H. exists r. split; [exact H|apply Z.eqb_refl].
Qed.

Definition has_res (r : Z) (l : list block) : Prop := Forall (fun b => bres b = r) l.

(* well-formed block set: one list per resolution, holding blocks of that resolution, sorted by min time *)
Definition wf_levels (levels : list (list block)) : Prop :=
  Forall2 (fun r l => Forall (fun b => bres b = r) l /\ sorted_by min_le l = true) resolutions levels.

Lemma wf_has_res levels : wf_levels levels -> Forall2 has_res resolutions levels.
Proof. induction 1 as [|r l res lv [H _] _ IH]; constructor; assumption. Qed.

Lemma wf_sorted levels : wf_levels levels -> Forall (fun l => sorted_by min_le l = true) levels.
Proof. induction 1 as [|r l res lv [_ H] _ IH]; constructor; assumption. Qed.

Lemma levels_res_in res lv b : Forall2 has_res res lv -> In b (concat lv) -> In (bres b) res.
Proof.
  induction 1 as [|r l res lv Hl _ IH]; cbn [concat]; [contradiction|].
  rewrite in_app_iff. intros [H|H]; [left; symmetry; exact (proj1 (Forall_forall _ _) Hl b H)|right; exact (IH H)].
Qed.

Lemma drop_levels_suffix {A} maxres : forall res (levels : list A),
  exists pre, levels = pre ++ drop_levels maxres res levels.
Proof.
  induction res as [|r res IH]; intros levels; [exists levels; symmetry; apply app_nil_r|].
  destruct levels as [|l levels]; [exists []; reflexivity|].
  cbn [drop_levels]. destruct (r >? maxres); [|exists []; reflexivity].
  destruct (IH levels) as (pre & H). exists (l :: pre). cbn [app]. f_equal. exact H.
Qed.

Lemma drop_levels_incl {A} maxres res (levels : list (list A)) x :
  In x (concat (drop_levels maxres res levels)) -> In x (concat levels).
Proof.
  intro H. destruct (drop_levels_suffix maxres res levels) as (pre & E).
  rewrite E, concat_app. apply in_app_iff. right. exact H.
Qed.

(* the first level kept has a resolution within [maxres], and the later ones are finer still *)
Lemma drop_levels_res maxres b : forall res lv, StronglySorted Z.gt res -> Forall2 has_res res lv ->
  In b (concat (drop_levels maxres res lv)) -> bres b <= maxres.
Proof.
  intros res lv S H. induction H as [|r l res lv Hl Hlv IH]; cbn [drop_levels]; [contradiction|].
  apply StronglySorted_inv in S as [S Hr].
  destruct (r >? maxres) eqn:E; [exact (IH S)|]. rewrite Z.gtb_ltb in E. apply Z.ltb_ge in E.
  intro Hin. apply (levels_res_in (r :: res) (l :: lv)) in Hin; [|constructor; assumption].
  destruct Hin as [<-|Hin]; [exact E|]. rewrite Forall_forall in Hr. specialize (Hr _ Hin). lia.
Qed.

Lemma drop_levels_allowed maxres b : forall res lv, Forall2 has_res res lv ->
  In b (concat lv) -> bres b <= maxres -> In b (concat (drop_levels maxres res lv)).
Proof.
  intros res lv H. induction H as [|r l res lv Hl _ IH]; cbn [drop_levels]; [auto|].
  destruct (r >? maxres) eqn:E; [|auto]. rewrite Z.gtb_ltb in E. apply Z.ltb_lt in E.
  cbn [concat]. rewrite in_app_iff. intros [Hin|Hin] Hr; [|exact (IH Hin Hr)].
  rewrite (proj1 (Forall_forall _ _) Hl b Hin) in Hr. lia.
Qed.

(* also for mint > maxt and when no level is allowed: [get_for] is [] there, as the fix returns *)
Lemma get_for_top_fixed levels m M maxres :
  get_for_top true levels m M maxres = Some (get_for true (drop_levels maxres resolutions levels) m M).
Proof.
  unfold get_for_top. destruct (drop_levels maxres resolutions levels) as [|l ls]; cbn [get_for];
    destruct (m >? M); reflexivity.
Qed.

Lemma get_for_top_out levels m M maxres out : get_for_top true levels m M maxres = Some out ->
  out = get_for true (drop_levels maxres resolutions levels) m M.
Proof. rewrite get_for_top_fixed. intro H. injection H as <-. reflexivity. Qed.

Lemma top_some levels m M maxres : exists out, get_for_top true levels m M maxres = Some out /\
  (m <= M -> out = get_for true (drop_levels maxres resolutions levels) m M).
Proof. eexists. split; [apply get_for_top_fixed|reflexivity]. Qed.

Lemma res_bound levels m M maxres out : wf_levels levels ->
  get_for_top true levels m M maxres = Some out -> Forall (fun b => bres b <= maxres) out.
Proof.
  intros Hwf H. apply get_for_top_out in H. subst out. apply Forall_forall. intros x Hx.
  exact (drop_levels_res maxres x resolutions levels resolutions_sorted (wf_has_res _ Hwf) (get_for_incl _ _ _ _ _ Hx)).
Qed.

Lemma overlap levels m M maxres out :
  get_for_top true levels m M maxres = Some out -> Forall (fun b => bmin b <= M /\ m < bmax b) out.
Proof.
  intros H. apply get_for_top_out in H. subst out. apply Forall_forall. intros x Hx.
  apply (get_for_overlap _ _ _ _ _ Hx).
Qed.

Lemma selected_from_set levels m M maxres out :
  get_for_top true levels m M maxres = Some out -> incl out (concat levels).
Proof.
  intros H x Hx. apply get_for_top_out in H. subst out.
  exact (drop_levels_incl maxres resolutions levels x (get_for_incl _ _ _ _ _ Hx)).
Qed.

Lemma overlap_and_member levels mint maxt maxres out :
  get_for_top true levels mint maxt maxres = Some out ->
  Forall (fun b => bmin b <= maxt /\ mint < bmax b) out /\ incl out (concat levels).
Proof. intros. split; [eapply overlap; eassumption | eapply selected_from_set; eassumption]. Qed.

Lemma nodup_blocks levels m M maxres out : NoDup (concat levels) ->
  get_for_top true levels m M maxres = Some out -> NoDup out.
Proof.
  intros Hnd H. apply get_for_top_out in H. subst out. apply get_for_nodup.
  destruct (drop_levels_suffix maxres resolutions levels) as (pre & E).
  rewrite E, concat_app in Hnd. apply NoDup_app_iff in Hnd as (_ & Hnd & _). exact Hnd.
Qed.

Lemma nodup_ids levels m M maxres out : NoDup (map bid (concat levels)) ->
  get_for_top true levels m M maxres = Some out -> NoDup (map bid out).
Proof.
  intros Hnd H. apply (NoDup_map_incl bid (concat levels) _ Hnd).
  - apply (selected_from_set _ _ _ _ _ H).
  - apply (nodup_blocks levels m M maxres out); [apply (NoDup_map_inv _ _ Hnd)|exact H].
Qed.

Lemma cover levels m M maxres out t b : wf_levels levels ->
  get_for_top true levels m M maxres = Some out ->
  m <= t <= M -> In b (concat levels) -> bres b <= maxres -> covers b t = true ->
  exists b', In b' out /\ covers b' t = true.
Proof.
  intros Hwf H Ht Hin Hr Hc. apply get_for_top_out in H. subst out.
  apply (get_for_cover true _ m M t b); [|exact Ht| |exact Hc].
  - destruct (drop_levels_suffix maxres resolutions levels) as (pre & E).
    pose proof (wf_sorted levels Hwf) as Hs. rewrite E in Hs. apply Forall_app in Hs as [_ Hs]. exact Hs.
  - apply drop_levels_allowed; [apply wf_has_res; exact Hwf|exact Hin|exact Hr].
Qed.

(* The code before the fix violates two clauses. *)

Definition witness_levels : list (list block) :=
  [[mkBlock 1 10 20 ResLevel2]; [mkBlock 2 0 30 ResLevel1]; []].

Lemma unfixed_duplicates :
  get_for_top false witness_levels 0 30 ResLevel2 = Some [mkBlock 2 0 30 ResLevel1; mkBlock 1 10 20 ResLevel2; mkBlock 2 0 30 ResLevel1]
  /\ get_for_top true witness_levels 0 30 ResLevel2 = Some [mkBlock 2 0 30 ResLevel1; mkBlock 1 10 20 ResLevel2].
Proof. split; reflexivity. Qed.

Lemma unfixed_duplicates_refuted :
  wf_levels witness_levels /\ NoDup (map bid (concat witness_levels)) /\
  exists out, get_for_top false witness_levels 0 30 ResLevel2 = Some out /\ ~ NoDup (map bid out).
Proof.
  split; [unfold wf_levels, witness_levels, resolutions; repeat constructor|].
  split; [apply nodup_n_spec; reflexivity|].
  eexists. split; [exact (proj1 unfixed_duplicates)|]. rewrite <- nodup_n_spec. discriminate.
Qed.

Lemma unfixed_panics : get_for_top false witness_levels 0 30 (-1) = None /\ get_for_top true witness_levels 0 30 (-1) = Some [].
Proof. split; reflexivity. Qed.

Lemma source_shape :
  resolutions = [ResLevel2; ResLevel1; ResLevel0] /\ ResLevel2 > ResLevel1 /\ ResLevel1 > ResLevel0 /\
  getForIfs = ["mint > maxt"; "i >= len(s.blocks)"; "b.meta.MaxTime <= mint"; "b.meta.MinTime > maxt";
               "i+1 < len(s.resolutions)"; "len(blockMatchers) == 0 || b.matchRelabelLabels(blockMatchers)";
               "i+1 < len(s.resolutions)"]%string /\
  getForStartAssigns = ["mint"; "b.meta.MaxTime"]%string /\
  getForRecursiveArgs = ["start, b.meta.MinTime - 1, s.resolutions[i+1], blockMatchers";
                         "start, maxt, s.resolutions[i+1], blockMatchers"]%string /\
  getForAppends = ["appendNewBlocks(bs, s.getFor(start, b.meta.MinTime-1, s.resolutions[i+1], blockMatchers))";
                   "append(bs, b)";
                   "appendNewBlocks(bs, s.getFor(start, maxt, s.resolutions[i+1], blockMatchers))"]%string /\
  addSortLess = ["if bs[j].meta.MinTime == bs[k].meta.MinTime"; "return bs[j].meta.MaxTime < bs[k].meta.MaxTime";
                 "return bs[j].meta.MinTime < bs[k].meta.MinTime"]%string.
Proof. repeat split; reflexivity. Qed.

Lemma source_shape_loops :
  getForLoops = ["i < len(s.resolutions) && s.resolutions[i] > maxResolutionMillis"; "range s.blocks[i]"]%string.
Proof. reflexivity. Qed.

Lemma remove_shape : removeAssigns = ["s.blocks[i] = append(bs[:j], bs[j+1:]...)"]%string.
Proof. reflexivity. Qed.

Record level_spec (input : list block) (r : Z) (l : list block) : Prop := {
  ls_res : has_res r l;
  ls_incl : incl l input;
  ls_sorted : sorted_by min_le l = true;
  ls_nodup : NoDup l;
  ls_all : forall b, In b input -> bres b = r -> In b l }.

Lemma level_ok_spec input r l : level_ok input r l = true -> level_spec input r l.
Proof.
  unfold level_ok. rewrite !andb_true_iff. intros [[[[H1 H2] H3] H4] H5].
  rewrite forallb_forall in H1, H2. apply nodup_n_spec in H4. apply NoDup_map_inv in H4. apply Nat.eqb_eq in H5.
  assert (Hres : forall b, In b l -> bres b = r) by (intros b Hb; apply Z.eqb_eq; auto).
  assert (Hincl : incl l input) by (intros b Hb; apply contains_spec; auto).
  split; auto.
  - apply Forall_forall. exact Hres.
  - apply sorted_blk_min. exact H3.
  - (* [l] has as many elements as the blocks of resolution [r] in [input], without repetition, and
       lies among them: so it holds them all *)
    intros b Hb Hr.
    apply (NoDup_length_incl H4 (l' := filter (fun b => bres b =? r) input)).
    + lia.
    + intros x Hx. apply filter_In. split; [apply Hincl; exact Hx|]. apply Z.eqb_eq. auto.
    + apply filter_In. split; [exact Hb|apply Z.eqb_eq; exact Hr].
Qed.

Lemma levels_ok_spec input : forall res lv, levels_ok input res lv = true -> Forall2 (level_spec input) res lv.
Proof.
  induction res as [|r res IH]; intros [|l lv] H; cbn [levels_ok] in H; try discriminate; [constructor|].
  apply andb_true_iff in H as [H1 H2]. constructor; [apply level_ok_spec; exact H1|apply IH; exact H2].
Qed.

(* levels of different resolutions share no block *)
Lemma levels_spec_facts input : forall res lv, NoDup res -> Forall2 (level_spec input) res lv ->
  Forall2 has_res res lv /\ incl (concat lv) input /\
  (forall b, In b input -> In (bres b) res -> In b (concat lv)) /\ NoDup (concat lv).
Proof.
  intros res lv Hres H. induction H as [|r l res lv [A B _ D E] _ IH]; cbn [concat].
  - repeat split; [constructor|intros b []|intros b _ []|constructor].
  - apply NoDup_cons_iff in Hres as [Hr Hres]. destruct (IH Hres) as (I0 & I1 & I2 & I3). repeat split.
    + constructor; assumption.
    + apply incl_app; assumption.
    + intros b Hb [Hb'|Hin]; apply in_app_iff; [left; apply E; auto|right; apply I2; assumption].
    + apply NoDup_app_iff. repeat split; [exact D|exact I3|]. intros x X1 X2. apply Hr.
      destruct (proj1 (Forall_forall _ _) A x X1). exact (levels_res_in res lv x I0 X2).
Qed.

Lemma levels_ok_facts input lv : nodup_n (map bid input) = true -> levels_ok input resolutions lv = true ->
  wf_levels lv /\ incl (concat lv) input /\
  (forall b, In b input -> known_res (bres b) = true -> In b (concat lv)) /\
  NoDup (map bid (concat lv)).
Proof.
  intros Hnd H. apply nodup_n_spec in Hnd. apply levels_ok_spec in H.
  destruct (levels_spec_facts input _ _ resolutions_nodup H) as (_ & Hincl & Hall & Hn).
  split; [|split; [exact Hincl|split]].
  - unfold wf_levels. clear - H. induction H as [|r l res lv' [A _ C _ _] _ IH]; constructor; [split|]; assumption.
  - intros b Hb Hk. apply Hall; [exact Hb|apply known_res_in; exact Hk].
  - exact (NoDup_map_incl bid input _ Hnd Hincl Hn).
Qed.

Lemma find_block_in input b : NoDup (map bid input) -> In b input -> find_block input (bid b) = Some b.
Proof.
  intros Hnd Hb. unfold find_block.
  destruct (find (fun x => (bid x =? bid b)%N) input) as [x|] eqn:E.
  - apply find_some in E as [Hx Ex]. apply N.eqb_eq in Ex. f_equal. apply (NoDup_map_inj bid input x b Hnd Hx Hb Ex).
  - exfalso. apply (find_none _ _ E) in Hb. rewrite N.eqb_refl in Hb. discriminate.
Qed.

Lemma resolve_map_bid input : NoDup (map bid input) -> forall out, incl out input -> resolve input (map bid out) = Some out.
Proof.
  intros Hnd. induction out as [|b out IH]; intro Hi; cbn [map resolve]; [reflexivity|].
  rewrite (find_block_in input b Hnd) by (apply Hi; left; reflexivity).
  rewrite IH by (intros x Hx; apply Hi; right; exact Hx). reflexivity.
Qed.

Definition covered_prop (input sel : list block) (m M maxres : Z) : Prop :=
  forall t a, m <= t <= M -> In a input -> allowed maxres a = true -> covers a t = true ->
  exists s, In s sel /\ covers s t = true.

(* the check is [covered_prop] at the critical instants *)
Lemma cover_check_spec input sel m M maxres : cover_check input sel m M maxres = true <->
  forall t, In t (critical input sel m maxres) ->
  forall a, m <= t <= M -> In a input -> allowed maxres a = true -> covers a t = true ->
  exists s, In s sel /\ covers s t = true.
Proof.
  unfold cover_check. rewrite forallb_forall. split; intros H t Ht.
  - intros a Hm Ha Hal Hc. specialize (H t Ht). rewrite <- existsb_exists.
    replace (_ && _ && _) with true in H; [exact H|]. symmetry.
    apply andb_true_iff. split; [apply andb_true_iff; split; apply Z.leb_le; lia|].
    apply existsb_exists. exists a. rewrite Hal, Hc. auto.
  - destruct (_ && _ && _) eqn:E; [|reflexivity].
    apply andb_true_iff in E as [Hm E]. apply andb_true_iff in Hm as [H0 H1]. apply Z.leb_le in H0, H1.
    apply existsb_exists in E as (a & Ha & E). apply andb_true_iff in E as [Hal Hc].
    apply existsb_exists. exact (H t Ht a (conj H0 H1) Ha Hal Hc).
Qed.

Lemma cover_check_complete input sel m M maxres : covered_prop input sel m M maxres -> cover_check input sel m M maxres = true.
Proof. intro H. apply cover_check_spec. intros t _. exact (H t). Qed.

Lemma max_below (T : list Z) t m : m <= t ->
  exists b, (b = m \/ In b T) /\ m <= b <= t /\ forall x, In x T -> x <= t -> x <= b.
Proof.
  intro Hm. induction T as [|x T (b & B1 & B2 & B3)]; [exists m; repeat split; auto; [lia|intros x []]|].
  assert (C : b < x <= t \/ (x <= b \/ t < x)) by lia. destruct C as [C|C]; [exists x|exists b].
  - repeat split; [right; left; reflexivity|lia|lia|]. intros y [<-|Hy] Hyt; [lia|]. specialize (B3 y Hy Hyt). lia.
  - repeat split; [destruct B1; [left|right; right]; assumption|lia|lia|]. intros y [<-|Hy] Hyt; [lia|auto].
Qed.

(* Between two critical instants nothing changes: let t' be the last critical instant <= t. The
   allowed block covering t starts at or before t', so t' is covered by a selected block s; s
   cannot end in (t', t], its end being critical, so it covers t as well. *)
Lemma cover_check_sound input sel m M maxres : cover_check input sel m M maxres = true -> covered_prop input sel m M maxres.
Proof.
  intros H t a Ht Ha Hal Hc. rewrite cover_check_spec in H. apply covers_spec in Hc.
  set (T := critical input sel m maxres) in *.
  destruct (max_below T t m ltac:(lia)) as (t' & B1 & B2 & B3).
  assert (Ht' : In t' T) by (destruct B1 as [->|B1]; [left; reflexivity|exact B1]).
  assert (Hat' : bmin a <= t').
  { apply B3; [|lia]. right. apply in_app_iff. left. apply in_map. apply filter_In. auto. }
  destruct (H t' Ht' a ltac:(lia) Ha Hal) as (s & Hs & Hcs); [apply covers_spec; lia|].
  exists s. split; [exact Hs|]. apply covers_spec in Hcs. apply covers_spec.
  destruct (Z_lt_le_dec t (bmax s)) as [|Hge]; [lia|].
  assert (Hs' : In (bmax s) T) by (right; apply in_app_iff; right; apply in_map; exact Hs).
  specialize (B3 (bmax s) Hs' Hge). lia.
Qed.

Lemma pred_sel_ok input lv m M maxres :
  nodup_n (map bid input) = true -> levels_ok input resolutions lv = true ->
  exists out, get_for_top true lv m M maxres = Some out /\
    pred_sel input out m M maxres = true /\ resolve input (map bid out) = Some out.
Proof.
  intros Hnd Hlv. destruct (levels_ok_facts input lv Hnd Hlv) as (Hwf & Hincl & Hall & Hids).
  destruct (top_some lv m M maxres) as (out & Hout & _). exists out. split; [exact Hout|]. split.
  - unfold pred_sel. rewrite !andb_true_iff. repeat split.
    + apply forallb_forall. intros b Hb. apply Z.leb_le.
      pose proof (res_bound lv m M maxres out Hwf Hout) as HF. rewrite Forall_forall in HF. auto.
    + apply nodup_n_spec. apply (nodup_ids lv m M maxres out Hids Hout).
    + apply forallb_forall. intros b Hb.
      pose proof (overlap lv m M maxres out Hout) as HF. rewrite Forall_forall in HF. destruct (HF b Hb).
      apply andb_true_iff. split; [apply Z.leb_le|apply Z.ltb_lt]; lia.
    + apply cover_check_complete. intros t a Ht Ha Hal Hc.
      unfold allowed in Hal. apply andb_true_iff in Hal as [K R]. apply Z.leb_le in R.
      apply (cover lv m M maxres out t a Hwf Hout Ht (Hall a Ha K) R Hc).
  - apply resolve_map_bid; [apply nodup_n_spec; exact Hnd|].
    intros x Hx. apply Hincl. apply (selected_from_set lv m M maxres out Hout x Hx).
Qed.

Lemma case_pred_ok input failed lids lv m M maxres :
  nodup_n (map bid input) = true -> levels_ok input resolutions lv = true ->
  pred_ok (CGet input failed lids m M maxres (option_map (map bid) (get_for_top true lv m M maxres))) = true.
Proof.
  intros Hnd Hlv. destruct (pred_sel_ok input lv m M maxres Hnd Hlv) as (out & -> & Hp & Hr).
  cbn [pred_ok option_map]. rewrite Hr. exact Hp.
Qed.

Definition ble (a b : block) : Prop := blk_le a b = true.

Lemma blk_le_total a b : blk_le a b = false -> ble b a.
Proof. unfold ble. rewrite <- not_true_iff_false, !blk_le_spec. lia. Qed.

#[local] Instance ble_trans : Transitive ble.
Proof. intros a b c. unfold ble. rewrite !blk_le_spec. lia. Qed.

Lemma insert_blk_ins b : forall l, insert_blk b l = ins blk_le b l.
Proof. induction l as [|x r IH]; cbn [insert_blk ins]; [reflexivity|]. rewrite IH. reflexivity. Qed.

Lemma insert_perm b l : Permutation (insert_blk b l) (b :: l).
Proof. rewrite insert_blk_ins. apply ins_perm. Qed.

Lemma insert_sorted b l : StronglySorted ble l -> StronglySorted ble (insert_blk b l).
Proof. rewrite insert_blk_ins. exact (ins_StronglySorted blk_le ble (fun x y H => H) blk_le_total b l). Qed.

Lemma sorted_sorted_by : forall l, StronglySorted ble l -> sorted_by blk_le l = true.
Proof.
  induction 1 as [|a r Hr IH Ha]; [reflexivity|]. cbn [sorted_by].
  rewrite IH, andb_true_r. destruct r; [reflexivity|exact (Forall_inv Ha)].
Qed.

Definition lvl_inv (r : Z) (l : list block) : Prop := has_res r l /\ StronglySorted ble l.

Lemma madd_inv : forall res lv b, Forall2 lvl_inv res lv -> Forall2 lvl_inv res (madd res lv b).
Proof.
  induction res as [|r res IH]; intros lv b H; inversion H as [|? l ? lv' [H1 H2] H3]; subst; cbn [madd]; [constructor|].
  destruct (bres b =? r) eqn:E.
  - constructor; [|exact H3]. split; [|apply insert_sorted; exact H2].
    apply (Permutation_Forall (Permutation_sym (insert_perm b l))). constructor; [apply Z.eqb_eq; exact E|exact H1].
  - constructor; [split; assumption|apply IH; exact H3].
Qed.

Lemma madd_perm {P} : forall res lv b, Forall2 P res lv -> In (bres b) res ->
  Permutation (concat (madd res lv b)) (b :: concat lv).
Proof.
  intros res lv b H. induction H as [|r l res lv _ _ IH]; intro Hin; [contradiction|].
  cbn [madd]. destruct (bres b =? r) eqn:E; cbn [concat].
  - rewrite insert_perm. reflexivity.
  - apply Z.eqb_neq in E. destruct Hin as [->|Hin]; [congruence|].
    rewrite (IH Hin). symmetry. apply Permutation_middle.
Qed.

Lemma madd_unknown : forall res lv b, ~ In (bres b) res -> madd res lv b = lv.
Proof.
  induction res as [|r res IH]; intros [|l lv] b H; cbn [madd]; try reflexivity.
  destruct (bres b =? r) eqn:E; [apply Z.eqb_eq in E; exfalso; apply H; left; auto|].
  f_equal. apply IH. intro Hin. apply H. right. exact Hin.
Qed.

Lemma mremove_inv id : forall res lv, Forall2 lvl_inv res lv -> Forall2 lvl_inv res (mremove id lv).
Proof.
  induction 1 as [|r l res lv [H1 H2] _ IH]; cbn [mremove map]; constructor; [|exact IH].
  split; [exact (incl_Forall (incl_filter _ l) H1)|apply StronglySorted_filter; exact H2].
Qed.

Lemma concat_mremove id : forall lv, concat (mremove id lv) = filter (fun b => negb (N.eqb (bid b) id)) (concat lv).
Proof.
  induction lv as [|l lv IH]; [reflexivity|]. cbn [mremove map concat]. rewrite filter_app. f_equal. exact IH.
Qed.

(* the state reached by a history: (model levels, specification set) *)
Definition hstate_run (ops : list hop) : list (list block) * list block :=
  fold_left (fun st o => (mset_step (fst st) o, spec_step (snd st) o)) ops (mset_init, []).

Definition hinv_set (lv : list (list block)) (cur : list block) : Prop :=
  Forall2 lvl_inv resolutions lv /\ Permutation (concat lv) cur /\ NoDup (map bid cur).

Lemma fresh_add cur b : negb (existsb (fun x => N.eqb (bid x) (bid b)) cur) = true -> ~ In (bid b) (map bid cur).
Proof.
  rewrite negb_true_iff, <- not_true_iff_false, existsb_exists. intros H Hin.
  apply in_map_iff in Hin as (x & E & Hx). apply H. exists x. split; [exact Hx|apply N.eqb_eq; exact E].
Qed.

Lemma hstep_inv lv cur o r : hinv_set lv cur -> fresh_ids cur (o :: r) = true ->
  hinv_set (mset_step lv o) (spec_step cur o) /\ fresh_ids (spec_step cur o) r = true.
Proof.
  intros (I1 & I2 & I3) F. cbn [fresh_ids] in F. apply andb_true_iff in F as [F1 F2]. split; [|exact F2].
  destruct o as [b|id|m M res]; cbn [mset_step spec_step].
  - destruct (known_res (bres b)) eqn:K.
    + apply known_res_in in K. split; [apply madd_inv; exact I1|]. split.
      * rewrite (madd_perm _ _ _ I1 K), I2. apply Permutation_cons_append.
      * rewrite map_app. apply NoDup_snoc; [exact I3|apply fresh_add; exact F1].
    + assert (N : ~ In (bres b) resolutions) by (intro H; apply known_res_in in H; congruence).
      rewrite madd_unknown by exact N. repeat split; assumption.
  - split; [apply mremove_inv; exact I1|]. split.
    + rewrite concat_mremove. apply filter_perm. exact I2.
    + apply NoDup_map_filter. exact I3.
  - repeat split; assumption.
Qed.

Lemma hrun_inv : forall ops st, hinv_set (fst st) (snd st) -> fresh_ids (snd st) ops = true ->
  let st' := fold_left (fun st o => (mset_step (fst st) o, spec_step (snd st) o)) ops st in
  hinv_set (fst st') (snd st').
Proof.
  induction ops as [|o r IH]; intros st I F; cbn [fold_left]; [exact I|].
  destruct (hstep_inv _ _ o r I F). apply IH; assumption.
Qed.

Lemma lvl_inv_wf lv : Forall2 lvl_inv resolutions lv -> wf_levels lv.
Proof.
  unfold wf_levels. induction 1 as [|r l res' lv' [H1 H2] _ IH]; constructor; [|exact IH].
  split; [exact H1|]. apply sorted_blk_min. apply sorted_sorted_by. exact H2.
Qed.

(* every state reachable by add / remove / getFor calls (ids of added blocks new) is a well-formed
   set holding exactly the specification set; hence the four clauses hold for every getFor in it *)
Lemma reachable_clauses ops : fresh_ids [] ops = true ->
  let lv := fst (hstate_run ops) in let cur := snd (hstate_run ops) in
  wf_levels lv /\ NoDup (map bid (concat lv)) /\ Permutation (concat lv) cur /\
  forall mint maxt maxres out, get_for_top true lv mint maxt maxres = Some out ->
    Forall (fun b => bres b <= maxres) out /\
    Forall (fun b => bmin b <= maxt /\ mint < bmax b) out /\ incl out cur /\
    NoDup (map bid out) /\
    (forall t b, mint <= t <= maxt -> In b cur -> bres b <= maxres -> covers b t = true ->
       exists b', In b' out /\ covers b' t = true).
Proof.
  intro F. cbn zeta. unfold hstate_run.
  assert (I0 : hinv_set mset_init []).
  { unfold mset_init. split; [|split; [|constructor]]; induction resolutions; cbn [map concat]; auto.
    constructor; [split; constructor|assumption]. }
  destruct (hrun_inv ops (mset_init, []) I0 F) as (I1 & I2 & I3).
  set (lv := fst _) in *. set (cur := snd _) in *.
  pose proof (lvl_inv_wf lv I1) as Wf.
  assert (Nd : NoDup (map bid (concat lv))).
  { apply (Permutation_NoDup (Permutation_map bid (Permutation_sym I2))). exact I3. }
  split; [exact Wf|]. split; [exact Nd|]. split; [exact I2|].
  intros mint maxt maxres out H. split; [apply (res_bound lv mint maxt maxres out Wf H)|].
  split; [apply (overlap lv mint maxt maxres out H)|]. split.
  - intros x Hx. apply (Permutation_in _ I2). apply (selected_from_set lv mint maxt maxres out H x Hx).
  - split; [apply (nodup_ids lv mint maxt maxres out Nd H)|].
    intros t b Ht Hb Hr Hc. apply (cover lv mint maxt maxres out t b Wf H Ht); [|exact Hr|exact Hc].
    apply (Permutation_in _ (Permutation_sym I2)). exact Hb.
Qed.

(* a remove that does not keep the order (swap with the last element) leaves a level unsorted:
   four blocks in time order, the first one replaced by the last; getFor on that list misses the
   block 10-20 for the query [-2,10] *)
Lemma unsorted_level_refuted :
  let lv := [[]; []; [mkBlock 4 30 40 0; mkBlock 2 10 20 0; mkBlock 3 20 30 0]] in
  sorted_by blk_le (nth 2 lv []) = false /\
  get_for_top true lv (-2) 10 0 = Some [] /\
  covers (mkBlock 2 10 20 0) 10 = true /\
  get_for_top true (mremove 1 (fold_left (madd resolutions) [mkBlock 1 0 10 0; mkBlock 2 10 20 0; mkBlock 3 20 30 0; mkBlock 4 30 40 0] mset_init)) (-2) 10 0
    = Some [mkBlock 2 10 20 0].
Proof. cbn zeta. repeat split; vm_compute; reflexivity. Qed.

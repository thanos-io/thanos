(* C10 — lazy expanded postings: fetching only the non-lazy groups and re-checking the lazy
   names' matchers on every candidate series selects the same series, whatever names are
   marked lazy; optimizePostingsFetchByDownloadedBytes never marks every group with add keys
   lazy, so this holds for the marking it makes. *)
From Coq Require Import ZArith NArith List Bool Lia Sorted Permutation.
Import ListNotations.
From Verif Require Import Lib.Corr Lib.ListFacts Lib.Storegw_Str Gen.C10 Model.C10 Proofs.C10 Proofs.C10_merge Proofs.C10_select.
Open Scope Z_scope.

(* Of the groups K, those with a lazy name are replaced by the matchers of their names
   (keysToFetchFromPostingGroups + the lazy matcher loop of nextBatch). *)
Lemma lazy_split K ms (lazy : str -> bool) (s : series) :
  (forall g, In g K -> in_group g (gval s g) = conj_ms (name_filter ms (g_name g)) (gval s g)) ->
  forallb (fun g => in_group g (gval s g)) (filter (fun g => negb (lazy (g_name g))) K)
  && forallb (fun m => m_fun m (label_get (fst s) (m_name m)))
       (filter (fun m => lazy (m_name m) && existsb (fun g => str_eqb (g_name g) (m_name m)) K) ms)
  = forallb (fun g => in_group g (gval s g)) K.
Proof.
  intro Hsem. apply eq_true_iff_eq. rewrite andb_true_iff, !forallb_forall. split.
  - intros [He Hl] g Hg. destruct (lazy (g_name g)) eqn:El.
    + rewrite (Hsem g Hg). apply conj_name_filter. intros m Hm Hn. apply Hl, filter_In. split; [exact Hm|].
      cbv beta. rewrite Hn, El. apply existsb_exists. exists g. split; [exact Hg|apply str_eqb_refl].
    + apply He, filter_In. split; [exact Hg|]. rewrite El. reflexivity.
  - intro H. split.
    + intros g Hg. apply filter_In in Hg. apply H, Hg.
    + intros m Hm. apply filter_In in Hm. destruct Hm as [Hm Hf]. apply andb_true_iff in Hf.
      destruct Hf as [_ Hf]. apply existsb_exists in Hf. destruct Hf as (g & Hg & Hn). apply str_eqb_eq in Hn.
      specialize (H g Hg). rewrite (Hsem g Hg) in H. unfold gval in H. rewrite Hn in H.
      exact (proj1 (conj_name_filter ms _ s) H m Hm eq_refl).
Qed.

Lemma lazy_split_sem idx ms gs (lazy : str -> bool) :
  (forall g, In g gs -> good_group idx ms g) ->
  (forall m, In m ms -> exists g, In g gs /\ g_name g = m_name m) ->
  forall s, In s idx ->
  forallb (fun g => in_group g (gval s g)) (filter (fun g => negb (lazy (g_name g))) gs)
  && forallb (fun m => m_fun m (label_get (fst s) (m_name m))) (filter (fun m => lazy (m_name m)) ms)
  = forallb (fun g => in_group g (gval s g)) gs.
Proof.
  intros Hgood Hcover s Hs. rewrite <- (lazy_split gs ms lazy s) by (intros g Hg; apply (Hgood g Hg), Hs).
  do 2 f_equal. apply filter_ext_in. intros m Hm. destruct (Hcover m Hm) as (g & Hg & Hn).
  replace (existsb _ gs) with true; [symmetry; apply andb_true_r|].
  symmetry. apply existsb_exists. exists g. split; [exact Hg|]. rewrite Hn. apply str_eqb_refl.
Qed.

(* Per series: the tests on the fetched groups are [in_group] of those groups ([groups_tests]);
   the lazy groups are exchanged for the matchers of their names ([lazy_split]); all kept groups
   together say what all matchers say ([kept_sem], [sat_all_dedup]), as does the eager selection. *)
Lemma select_with_eq idx ms lazy :
  ms <> [] -> Forall coherent ms -> consistent ms -> wf_index idx ->
  (* at least one group with add keys is fetched *)
  (forall gs, matchers_to_groups idx ms = Some gs ->
     existsb g_all gs && negb (existsb (fun g => negb (is_nil (g_add g))) gs) = false ->
     exists g, In g gs /\ g_add g <> [] /\ lazy (g_name g) = false) ->
  select_with idx ms lazy = select idx ms.
Proof.
  intros Hne Hc Hcons Hidx Heager.
  destruct (matchers_to_groups idx ms) as [gs|] eqn:Eg.
  2:{ unfold select_with, select. rewrite Eg. reflexivity. }
  destruct (groups_good idx ms Hc gs Eg) as (Hgood & _).
  rewrite (select_eq_filter idx ms Hne Hc Hcons Hidx).
  unfold select_with. rewrite Eg. destruct ms as [|m0 ms0]; [congruence|]. set (ms := m0 :: ms0) in *.
  cbv zeta. fold (kept_groups gs) (add_all_postings gs).
  destruct (add_all_postings gs) eqn:Eall; [apply select_eq_filter; assumption|].
  destruct (Heager gs eq_refl Eall) as (g0 & Hg0 & Hg0a & Hg0l).
  set (eager := filter (fun g => negb (lazy (g_name g))) (kept_groups gs)).
  assert (Hadds : In g0 (filter (fun g => negb (is_nil (g_add g))) eager)).
  { apply filter_In. split; [apply filter_In; split; [apply in_kept; assumption|rewrite Hg0l; reflexivity]|].
    destruct (g_add g0); [congruence|reflexivity]. }
  rewrite (is_nil_false_in _ _ Hadds).
  apply filter_ext_in. intros s Hs.
  rewrite (groups_tests idx ms gs Hc Hidx Eg s eager Hs)
    by (intros g Hg; left; apply filter_In in Hg; destruct Hg as [Hg _]; apply filter_In in Hg; apply Hg).
  unfold eager. rewrite lazy_split by (intros g Hg; apply filter_In in Hg; apply (Hgood g (proj1 Hg)), Hs).
  rewrite (kept_sem idx ms gs Hc Eg s Hs). apply sat_all_dedup, Hcons.
Qed.

Lemma lazy_loop_sub sz mn md kn kd maxSM : forall gs sm n,
  In n (lazy_loop sz mn md kn kd maxSM sm gs) -> In n (map cg_name gs).
Proof.
  induction gs as [|[[g c] e] r IH]; intros sm n H; [contradiction|].
  cbn [lazy_loop] in H.
  destruct (sm <=? 0); [exact H|].
  destruct ((0 <? kn) && (0 <? maxSM) && (kn * maxSM <? e * kd)).
  - destruct H as [<-|H]; [left; reflexivity|right; eapply IH; eauto].
  - match type of H with context [if ?c then _ else _] => destruct c end; [exact H|].
    right. eapply IH; eauto.
Qed.

Lemma span_all_spec : forall l a b, span_all l = (a, b) ->
  l = a ++ b /\ match b with [] => True | x :: _ => g_all (fst (fst x)) = false end.
Proof.
  induction l as [|x l IH]; intros a b H; simpl in H.
  - inversion H; subst. split; [reflexivity|exact I].
  - destruct (g_all (fst (fst x))) eqn:E.
    + destruct (span_all l) as [a' b'] eqn:Es. inversion H; subst. destruct (IH a' b eq_refl) as (H1 & H2).
      split; [simpl; rewrite H1; reflexivity|exact H2].
    + inversion H; subst. split; [reflexivity|exact E].
Qed.

Lemma smem_false_notin n l : ~ In n l -> smem n l = false.
Proof. intro H. destruct (smem n l) eqn:E; [|reflexivity]. apply smem_in in E. contradiction. Qed.

(* The groups are sorted by cardinality and the leading add-all groups split off; only groups
   after the first remaining one (which has add keys) are ever marked ([lazy_loop_sub]), and as
   names are distinct, that first one is not among them. *)
Lemma lazy_marking_ok idx sz mn md kn kd gs names :
  lazy_marking idx sz mn md kn kd gs = Some names ->
  NoDup (map g_name gs) ->
  (forall g, In g gs -> g_all g = false -> g_add g <> []) ->
  (exists g, In g gs /\ g_all g = false) ->
  exists g, In g gs /\ g_add g <> [] /\ smem (g_name g) names = false.
Proof.
  intros H Hnd Hadd (g0 & Hg0 & Hg0a). unfold lazy_marking in H.
  assert (Htriv : names = [] -> exists g, In g gs /\ g_add g <> [] /\ smem (g_name g) names = false).
  { intros ->. exists g0. split; [exact Hg0|]. split; [apply Hadd; assumption|reflexivity]. }
  revert H.
  destruct (length gs <=? 1)%nat; [intro H; inversion H; subst; apply Htriv; reflexivity|].
  destruct (existsb _ gs); [intro H; discriminate H|].
  intro H.
  set (trip := map (fun g => (g, g_card idx g, g_existent idx g)) gs) in *.
  set (sorted := cg_sort trip) in *.
  destruct (span_all sorted) as [negs rest] eqn:Es.
  destruct (span_all_spec _ _ _ Es) as (Eapp & Hhead).
  destruct rest as [|[[g c] e] tail]; [inversion H; subst; apply Htriv; reflexivity|].
  assert (Hn : exists sm, names = lazy_loop sz mn md kn kd sm sm tail \/ names = []).
  { destruct tail as [|x2 r2]; [exists 0; right; inversion H; reflexivity|].
    eexists. left. injection H as Hn. symmetry. exact Hn. }
  destruct Hn as (sm0 & [Hn|Hn]); [|apply Htriv; exact Hn]. clear H.
  assert (Hperm : Permutation sorted trip) by apply (isort_perm cg_leb).
  assert (Hin : In (g, c, e) sorted) by (rewrite Eapp; apply in_or_app; right; left; reflexivity).
  assert (Hg : In g gs).
  { apply (Permutation_in _ Hperm) in Hin. unfold trip in Hin. apply in_map_iff in Hin.
    destruct Hin as (g' & Hg' & Hin). inversion Hg'; subst. exact Hin. }
  exists g. split; [exact Hg|]. split; [apply Hadd; [exact Hg|exact Hhead]|].
  apply smem_false_notin. intro Hbad. rewrite Hn in Hbad. apply lazy_loop_sub in Hbad.
  (* names of the sorted list have no duplicates *)
  assert (Hnames : map cg_name trip = map g_name gs).
  { unfold trip. rewrite map_map. reflexivity. }
  assert (Hnd' : NoDup (map cg_name sorted)).
  { eapply Permutation_NoDup; [apply Permutation_map; apply Permutation_sym; exact Hperm|]. rewrite Hnames. exact Hnd. }
  rewrite Eapp, map_app in Hnd'. apply NoDup_remove_2 in Hnd'.
  apply Hnd'. apply in_or_app. right. exact Hbad.
Qed.

(* the marking made by the real code satisfies the hypothesis of [select_with_eq] *)
Lemma real_marking_sound idx ms sz mn md kn kd gs names :
  ms <> [] -> Forall coherent ms -> consistent ms -> wf_index idx ->
  matchers_to_groups idx ms = Some gs ->
  real_marking idx sz mn md kn kd gs = Some names ->
  select_with idx ms (fun n => smem n names) = select idx ms.
Proof.
  intros Hne Hc Hcons Hidx Eg Hm.
  apply select_with_eq; try assumption.
  intros gs0 E0 Hall. rewrite Eg in E0. inversion E0; subst gs0. clear E0.
  pose proof (matchers_to_groups_ok idx ms Hc) as Hg. rewrite Eg in Hg. destruct Hg as (Hgood & Hnd & _).
  rewrite Forall_forall in Hgood.
  unfold real_marking in Hm. fold (add_all_postings gs) in Hall. rewrite Hall in Hm. cbn [orb] in Hm.
  destruct (has_add_group idx ms gs Hne Hc Eg Hall) as (g1 & Hg1 & Hg1a).
  destruct (negb (0 <? sz)).
  { inversion Hm; subst. exists g1. repeat split; assumption. }
  assert (Hkin : forall g, In g (kept_groups gs) -> In g gs) by (intros g H; apply filter_In in H; apply H).
  destruct (lazy_marking_ok idx sz mn md kn kd (kept_groups gs) names Hm) as (g & Hg & Hga & Hgl).
  - apply NoDup_map_filter. exact Hnd.
  - intros g Hg Hall0. destruct (Hgood g (Hkin g Hg)) as (_ & Hnz & _). intro Ea. apply Hnz. split; assumption.
  - exists g1. split; [apply in_kept; assumption|].
    destruct (Hgood g1 Hg1) as ((_ & _ & W3 & _) & _). destruct (g_all g1); [rewrite (W3 eq_refl) in Hg1a; congruence|reflexivity].
  - exists g. split; [apply Hkin; exact Hg|]. split; [exact Hga|exact Hgl].
Qed.

(* C06 — the frame-timeout timer of a lazy response set's receiver goroutine
   (pkg/store/proxy_merge.go newLazyRespSet / handleRecvResponse) as a transition system, for
   every schedule of the consumer of the merge (pops) and every passage of time (ticks):
   the timer is armed while the receiver waits in cl.Recv(), it is paused after Recv returned
   when [pause buffer_full] holds, the responses of a (batch) frame are appended one by one and
   an append blocks while the buffer is full, the timer is re-armed when the frame is done
   (the deferred t.Reset(frameTimeout)), and it fires — cancelling the store's stream — when it
   has been armed for the timeout. [pause] is instantiated with Gen.C06.timer_pause_cond,
   regenerated from the source. Time is discrete; a store is healthy when each of its Recv calls
   returns before the timeout (ticks during Recv are bounded), the consumer may stall for any
   time (ticks are unbounded while the receiver queues responses). *)
From Coq Require Import ZArith List Bool Lia Arith.
Import ListNotations.
From Verif Require Import Gen.C06.
Open Scope nat_scope.

Section Timer.
Context {A : Type}.
Variable T : nat.                      (* the frame timeout in ticks, >= 1 *)
Variable cap : nat.                    (* the buffer holds at most cap responses *)
Variable pause : bool -> bool.         (* is the timer paused after Recv, given "the buffer is full" *)

Inductive timer := Armed (elapsed : nat) | Paused.
Inductive phase := InRecv | Queuing (items : list A).

Record state := MkT {
  pending : list (list A);             (* frames the store will still answer with (a frame = the series of a batch) *)
  ph : phase;
  tm : timer;
  buf : list A;
  cancelled : bool
}.

Definition is_full (b : list A) : bool := cap <=? length b.

Inductive step : state -> state -> Prop :=
(* cl.Recv() returns the next frame *)
| s_recv st f p : pending st = f :: p -> ph st = InRecv ->
    step st (MkT p (Queuing f) (if pause (is_full (buf st)) then Paused else tm st) (buf st) (cancelled st))
(* rb.append of the next response of the frame: only when the buffer has a free slot *)
| s_append st x r : ph st = Queuing (x :: r) -> is_full (buf st) = false ->
    step st (MkT (pending st) (Queuing r) (tm st) (buf st ++ [x]) (cancelled st))
(* handleRecvResponse returns: deferred t.Reset(frameTimeout), next Recv *)
| s_done st : ph st = Queuing [] ->
    step st (MkT (pending st) InRecv (Armed 0) (buf st) (cancelled st))
(* the consumer of the merge pops a response — whenever it likes *)
| s_pop st x b : buf st = x :: b ->
    step st (MkT (pending st) (ph st) (tm st) b (cancelled st))
(* time passes; while the receiver is inside Recv of a healthy store, Recv returns before the timeout *)
| s_tick st e : tm st = Armed e -> (ph st = InRecv -> S e < T) ->
    step st (MkT (pending st) (ph st) (Armed (S e)) (buf st) (cancelled st))
(* the timer fires: closeSeries() cancels the store's stream *)
| s_fire st e : tm st = Armed e -> T <= e ->
    step st (MkT (pending st) (ph st) (tm st) (buf st) true).

Inductive reach (s0 : state) : state -> Prop :=
| r_refl : reach s0 s0
| r_step s s' : reach s0 s -> step s s' -> reach s0 s'.

Definition init (frames : list (list A)) : state := MkT frames InRecv (Armed 0) [] false.

(* the discipline of the code: paused whatever the buffer state *)
Theorem healthy_store_never_cancelled frames st :
  1 <= T -> (forall b, pause b = true) ->
  reach (init frames) st -> cancelled st = false.
Proof.
  intros HT Hp Hr.
  assert (Inv : cancelled st = false
                /\ (forall e, tm st = Armed e -> ph st = InRecv /\ e < T)).
  { induction Hr as [|s s' Hr IH Hs].
    - split; [reflexivity|]. cbn. intros e E. inversion E; subst. split; [reflexivity | lia].
    - destruct IH as [IC IA]. destruct Hs; cbn [cancelled tm ph].
      + rewrite Hp. split; [exact IC | intros e E; discriminate].
      + split; [exact IC|]. intros e E. destruct (IA e E) as [P _]. congruence.
      + split; [exact IC|]. intros e E. inversion E; subst. split; [reflexivity | lia].
      + split; [exact IC | exact IA].
      + split; [exact IC|]. intros e' E. inversion E; subst. destruct (IA e H) as [P _]. split; [exact P | apply H0; exact P].
      + exfalso. destruct (IA e H) as [_ L]. lia. }
  apply Inv.
Qed.
End Timer.

(* the source's discipline meets the hypothesis *)
Lemma source_pauses_always : forall b, timer_pause_cond b = true.
Proof. intros b. unfold timer_pause_cond. reflexivity. Qed.

Lemma source_pause_position : timer_pause_after_recv_before_append = true.
Proof. reflexivity. Qed.

Theorem lazy_receiver_no_spurious_timeout (A : Type) (T cap : nat) (frames : list (list A)) st :
  1 <= T -> reach T cap timer_pause_cond (init frames) st -> cancelled st = false.
Proof. intros HT. apply healthy_store_never_cancelled; [exact HT | exact source_pauses_always]. Qed.

(* the other discipline — pause only when the buffer is already full before queuing — lets a
   healthy store be cancelled: a frame of two responses, a buffer of one, a stalled consumer *)
Theorem pause_only_when_full_refuted :
  exists st, reach 1 1 (fun full : bool => full) (init [[0; 1]]) st /\ cancelled st = true.
Proof.
  pose (s0 := init [[0; 1]]).
  pose (s1 := MkT [] (Queuing [0; 1]) (Armed 0) [] false).
  pose (s2 := MkT [] (Queuing [1]) (Armed 0) [0] false).
  pose (s3 := MkT [] (Queuing [1]) (Armed 1) [0] false).
  exists (MkT [] (Queuing [1]) (Armed 1) [0] true). split; [|reflexivity].
  apply r_step with s3; [apply r_step with s2; [apply r_step with s1; [apply r_step with s0; [apply r_refl|]|]|]|].
  - exact (s_recv 1 1 _ s0 [0; 1] [] eq_refl eq_refl).
  - exact (s_append 1 1 _ s1 0 [1] eq_refl eq_refl).
  - apply (s_tick 1 1 _ s2 0 eq_refl). discriminate.
  - exact (s_fire 1 1 _ s3 1 eq_refl (le_n 1)).
Qed.

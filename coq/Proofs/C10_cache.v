(* C10 — the expanded-postings cache is transparent over any history of queries. *)
From Coq Require Import ZArith NArith List Bool Lia Sorted.
Import ListNotations.
From Verif Require Import Lib.Corr Lib.ListFacts Lib.Storegw_Str Gen.C10 Model.C10 Proofs.C10 Proofs.C10_merge Proofs.C10_select.
Open Scope Z_scope.

Lemma answer_finish idx ext ms mint maxt :
  answer idx ext true ms mint maxt = finish ext (select idx ms) mint maxt.
Proof. reflexivity. Qed.

(* every entry is what a cold store computes for its key: independent of any time range *)
Definition cache_inv (cold : list matcher -> list series) (c : pcache) : Prop :=
  forall ms v, pc_lookup c ms = Some v -> v = cold ms.
(* the cold value depends only on the cache key (type, name, value of every matcher) *)
Definition key_respect (cold : list matcher -> list series) : Prop :=
  forall a b, key_eqb a b = true -> cold a = cold b.

Definition q_ms (q : query) : list matcher := fst (fst q).
Definition q_mint (q : query) : Z := snd (fst q).
Definition q_maxt (q : query) : Z := snd q.

Lemma cache_inv_nil cold : cache_inv cold [].
Proof. intros ms v H. discriminate. Qed.

Lemma query_step_ok cold ext c q : cache_inv cold c -> key_respect cold ->
  fst (query_step cold ext c q) = finish ext (cold (q_ms q)) (q_mint q) (q_maxt q)
  /\ cache_inv cold (snd (query_step cold ext c q)).
Proof.
  intros Hi Hk. destruct q as [[ms mint] maxt]. unfold query_step, q_ms, q_mint, q_maxt. cbn [fst snd].
  destruct (pc_lookup c ms) as [sel|] eqn:E.
  - cbn [fst snd]. rewrite (Hi ms sel E). split; [reflexivity|exact Hi].
  - cbn [fst snd]. split; [reflexivity|]. intros ms' v H. simpl in H.
    destruct (key_eqb ms' ms) eqn:Ek.
    + inversion H; subst. symmetry. apply Hk. exact Ek.
    + apply Hi. exact H.
Qed.

Lemma cache_transparent cold ext : key_respect cold ->
  forall h c, cache_inv cold c ->
  run_hist cold ext c h = map (fun q => finish ext (cold (q_ms q)) (q_mint q) (q_maxt q)) h.
Proof.
  intro Hk. induction h as [|q h IH]; intros c Hi; [reflexivity|].
  cbn [run_hist map]. destruct (query_step_ok cold ext c q Hi Hk) as (H1 & H2).
  destruct (query_step cold ext c q) as [a c']. cbn [fst snd] in *. rewrite H1, (IH c' H2). reflexivity.
Qed.

(* histories with one matcher list (what the harness sends): no hypothesis on keys is needed *)
Lemma key_eqb_refl ms : key_eqb ms ms = true.
Proof. unfold key_eqb. induction ms; simpl; [reflexivity|]. rewrite matcher_same_refl, IHms. reflexivity. Qed.

Lemma run_hist_same cold ext ms : forall (ranges : list (Z * Z)) c,
  (c = [] \/ c = [(ms, cold ms)]) ->
  run_hist cold ext c (map (fun r => (ms, fst r, snd r)) ranges)
  = map (fun r => finish ext (cold ms) (fst r) (snd r)) ranges.
Proof.
  induction ranges as [|r ranges IH]; intros c Hc; [reflexivity|].
  cbn [map run_hist query_step]. destruct Hc as [->| ->].
  - cbn [pc_lookup]. rewrite IH by (right; reflexivity). reflexivity.
  - cbn [pc_lookup]. rewrite key_eqb_refl. rewrite IH by (right; reflexivity). reflexivity.
Qed.

Definition mk_hist (f : Z -> Z -> list series) (ranges : list (Z * Z)) : list step_obs :=
  map (fun r => (fst r, snd r, f (fst r) (snd r))) ranges.

Lemma oracle_for_mk f : forall ranges mint maxt, In (mint, maxt) ranges ->
  oracle_for (mk_hist f ranges) mint maxt = Some (f mint maxt).
Proof.
  induction ranges as [|[a b] ranges IH]; intros mint maxt H; [contradiction|].
  cbn [mk_hist map oracle_for fst snd]. destruct ((a =? mint) && (b =? maxt)) eqn:E.
  - apply andb_true_iff in E. destruct E as [E1 E2]. apply Z.eqb_eq in E1, E2. subst. reflexivity.
  - destruct H as [H|H]; [inversion H; subst; rewrite !Z.eqb_refl in E; discriminate|].
    apply IH. exact H.
Qed.

Lemma all2_refl_map {A} (g : A -> list series) (h : A -> step_obs) l :
  (forall x, snd (h x) = g x) -> all2 (fun m (st : step_obs) => set_eqb m (snd st)) (map g l) (map h l) = true.
Proof.
  intro H. induction l as [|x l IH]; [reflexivity|]. cbn [map all2]. rewrite H, set_eqb_refl, IH. reflexivity.
Qed.

(* the case the harness would emit when every store answers, at every step of every history,
   like the model, and the TSDB read of each range is the specification, passes both checks *)
Lemma case_ok idx ext ms (hists : list (list (Z * Z))) :
  ms <> [] -> Forall coherent ms -> consistent ms -> wf_index idx -> chunks_sorted idx ->
  let spec := fun mint maxt => spec_answer idx ext ms mint maxt in
  corr_ok (CSel idx ext true ms (map (mk_hist spec) hists) (mk_hist spec (concat hists))) = true
  /\ pred_ok (CSel idx ext true ms (map (mk_hist spec) hists) (mk_hist spec (concat hists))) = true.
Proof.
  intros H1 H2 H3 H4 H5 spec.
  assert (Hspec : forall mint maxt, finish ext (select idx ms) mint maxt = spec mint maxt).
  { intros mint maxt. rewrite <- answer_finish. apply answer_eq_spec; assumption. }
  split.
  - cbn [corr_ok]. apply forallb_forall. intros hist Hh. apply in_map_iff in Hh. destruct Hh as (ranges & <- & _).
    unfold mk_hist at 1. rewrite map_map. cbn [fst snd].
    rewrite (run_hist_same (select idx) ext ms ranges [] (or_introl eq_refl)).
    unfold mk_hist. apply all2_refl_map. intro r. cbn [snd]. symmetry. apply Hspec.
  - cbn [pred_ok]. apply forallb_forall. intros hist Hh. apply in_map_iff in Hh. destruct Hh as (ranges & <- & Hr).
    apply forallb_forall. intros st Hst. unfold mk_hist in Hst. apply in_map_iff in Hst. destruct Hst as ([a b] & <- & Hab).
    cbn [fst snd]. rewrite (oracle_for_mk spec (concat hists) a b).
    + apply (list_eqb_refl series_eqb series_eqb_refl).
    + apply in_concat. exists ranges. split; assumption.
Qed.

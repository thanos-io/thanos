(* C49 — natsort.Compare is a strict total order on "statefulset-like" server
   names: a common prefix P, a run of digits, a common suffix S (for example
   memcached-<n>.memcached.svc:11211 or 10.0.0.<n>:11211), with pairwise
   different numbers that fit int64. Hence C49_order_independent applies to
   every such list without evaluating the comparison. *)
From Coq Require Import NArith ZArith List Bool Lia Permutation.
Import ListNotations.
From Verif Require Import Lib.Corr Lib.ListFacts Lib.Misc_Cmp Gen.C49 Model.C49 Proofs.C49.
Open Scope Z_scope.

Definition all_digits (d : str) : bool := forallb is_digit d.

Lemma chunks_head c s : exists ch rest, chunks (c :: s) = (is_digit c, ch) :: rest.
Proof.
  simpl. destruct (chunks s) as [|[d' ch] rest].
  - eexists. eexists. reflexivity.
  - destruct (Bool.eqb (is_digit c) d'); eexists; eexists; reflexivity.
Qed.

(* concatenation at a digit / non-digit boundary splits the chunk list *)
Definition boundary (a b : str) : Prop :=
  match rev a, b with
  | x :: _, y :: _ => is_digit x <> is_digit y
  | _, _ => True
  end.

Lemma boundary_cons c a b : a <> [] -> boundary (c :: a) b -> boundary a b.
Proof.
  unfold boundary. intros Hne H. simpl in H. destruct (rev a) as [|x r] eqn:E.
  - apply (f_equal (@rev N)) in E. rewrite rev_involutive in E. simpl in E. congruence.
  - simpl in H. exact H.
Qed.

Lemma chunks_app a : forall b, boundary a b -> chunks (a ++ b) = chunks a ++ chunks b.
Proof.
  induction a as [|c a IH]; intros b Hb; [reflexivity|].
  destruct a as [|c2 a].
  - destruct b as [|y b]; [rewrite app_nil_r; simpl; reflexivity|].
    unfold boundary in Hb. simpl in Hb.
    change (([c] ++ y :: b)) with (c :: y :: b). cbn [chunks].
    destruct (chunks_head y b) as [ch [rest E]]. cbn [chunks] in E. rewrite E.
    destruct (Bool.eqb (is_digit c) (is_digit y)) eqn:Eq; [apply eqb_prop in Eq; contradiction|].
    reflexivity.
  - assert (Hb' : boundary (c2 :: a) b) by (apply (boundary_cons c); [discriminate | exact Hb]).
    specialize (IH b Hb').
    change ((c :: c2 :: a) ++ b) with (c :: ((c2 :: a) ++ b)).
    cbn [chunks]. cbn [chunks] in IH. rewrite IH.
    destruct (chunks_head c2 a) as [ch [rest E]]. cbn [chunks] in E. rewrite E. cbn [app].
    destruct (Bool.eqb (is_digit c) (is_digit c2)); reflexivity.
Qed.

Lemma chunks_digits d : d <> [] -> all_digits d = true -> chunks d = [(true, d)].
Proof.
  induction d as [|c d IH]; [congruence|]. intros _ H. unfold all_digits in H. simpl in H.
  apply andb_true_iff in H as [Hc Hd].
  destruct d as [|c2 d]; [simpl; rewrite Hc; reflexivity|].
  cbn [chunks]. cbn [chunks] in IH. rewrite IH by (try discriminate; exact Hd). rewrite Hc. reflexivity.
Qed.

Lemma cmp_chunks_prefix c : forall x y, x <> [] -> y <> [] ->
  cmp_chunks (c ++ x) (c ++ y) = cmp_chunks x y.
Proof.
  induction c as [|a c IH]; intros x y Hx Hy; [reflexivity|].
  cbn [app cmp_chunks].
  assert (N1 : is_nil (c ++ x) = false) by (destruct c; [destruct x; [congruence | reflexivity] | reflexivity]).
  assert (N2 : is_nil (c ++ y) = false) by (destruct c; [destruct y; [congruence | reflexivity] | reflexivity]).
  destruct (atoi a) as [v|].
  - rewrite Z.eqb_refl, N1, N2. apply IH; assumption.
  - rewrite str_eqb_refl, N1, N2. apply IH; assumption.
Qed.

Definition maxint : Z := 9223372036854775807.

Section Names.
  Variables P S : str.
  Hypothesis P_end : match rev P with x :: _ => is_digit x = false | [] => True end.
  Hypothesis S_start : match S with y :: _ => is_digit y = false | [] => True end.

  Definition name (d : str) : str := P ++ d ++ S.
  Definition okd (d : str) : Prop := d <> [] /\ all_digits d = true /\ digits_val d <= maxint.

  Lemma name_chunks d : okd d -> chunks (name d) = chunks P ++ (true, d) :: chunks S.
  Proof.
    intros [Hne [Hd _]]. unfold name.
    assert (Hr : all_digits (rev d) = true).
    { unfold all_digits in *. rewrite forallb_forall in *. intros c Hc. apply Hd, in_rev, Hc. }
    rewrite !chunks_app, (chunks_digits d Hne Hd); [reflexivity| |]; unfold boundary.
    - destruct (rev d) as [|c r]; [exact I|]. destruct S as [|y s]; [exact I|].
      apply andb_true_iff in Hr as [Hc _]. rewrite Hc, S_start. discriminate.
    - destruct (rev P) as [|x rp]; [exact I|]. destruct d as [|c r]; [congruence|].
      apply andb_true_iff in Hd as [Hc _]. cbn [app]. rewrite P_end, Hc. discriminate.
  Qed.

  Lemma atoi_digits d : okd d -> atoi (true, d) = Some (digits_val d).
  Proof.
    intros [_ [_ H]]. unfold atoi. cbn [fst snd]. unfold maxint in H.
    destruct (digits_val d <=? 9223372036854775807) eqn:E; [reflexivity|]. apply Z.leb_gt in E. lia.
  Qed.

  Lemma nat_less_names d1 d2 :
    okd d1 -> okd d2 -> digits_val d1 <> digits_val d2 ->
    nat_less (name d1) (name d2) = (digits_val d1 <? digits_val d2).
  Proof.
    intros H1 H2 Hne. unfold nat_less. rewrite (name_chunks d1 H1), (name_chunks d2 H2).
    rewrite cmp_chunks_prefix by discriminate.
    cbn [cmp_chunks]. rewrite (atoi_digits d1 H1), (atoi_digits d2 H2).
    destruct (digits_val d1 =? digits_val d2) eqn:E; [apply Z.eqb_eq in E; contradiction | reflexivity].
  Qed.

  Lemma name_inj d1 d2 : name d1 = name d2 -> d1 = d2.
  Proof. unfold name. intro H. apply app_inv_head in H. apply app_inv_tail in H. exact H. Qed.

  Variable ds : list str.
  Hypothesis ds_ok : Forall okd ds.
  Hypothesis ds_distinct : NoDup (map digits_val ds).

  Lemma vals_differ d1 d2 :
    In d1 ds -> In d2 ds -> name d1 <> name d2 -> digits_val d1 <> digits_val d2.
  Proof. intros I1 I2 Hne E. apply Hne. f_equal. exact (NoDup_map_inj _ _ _ _ ds_distinct I1 I2 E). Qed.

  Lemma less_listed d1 d2 : In d1 ds -> In d2 ds -> name d1 <> name d2 ->
    nat_less (name d1) (name d2) = (digits_val d1 <? digits_val d2).
  Proof.
    intros I1 I2 Hne. rewrite Forall_forall in ds_ok.
    apply nat_less_names; auto using vals_differ.
  Qed.

  Lemma names_strict_total : asym_on nat_less (map name ds) /\ trans_on nat_less (map name ds).
  Proof.
    split.
    - intros x y Hx Hy Hne. apply in_map_iff in Hx as [d1 [<- I1]], Hy as [d2 [<- I2]].
      pose proof (vals_differ d1 d2 I1 I2 Hne). rewrite !less_listed by auto.
      destruct (Z.ltb_spec (digits_val d1) (digits_val d2)), (Z.ltb_spec (digits_val d2) (digits_val d1));
        reflexivity || lia.
    - intros x y z Hx Hy Hz Hxy Hyz Hxz.
      apply in_map_iff in Hx as [d1 [<- I1]], Hy as [d2 [<- I2]], Hz as [d3 [<- I3]].
      rewrite !less_listed by assumption. intros L12 L23.
      apply Z.ltb_lt in L12, L23. apply Z.ltb_lt. lia.
  Qed.

  Lemma names_order_independent l2 :
    Permutation (map name ds) l2 -> set_servers (map name ds) = set_servers l2.
  Proof.
    intro Hp. destruct names_strict_total as [Ha Ht].
    apply go_isort_order_independent; assumption.
  Qed.
End Names.

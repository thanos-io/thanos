(* C17 — BucketedPool accounting (one caller, then any interleaving of callers), ShardMatcher
   buffers and the requests that use them, and the order of release in respSet.Close. *)
From Coq Require Import String.
From Coq Require Import NArith List Bool Lia Permutation.
Import ListNotations.
From Verif Require Import Lib.Corr Lib.ListFacts Gen.C17 Model.C17.
Open Scope N_scope.

Lemma sum_app l1 l2 : sum_n (l1 ++ l2) = sum_n l1 + sum_n l2.
Proof. induction l1 as [|x l1 IH]; cbn [app sum_n]; [reflexivity|]. rewrite IH. lia. Qed.

Lemma sum_remove_nth : forall l k c, nth_error l k = Some c -> sum_n l = c + sum_n (remove_nth k l).
Proof.
  induction l as [|x l IH]; intros [|k] c H; cbn in H; try discriminate.
  - inversion H; subst. reflexivity.
  - cbn [remove_nth sum_n]. rewrite (IH k c H). lia.
Qed.

Lemma sum_nth_le : forall l k c, nth_error l k = Some c -> c <= sum_n l.
Proof. intros l k c H. rewrite (sum_remove_nth l k c H). lia. Qed.

Lemma remove_nth_none {A} : forall (l : list A) k, nth_error l k = None -> remove_nth k l = l.
Proof.
  induction l as [|x l IH]; intros [|k] H; cbn in *; try reflexivity; try discriminate.
  f_equal. apply IH. exact H.
Qed.

Lemma set_nth_same {A} : forall (l : list A) m v, nth_error l m = Some v -> set_nth m v l = l.
Proof.
  induction l as [|x l IH]; intros [|m] v H; cbn in *; try discriminate.
  - inversion H; reflexivity.
  - f_equal. apply IH. exact H.
Qed.

(* the accounting invariant: usedTotal [u] is exactly the capacity handed out and not returned,
   and within the budget. One caller holds [out st], the other callers [rest] (none when the
   pool has a single user), so the same two step lemmas serve the single caller and the
   interleaved callers. *)
Definition budget (maxt u held : N) : Prop := u = held /\ (maxt = 0 \/ u <= maxt).

Lemma budget_zero maxt : budget maxt 0 0.
Proof. split; [reflexivity|]. right. apply N.le_0_l. Qed.

Lemma budget_bool maxt u held : budget maxt u held -> ((maxt =? 0) || (u <=? maxt)) && (u =? held) = true.
Proof.
  intros [-> B]. rewrite N.eqb_refl, andb_true_r.
  destruct B as [->|B]; [reflexivity|]. apply N.leb_le in B. rewrite B. apply orb_true_r.
Qed.

Lemma budget_nonzero maxt u held : budget maxt u held -> u = held /\ (maxt <> 0 -> u <= maxt).
Proof. intros [E [B|B]]; split; [assumption|contradiction|assumption|trivial]. Qed.

Lemma pget_out sizes maxt st sz st' :
  pget true sizes maxt st sz = Some st' -> out st' = out st ++ [charge sizes sz].
Proof. unfold pget. destruct (_ && _); [discriminate|]. intros [= <-]. reflexivity. Qed.

Lemma pget_budget sizes maxt st sz st' rest :
  pget true sizes maxt st sz = Some st' -> budget maxt (used st) (rest + sum_n (out st)) ->
  budget maxt (used st') (rest + sum_n (out st')).
Proof.
  unfold pget. destruct (_ && _) eqn:E; [discriminate|]. intros [= <-] [I _]. cbn [used out].
  split; [rewrite sum_app; cbn [sum_n]; lia|].
  apply andb_false_iff in E as [E|E]; apply N.ltb_ge in E; [left; lia|right; exact E].
Qed.

Lemma pget_none sizes maxt st sz : pget true sizes maxt st sz = None -> maxt <> 0 /\ maxt < used st + charge sizes sz.
Proof.
  unfold pget. destruct ((0 <? maxt) && (maxt <? used st + charge sizes sz)) eqn:E; [|discriminate].
  intros _. apply andb_true_iff in E as [E1 E2]. apply N.ltb_lt in E1, E2. lia.
Qed.

Lemma pput_out st k : out (pput st k) = remove_nth k (out st).
Proof.
  unfold pput. destruct (nth_error (out st) k) eqn:E; [reflexivity|]. symmetry. apply remove_nth_none, E.
Qed.

(* the clamp in Put never fires: the slice returned is part of what is accounted *)
Lemma pput_budget maxt st k rest :
  budget maxt (used st) (rest + sum_n (out st)) -> budget maxt (used (pput st k)) (rest + sum_n (out (pput st k))).
Proof.
  intros [I B]. unfold pput. destruct (nth_error (out st) k) as [c|] eqn:E; [|split; assumption].
  cbn [used out]. pose proof (sum_remove_nth _ _ _ E) as S.
  destruct (used st <=? c) eqn:L; [apply N.leb_le in L|apply N.leb_gt in L]; split; lia.
Qed.

Definition pinv (maxt : N) (st : pstate) : Prop := budget maxt (used st) (sum_n (out st)).

Lemma pfinal_inv sizes maxt : forall ops st, pinv maxt st -> pinv maxt (pfinal true sizes maxt st ops).
Proof.
  induction ops as [|[sz|k] r IH]; intros st I; cbn [pfinal]; [exact I| |].
  - destruct (pget true sizes maxt st sz) as [st'|] eqn:E; apply IH; [|exact I].
    exact (pget_budget _ _ _ _ _ 0 E I).
  - apply IH. exact (pput_budget _ _ _ 0 I).
Qed.

(* every reachable state: usage = capacities handed out and not returned; within the budget;
   zero when everything is returned *)
Lemma pool_invariant sizes maxt ops :
  let st := pfinal true sizes maxt pinit ops in
  used st = sum_n (out st) /\ (maxt <> 0 -> used st <= maxt) /\ (out st = [] -> used st = 0).
Proof.
  cbn zeta. destruct (budget_nonzero _ _ _ (pfinal_inv sizes maxt ops pinit (budget_zero maxt))) as [I1 I2].
  split; [exact I1|]. split; [exact I2|]. intro E. rewrite I1, E. reflexivity.
Qed.

Lemma pool_pred_ok sizes maxt : forall ops st, pinv maxt st ->
  pool_pred maxt (out st) ops (prun true sizes maxt st ops) = true.
Proof.
  induction ops as [|[sz|k] r IH]; intros st I; cbn [prun pool_pred]; [reflexivity| |].
  - destruct (pget true sizes maxt st sz) as [st'|] eqn:E; cbn [pool_pred].
    + pose proof (pget_budget _ _ _ _ _ 0 E I : pinv maxt st') as I'.
      rewrite <- (pget_out _ _ _ _ _ E), (IH st' I'), andb_true_r. apply budget_bool, I'.
    + rewrite (IH st I), andb_true_r. apply budget_bool, I.
  - pose proof (pput_budget _ _ k 0 I : pinv maxt (pput st k)) as I'.
    cbn [pool_pred]. rewrite <- pput_out, (IH _ I'), andb_true_r. apply budget_bool, I'.
Qed.

Lemma pool_case_pred sizes maxt ops : pred_ok (CPool sizes maxt ops (prun true sizes maxt pinit ops)) = true.
Proof. exact (pool_pred_ok sizes maxt ops pinit (budget_zero maxt)). Qed.

(* before the fix: maxTotal 10, buckets 8 and 16, Get(9) leaves 16 used *)
Lemma pool_unfixed_refuted :
  used (pfinal false [8; 16] 10 pinit [PGet 9]) = 16 /\ pget true [8; 16] 10 pinit 9 = None.
Proof. split; reflexivity. Qed.

Lemma remove_one_perm : forall l x l', remove_one x l = Some l' -> Permutation l (x :: l').
Proof.
  induction l as [|y l IH]; intros x l' H; cbn [remove_one] in H; [discriminate|].
  destruct (y =? x) eqn:E.
  - apply N.eqb_eq in E. inversion H; subst. reflexivity.
  - destruct (remove_one x l) as [r|] eqn:R; [|discriminate]. inversion H; subst.
    rewrite (IH x r R). apply perm_swap.
Qed.

Lemma remove_one_none : forall l x, remove_one x l = None -> ~ In x l.
Proof.
  induction l as [|y l IH]; intros x H; cbn [remove_one] in H; [intros []|].
  destruct (y =? x) eqn:E; [discriminate|]. apply N.eqb_neq in E.
  destruct (remove_one x l) eqn:R; [discriminate|]. intros [->|Hin]; [congruence|]. apply (IH x R Hin).
Qed.

Lemma somes_app l1 l2 : somes (l1 ++ l2) = somes l1 ++ somes l2.
Proof. induction l1 as [|[x|] l1 IH]; cbn [app somes]; [reflexivity| |]; rewrite IH; reflexivity. Qed.

Lemma somes_set_none : forall l m id, nth_error l m = Some (Some id) ->
  Permutation (somes l) (id :: somes (set_nth m None l)).
Proof.
  induction l as [|x l IH]; intros [|m] id H; cbn in H; try discriminate.
  - inversion H; subst. cbn [set_nth somes]. reflexivity.
  - cbn [set_nth]. destruct x as [y|]; cbn [somes].
    + rewrite (IH m id H). apply perm_swap.
    + apply (IH m id H).
Qed.

(* the buffers that exist: pooled, or held by a matcher that was not closed *)
Definition ids (st : mstate) : list N := mpool st ++ somes (held st).

Lemma mstep_ids st o st' : mstep true st o = Some st' ->
  (Permutation (ids st) (ids st') /\ fresh st' = fresh st) \/
  (Permutation (fresh st :: ids st) (ids st') /\ fresh st' = fresh st + 1).
Proof.
  unfold ids. destruct o as [[|] id|m]; cbn [mstep].
  - destruct (remove_one id (mpool st)) as [p'|] eqn:R.
    + intros [= <-]. left. split; [|reflexivity]. cbn [mpool held].
      rewrite somes_app, (remove_one_perm _ _ _ R), app_assoc. apply Permutation_cons_append.
    + destruct (id =? fresh st) eqn:E; [|discriminate]. apply N.eqb_eq in E as ->.
      intros [= <-]. right. split; [|reflexivity]. cbn [mpool held].
      rewrite somes_app, app_assoc. apply Permutation_cons_append.
  - intros [= <-]. left. cbn [mpool held]. rewrite somes_app, app_nil_r. split; reflexivity.
  - destruct (nth_error (held st) m) as [[id|]|] eqn:E; [| |discriminate]; intros [= <-]; left; (split; [|reflexivity]).
    + cbn [mpool held]. rewrite (somes_set_none _ _ _ E). symmetry. apply Permutation_middle.
    + reflexivity.
Qed.

Definition minv (st : mstate) : Prop := NoDup (ids st) /\ Forall (fun x => x < fresh st) (ids st).

Lemma mstep_inv st o st' : minv st -> mstep true st o = Some st' -> minv st'.
Proof.
  intros [I1 I2] H. unfold minv. destruct (mstep_ids _ _ _ H) as [[P ->]|[P ->]].
  - split; [exact (Permutation_NoDup P I1)|exact (Permutation_Forall P I2)].
  - split.
    + apply (Permutation_NoDup P). constructor; [|exact I1].
      intro Hin. rewrite Forall_forall in I2. apply I2 in Hin. lia.
    + apply (Permutation_Forall P). constructor; [lia|].
      eapply Forall_impl; [|exact I2]. cbn. intros; lia.
Qed.

Lemma mrun_inv : forall ops st st', minv st -> mrun true st ops = Some st' -> minv st'.
Proof.
  induction ops as [|o r IH]; intros st st' I H; cbn [mrun] in H; [inversion H; subst; exact I|].
  destruct (mstep true st o) as [s1|] eqn:E; [|discriminate]. apply (IH s1 st' (mstep_inv st o s1 I E) H).
Qed.

Lemma minit_inv : minv minit.
Proof. split; cbn; constructor. Qed.

(* with the fix: in every reachable state no buffer is in the pool twice and none is both
   in the pool and held by a matcher that was not closed, whatever the number of Close calls *)
Lemma shard_single_put ops st : mrun true minit ops = Some st -> NoDup (mpool st ++ somes (held st)).
Proof. intro H. apply (mrun_inv ops minit st minit_inv H). Qed.

Lemma held_open_spec : forall ops st st', mrun true st ops = Some st' -> held st' = held_open ops (held st).
Proof.
  induction ops as [|o r IH]; intros st st' H; cbn [mrun held_open] in *; [inversion H; reflexivity|].
  destruct (mstep true st o) as [s1|] eqn:E; [|discriminate]. rewrite (IH s1 st' H). f_equal.
  destruct o as [[|] id|m]; cbn [mstep] in E.
  - destruct (remove_one id (mpool st)); [inversion E; reflexivity|].
    destruct (id =? fresh st); [inversion E; reflexivity|discriminate].
  - inversion E; reflexivity.
  - destruct (nth_error (held st) m) as [[id|]|] eqn:N; [| |discriminate].
    + inversion E; reflexivity.
    + inversion E; subst. f_equal. symmetry. apply set_nth_same. exact N.
Qed.

Lemma insert_sorted_ins x l : insert_sorted x l = ins N.leb x l.
Proof. induction l as [|y l IH]; cbn; [|rewrite IH]; reflexivity. Qed.

Lemma sort_n_isort l : sort_n l = isort N.leb l.
Proof.
  induction l as [|x l IH]; [reflexivity|].
  change (insert_sorted x (sort_n l) = ins N.leb x (isort N.leb l)). rewrite IH. apply insert_sorted_ins.
Qed.

Lemma nodup_n_spec l : nodup_n l = true <-> NoDup l.
Proof.
  induction l as [|a r IH]; cbn [nodup_n]; [split; [constructor|reflexivity]|].
  rewrite andb_true_iff, negb_true_iff, IH. split.
  - intros [H1 H2]. constructor; [|exact H2]. intro Hin.
    assert (existsb (N.eqb a) r = true) by (apply existsb_exists; exists a; split; [exact Hin|apply N.eqb_refl]). congruence.
  - intro H. inversion H as [|? ? Hn Hnd]; subst. split; [|exact Hnd].
    destruct (existsb (N.eqb a) r) eqn:E; [|reflexivity].
    apply existsb_exists in E as (x & Hx & Ex). apply N.eqb_eq in Ex. subst. contradiction.
Qed.

Lemma shard_case_pred ops st : mrun true minit ops = Some st ->
  pred_ok (CShard ops (sort_n (mpool st))) = true.
Proof.
  intro H. cbn [pred_ok]. apply nodup_n_spec.
  rewrite <- (held_open_spec ops minit st H : held st = held_open ops []).
  apply (Permutation_NoDup (l := mpool st ++ somes (held st))).
  - apply Permutation_app_tail. rewrite sort_n_isort. symmetry. apply isort_perm.
  - apply (shard_single_put ops st H).
Qed.

Lemma pxstep_mstep st e st' : pxstep true st e = Some st' ->
  exists o, mstep true (px_m st) o = Some (px_m st').
Proof.
  destruct e as [req sh got|req sh got|req k site]; cbn [pxstep].
  3: destruct (nth_error (sets_of req (px_sets st)) k); [|discriminate].
  all: destruct (mstep true (px_m st) _) eqn:M; [|discriminate]; intros [= <-]; eexists; exact M.
Qed.

Lemma pxrun_mrun : forall es st st', pxrun true st es = Some st' ->
  exists ops, mrun true (px_m st) ops = Some (px_m st').
Proof.
  induction es as [|e r IH]; intros st st' H; cbn [pxrun] in H; [exists []; inversion H; reflexivity|].
  destruct (pxstep true st e) as [s1|] eqn:E; [|discriminate].
  destruct (pxstep_mstep _ _ _ E) as [o Ho], (IH s1 st' H) as [ops Hr].
  exists (o :: ops). cbn [mrun]. rewrite Ho. exact Hr.
Qed.

(* every reachable state of any number of interleaved requests — response sets opened, dropped
   unopened, closed any number of times from any of the call sites — has each buffer at most
   once in the pool, and no pooled buffer is held by an open response set *)
Lemma px_single_put es st : pxrun true pxinit es = Some st ->
  NoDup (mpool (px_m st) ++ somes (held (px_m st))).
Proof. intro H. destruct (pxrun_mrun _ _ _ H) as [ops Hm]. exact (shard_single_put ops _ Hm). Qed.

Lemma proxy_case_pred reqs k nfail sharded st :
  pxrun true pxinit (px_requests reqs k nfail sharded 0 0) = Some st ->
  pred_ok (CProxy reqs k nfail sharded (negb (nodup_n (mpool (px_m st))))) = true.
Proof.
  intro H. cbn [pred_ok]. rewrite negb_involutive. apply nodup_n_spec.
  exact (proj1 (proj1 (NoDup_app_iff _ _) (px_single_put _ _ H))).
Qed.

Lemma px_unfixed_refuted :
  option_map (fun st => mpool (px_m st))
    (pxrun false pxinit [EvOpen 0 true 0; EvClose 0 0 CSExhausted; EvClose 0 0 CSDeferred]) = Some [0; 0] /\
  option_map (fun st => mpool (px_m st))
    (pxrun true pxinit [EvOpen 0 true 0; EvOpenFail 0 true 1; EvOpen 1 true 2; EvClose 0 0 CSExhausted; EvClose 1 0 CSErrorPath;
                        EvClose 0 0 CSDeferred; EvClose 1 0 CSTreeClose; EvClose 1 0 CSDeferred]) = Some [2; 0].
Proof. split; reflexivity. Qed.

(* membership decided by comparing, wherever in the list the element stands *)
Lemma In_eqb {A} (eqb : A -> A -> bool) : (forall x y, eqb x y = true <-> x = y) ->
  forall x l, existsb (eqb x) l = true -> In x l.
Proof. intros E x l H. apply existsb_exists in H as (y & Hin & Hy). apply E in Hy as ->. exact Hin. Qed.

Definition In_string := In_eqb String.eqb String.eqb_eq.
Definition In_event := In_eqb _ (pair_eqb_spec String.eqb String.eqb String.eqb_eq String.eqb_eq).

(* the loser tree's close callback and both retrieval strategies reach shardMatcher.Close *)
Lemma matcher_close_reached :
  In "s.Close"%string loserTreeCloseCalls /\
  In "l.shardMatcher.Close"%string lazyRespSetCloseCalls /\ In "l.shardMatcher.Close"%string eagerRespSetCloseCalls.
Proof. repeat split; apply In_string; reflexivity. Qed.

(* the call sites of the model's close_site, in the source *)
Lemma close_sites_in_source :
  loserTreeCloseSites = ["Close: t.close(e.items)"; "moveNext: t.close(n.items)"]%string /\
  proxySeriesCloseCalls = ["defer respSet.Close"]%string /\
  bucketSeriesCloseCalls = ["defer blockClient.Close"; "call resp.Close"; "defer lt.Close"]%string /\
  newAsyncRespSetCloseCalls = []%string /\
  newAsyncRespSetOpenEvents =
    [("call", "storeInfo"); ("call", "grpc_opentracing.ClientAddContextTags"); ("call", "context.WithCancel");
     ("call", "shardInfo.Matcher"); ("call", "st.SupportsSharding"); ("if", "applySharding"); ("call", "st.String");
     ("call", "level.Debug"); ("call", "level.Debug().Log"); ("endif", ""); ("call", "st.Series"); ("if", "err != nil");
     ("call", "errors.Wrapf"); ("call", "cancel"); ("return", "nil, err"); ("endif", "")]%string /\
  In "s.Close"%string loserTreeCloseCalls /\
  In "l.shardMatcher.Close"%string lazyRespSetCloseCalls /\ In "l.shardMatcher.Close"%string eagerRespSetCloseCalls.
Proof. do 5 (split; [reflexivity|]). exact matcher_close_reached. Qed.

(* before the fix: one matcher closed twice leaves its buffer in the pool twice, and the next
   two matchers both get it *)
Lemma shard_unfixed_refuted :
  option_map mpool (mrun false minit [MNew true 0; MClose 0; MClose 0]) = Some [0; 0] /\
  option_map (fun st => somes (held st)) (mrun false minit [MNew true 0; MClose 0; MClose 0; MNew true 0; MNew true 0])
    = Some [0; 0; 0] /\
  option_map mpool (mrun true minit [MNew true 0; MClose 0; MClose 0]) = Some [0].
Proof. repeat split; reflexivity. Qed.

Lemma source_shape :
  poolUsedTotalUpdates = ["p.usedTotal += uint64(cap(*b))"; "p.usedTotal += uint64(sz)"; "p.usedTotal = 0";
                          "p.usedTotal -= uint64(sz)"]%string /\
  In ("if", "p.maxTotal > 0 && p.usedTotal+uint64(bktSize) > p.maxTotal")%string poolGetEvents /\
  In ("if", "p.maxTotal > 0 && p.usedTotal+uint64(sz) > p.maxTotal")%string poolGetEvents /\
  shardMatcherCloseEvents = [("if", "s == nil"); ("return", ""); ("endif", ""); ("if", "s.buffers != nil");
                             ("call", "s.buffers.Put"); ("endif", "")]%string /\
  shardMatcherCloseAssigns = ["s.buffers = nil"]%string /\
  In "respSet.Close"%string proxySeriesDefers /\ In "s.Close"%string loserTreeCloseCalls /\
  In "l.shardMatcher.Close"%string lazyRespSetCloseCalls /\ In "l.shardMatcher.Close"%string eagerRespSetCloseCalls.
Proof.
  split; [reflexivity|]. do 2 (split; [apply In_event; reflexivity|]). do 2 (split; [reflexivity|]).
  split; [apply In_string; reflexivity|]. exact matcher_close_reached.
Qed.

(* what the threads other than i hold together *)
Lemma total_split : forall outs i o, nth_error outs i = Some o ->
  exists rest, forall o', total_out (set_nth i o' outs) = rest + sum_n o'.
Proof.
  unfold total_out. induction outs as [|x outs IH]; intros [|i] o H; cbn in H; try discriminate.
  - exists (sum_n (map sum_n outs)). intro o'. apply N.add_comm.
  - destruct (IH i o H) as [rest E]. exists (sum_n x + rest). intro o'.
    cbn [set_nth map sum_n]. rewrite E. apply N.add_assoc.
Qed.

Definition tinv (maxt : N) (st : tstate) : Prop := budget maxt (t_used st) (total_out (t_outs st)).

Lemma tstep_inv sizes maxt st i : tinv maxt st -> tinv maxt (fst (tstep true sizes maxt st i)).
Proof.
  intros I. unfold tstep.
  destruct (nth_error (t_progs st) i) as [[|o rest]|]; try exact I.
  destruct (nth_error (t_outs st) i) as [outs|] eqn:Eo; [|exact I].
  destruct (total_split _ _ _ Eo) as [others E]. pose proof I as J. unfold tinv in *.
  rewrite <- (set_nth_same _ _ _ Eo), E in J.
  destruct o as [sz|k].
  - destruct (pget true sizes maxt (mkP (t_used st) outs) sz) as [p'|] eqn:G; cbn [fst t_used t_outs]; [|exact I].
    rewrite E. exact (pget_budget _ _ (mkP (t_used st) outs) _ _ others G J).
  - cbn [fst t_used t_outs]. rewrite E. exact (pput_budget _ (mkP (t_used st) outs) k others J).
Qed.

Lemma tfinal_inv sizes maxt : forall sched st, tinv maxt st -> tinv maxt (tfinal true sizes maxt st sched).
Proof.
  induction sched as [|i r IH]; intros st I; cbn [tfinal]; [exact I|]. apply IH. apply tstep_inv. exact I.
Qed.

Lemma tinit_inv maxt threads : tinv maxt (tinit threads).
Proof.
  unfold tinv, tinit, total_out. cbn [t_used t_outs].
  replace (sum_n _) with 0; [apply budget_zero|]. induction threads; cbn; auto.
Qed.

(* for every set of threads and EVERY interleaving of their atomic Get/Put steps: UsedBytes equals
   the capacities checked out by all threads together and never exceeds maxTotal *)
Lemma concurrent_budget sizes maxt threads sched :
  let st := tfinal true sizes maxt (tinit threads) sched in
  t_used st = total_out (t_outs st) /\ (maxt <> 0 -> t_used st <= maxt).
Proof. exact (budget_nonzero _ _ _ (tfinal_inv sizes maxt sched _ (tinit_inv maxt threads))). Qed.

Lemma trun_cons fixed sizes maxt st i r :
  trun fixed sizes maxt st (i :: r) =
  snd (tstep fixed sizes maxt st i) :: trun fixed sizes maxt (fst (tstep fixed sizes maxt st i)) r.
Proof. cbn [trun]. destruct (tstep fixed sizes maxt st i). reflexivity. Qed.

(* replaying the observation of a step rebuilds the state the step leads to *)
Lemma sched_pred_step sizes maxt st i r obs :
  sched_pred maxt (t_outs st) (t_progs st) (i :: r) (snd (tstep true sizes maxt st i) :: obs) =
  let st' := fst (tstep true sizes maxt st i) in
  ((maxt =? 0) || (t_used st' <=? maxt)) && (t_used st' =? total_out (t_outs st'))
  && sched_pred maxt (t_outs st') (t_progs st') r obs.
Proof.
  unfold tstep.
  destruct (nth_error (t_progs st) i) as [[|o rest]|] eqn:Ep; cbn [fst snd sched_pred]; rewrite Ep; try reflexivity.
  destruct (nth_error (t_outs st) i) as [outs|] eqn:Eo; [|reflexivity].
  destruct o as [sz|k].
  - destruct (pget true sizes maxt (mkP (t_used st) outs) sz) as [p'|] eqn:G; cbn [fst snd t_used t_outs t_progs].
    + rewrite (pget_out _ _ _ _ _ G). reflexivity.
    + rewrite (set_nth_same _ _ _ Eo). reflexivity.
  - cbn [fst snd t_used t_outs t_progs]. rewrite pput_out. reflexivity.
Qed.

Lemma sched_pred_ok sizes maxt : forall sched st, tinv maxt st ->
  sched_pred maxt (t_outs st) (t_progs st) sched (trun true sizes maxt st sched) = true.
Proof.
  induction sched as [|i r IH]; intros st I; [reflexivity|].
  pose proof (tstep_inv sizes maxt st i I) as I'.
  rewrite trun_cons, sched_pred_step. cbn zeta. rewrite (budget_bool _ _ _ I'). apply IH, I'.
Qed.

Lemma sched_case_pred sizes maxt threads sched :
  pred_ok (CSched sizes maxt threads sched (trun true sizes maxt (tinit threads) sched)) = true.
Proof. cbn [pred_ok]. apply (sched_pred_ok sizes maxt sched (tinit threads) (tinit_inv maxt threads)). Qed.

(* a Get cut into "test the budget" and, later, "account": two Get(80) on buckets 10/20/40/80 with
   maxTotal 100 both pass the test of the same state (the test is pget's), and both charges land *)
Lemma split_get_refuted :
  pget true [10; 20; 40; 80] 100 (mkP 0 []) 80 <> None /\ (* thread A: test passes on usedTotal = 0 *)
  pget true [10; 20; 40; 80] 100 (mkP 0 []) 80 <> None /\ (* thread B: test passes on the same usedTotal = 0 *)
  0 + charge [10; 20; 40; 80] 80 + charge [10; 20; 40; 80] 80 = 160 /\ 100 < 160 /\
  (* whereas atomically the second Get is refused *)
  pget true [10; 20; 40; 80] 100 (mkP 80 [80]) 80 = None.
Proof. repeat split; try discriminate; reflexivity. Qed.

Lemma concurrent_nonvacuous :
  trun true [10; 20; 40; 80] 100 (tinit [[TGet 80; TPut 0%nat]; [TGet 80; TGet 20]]) [0; 1; 1; 0; 1]%nat
    = [(true, 80, 80); (false, 0, 80); (true, 20, 100); (true, 0, 20); (true, 0, 20)].
Proof. reflexivity. Qed.

(* tie T: Get takes the pool's lock first and releases it by defer; the budget tests and the
   accounting are written inline in between (no other lock operation in Get) *)
Lemma get_critical_section :
  poolGetEvents =
    [("call", "p.mtx.Lock"); ("defer", "p.mtx.Unlock"); ("for", "range"); ("if", "sz > bktSize"); ("endif", "");
     ("call", "uint64"); ("if", "p.maxTotal > 0 && p.usedTotal+uint64(bktSize) > p.maxTotal");
     ("return", "nil, ErrPoolExhausted"); ("endif", ""); ("call", "p.buckets.Get"); ("if", "!ok"); ("call", "p.new");
     ("endif", ""); ("call", "cap"); ("call", "uint64"); ("return", "b, nil"); ("endfor", ""); ("call", "uint64");
     ("if", "p.maxTotal > 0 && p.usedTotal+uint64(sz) > p.maxTotal"); ("return", "nil, ErrPoolExhausted"); ("endif", "");
     ("call", "uint64"); ("call", "p.new"); ("return", "p.new(sz), nil")]%string /\
  (exists pre, poolPutEvents = pre ++ [("call", "p.mtx.Lock"); ("defer", "p.mtx.Unlock"); ("call", "uint64");
     ("if", "uint64(sz) >= p.usedTotal"); ("else", ""); ("call", "uint64"); ("endif", "")]%string).
Proof. split; [reflexivity|]. eexists (firstn 9 poolPutEvents). reflexivity. Qed.

Lemma no_write_when_stopped : forall fuel sched step closer writes b,
  write_after_put b (trun_close fuel sched step closer writes true) = false.
Proof.
  induction fuel as [|f IH]; intros sched step closer writes b; cbn [trun_close]; [reflexivity|].
  destruct closer as [|a r].
  - destruct (sched step); reflexivity.
  - destruct a; destruct (sched step); cbn [write_after_put]; apply IH.
Qed.

(* a closer that waits next cannot move before the receiver has stopped, and after that
   nothing writes: what follows the wait does not matter *)
Lemma fixed_from_wait : forall fuel sched step rest writes stopped,
  write_after_put false (trun_close fuel sched step (CWait :: rest) writes stopped) = false.
Proof.
  induction fuel as [|f IH]; intros sched step rest writes stopped; cbn [trun_close]; [reflexivity|].
  destruct stopped.
  - destruct (sched step); cbn [write_after_put]; apply no_write_when_stopped.
  - destruct (sched step); destruct writes as [|w]; cbn [write_after_put orb]; apply IH.
Qed.

(* Close as written in the source (cancel, wait for the receive goroutine, Put, CloseSend): for
   EVERY interleaving with a receive goroutine that still handles any number of messages, nothing
   writes into the buffer after it went back to the pool *)
Lemma put_after_receiver fuel sched writes :
  write_after_put false (trun_close fuel sched 0 close_fixed writes false) = false.
Proof.
  unfold close_fixed. generalize 0%nat as step. revert writes.
  induction fuel as [|f IH]; intros writes step; cbn [trun_close]; [reflexivity|].
  destruct (sched step); destruct writes as [|w]; cbn [write_after_put orb].
  - apply fixed_from_wait.
  - apply fixed_from_wait.
  - apply no_write_when_stopped.
  - apply IH.
Qed.

(* with the Put moved before the wait, the schedule "closer, closer, then the receiver" writes
   into a buffer that is already pooled (and may be another request's by then) *)
Lemma early_put_refuted :
  trun_close 10 (fun s => Nat.ltb s 2) 0 close_early_put 1 false
    = [TAct CCancel; TAct CPut; TWrite; TStop; TAct CCloseSend; TAct CWait] /\
  write_after_put false (trun_close 10 (fun s => Nat.ltb s 2) 0 close_early_put 1 false) = true.
Proof. split; reflexivity. Qed.

(* tie T: the statements of the two Close methods, in source order *)
Lemma close_stmts_in_source :
  lazyCloseStmts = ["l.bufferedResponsesMtx.Lock()"; "l.closeSeries()"; "l.rb.close()"; "l.noMoreData = true";
                    "l.dataOrFinishEvent.Signal()"; "l.bufferedResponsesMtx.Unlock()"; "<-l.donec";
                    "l.shardMatcher.Close()"; "_ = l.cl.CloseSend()"]%string /\
  eagerCloseStmts = ["if l.closeSeries != nil { l.closeSeries() }"; "l.wg.Wait()"; "l.shardMatcher.Close()";
                     "_ = l.cl.CloseSend()"]%string.
Proof. split; reflexivity. Qed.

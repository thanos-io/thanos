(* C04 — identical replicas, arbitrary non-overlapping cuts, any number of
   logical series: what Select returns with deduplication on, and, for one
   logical series, that this output passes the correspondence check and the
   predicate. *)
From Coq Require Import ZArith List Bool NArith Lia Sorting.Sorted Permutation.
Import ListNotations.
From Verif Require Import Lib.Corr Gen.C04 Model.C04 Proofs.C04 Proofs.C04_Cuts.
Open Scope Z_scope.

(* one logical series: labels without replica labels, the samples L every
   replica holds, the chunk lists of its replicas (the cuts), and what the proxy
   hands over for it *)
Record item := mkItem { i_lbl : labels; i_L : list sample; i_reps : list (list chunk); i_cs : list chunk }.

(* the replicas are cuts of L; the proxy output passes exactly the checks of
   Model.proxy_ok_dedup for this series *)
Definition item_ok (x : item) : Prop :=
  rawstream (i_L x) /\ i_L x <> [] /\ i_reps x <> [] /\ Forall (cut (i_L x)) (i_reps x)
  /\ chunks_sorted (i_cs x) = true
  /\ forallb (fun c => mem_chunk c (concat (i_reps x))) (i_cs x) = true
  /\ forallb (fun c => mem_samples (csamples c) (i_cs x)) (concat (i_reps x)) = true.

Definition ws_of (x : item) : list (list sample) := tl (map chunk_iter (overlap_split (i_cs x))).

Lemma item_split x : item_ok x ->
  map chunk_iter (overlap_split (i_cs x)) = i_L x :: ws_of x /\ Forall (fun w => sub w (i_L x)) (ws_of x).
Proof.
  intros (Hraw & HneL & Hner & Hcuts & Hsort & Hb1 & Hb2).
  destruct (logical_props _ _ _ Hraw HneL Hner Hcuts (proxy_bools_rel _ _ Hb1 Hb2))
    as (Hgood & Hav & Hnext & Hnecs).
  destruct (split_complete _ _ Hraw Hnecs (chunks_sorted_SS _ Hsort) Hgood Hav Hnext) as (ws & E & Hsub).
  unfold ws_of. rewrite E. simpl. auto.
Qed.

Fixpoint adj_distinct (l : list labels) : Prop :=
  match l with
  | a :: r => match r with b :: _ => labels_eqb a b = false | [] => True end /\ adj_distinct r
  | [] => True
  end.

Definition subs_of (items : list item) : list (labels * list sample) :=
  flat_map (fun s : pseries => map (fun r => (fst s, chunk_iter r)) (overlap_split (snd s)))
           (map (fun x => (i_lbl x, i_cs x)) items).

Lemma subs_of_cons x items :
  subs_of (x :: items)
  = map (fun w => (i_lbl x, w)) (map chunk_iter (overlap_split (i_cs x))) ++ subs_of items.
Proof. unfold subs_of. cbn [map flat_map fst snd]. rewrite map_map. reflexivity. Qed.

Lemma group_items : forall items,
  Forall item_ok items -> adj_distinct (map i_lbl items) ->
  group_adj (subs_of items) = map (fun x => (i_lbl x, i_L x :: ws_of x)) items.
Proof.
  induction items as [|x items IH]; intros HF Hd; [reflexivity|].
  inversion HF as [|? ? Hx HF']; subst. destruct Hd as [Hd1 Hd2].
  rewrite subs_of_cons.
  destruct (item_split x Hx) as [E _]. rewrite E.
  rewrite group_adj_block.
  - rewrite (IH HF' Hd2). reflexivity.
  - rewrite (IH HF' Hd2). destruct items as [|x' items']; [exact I|]. exact Hd1.
Qed.

Theorem select_identical_replicas mint maxt items :
  Forall item_ok items -> adj_distinct (map i_lbl items) ->
  select mint maxt true (map (fun x => (i_lbl x, i_cs x)) items)
  = Some (map (fun x => (i_lbl x, in_range mint maxt (i_L x))) items).
Proof.
  intros HF Hd. unfold select. cbv zeta.
  change (flat_map _ (map (fun x => (i_lbl x, i_cs x)) items)) with (subs_of items).
  rewrite (group_items items HF Hd).
  clear Hd. induction items as [|x items IH]; [reflexivity|].
  inversion HF as [|? ? Hx HF']; subst. cbn [map sequence fst snd].
  destruct (item_split x Hx) as [_ Hsub]. destruct Hx as (Hraw & _).
  rewrite (series_samples_total mint maxt _ _ Hraw Hsub).
  rewrite (IH HF'). reflexivity.
Qed.

Lemma samples_eqb_refl l : samples_eqb l l = true.
Proof. apply samples_eqb_iff. reflexivity. Qed.

Lemma SS_strictly_sorted : forall l, SS l -> strictly_sorted l = true.
Proof.
  induction l as [|x l IH]; intros HS; [reflexivity|].
  pose proof (SS_tail_gt _ _ HS) as HF. apply SS_inv in HS as [HS _].
  cbn [strictly_sorted]. destruct l as [|y l']; [reflexivity|].
  rewrite (IH HS), (proj2 (Z.ltb_lt _ _) (HF y (or_introl eq_refl))). reflexivity.
Qed.

Theorem single_series_checks mint maxt s cs L :
  l_reps s <> [] -> Forall (fun r => r_samples r = L) (l_reps s) ->
  item_ok (mkItem (l_labels s) L (map r_chunks (l_reps s)) cs) ->
  nodup_samples cs = true ->
  let out := [(l_labels s, in_range mint maxt L)] in
  corr_ok (CDedup mint maxt [s] [(l_labels s, cs)] out) = true
  /\ pred_ok (CDedup mint maxt [s] [(l_labels s, cs)] out) = true.
Proof.
  intros Hne Hsame Hok Hnd out.
  pose proof Hok as (Hraw & HneL & _ & _ & Hsort & Hb1 & Hb2). cbn [i_L i_reps i_cs] in *.
  pose proof (select_identical_replicas mint maxt [mkItem (l_labels s) L (map r_chunks (l_reps s)) cs]
                (Forall_cons _ Hok (Forall_nil _)) (conj I I)) as Hsel.
  cbn [map i_lbl i_cs i_L] in Hsel.
  split.
  - cbn [corr_ok]. rewrite Hsel. unfold out, oseries_eqb. cbn [option_eqb list_eqb fst snd].
    rewrite labels_eqb_refl, samples_eqb_refl. cbn [andb]. rewrite andb_true_r.
    unfold proxy_ok_dedup. cbn [map fst nodup_labels existsb negb andb length Nat.eqb forallb].
    unfold find_series. cbn [find fst]. rewrite labels_eqb_refl. cbn [option_map snd].
    rewrite Hsort, Hnd, flat_map_concat_map, Hb1, Hb2. reflexivity.
  - cbn [pred_ok]. unfold out. cbn [map fst nodup_labels existsb negb andb length Nat.eqb forallb].
    unfold find_out. cbn [find fst]. rewrite labels_eqb_refl. cbn [option_map snd].
    rewrite SS_strictly_sorted by (eapply SS_sub; [apply in_range_sub|apply Hraw]).
    unfold identical. destruct (l_reps s) as [|r0 rest]; [congruence|].
    inversion Hsame as [|? ? H0 Hrest]; subst.
    assert (Hall : forallb (fun r => samples_eqb (r_samples r) (r_samples r0)) rest = true).
    { apply forallb_forall. intros r Hr. rewrite Forall_forall in Hrest. rewrite (Hrest _ Hr). apply samples_eqb_refl. }
    rewrite Hall. rewrite samples_eqb_refl. reflexivity.
Qed.

(* C30 — the model's plan/apply history satisfies the boolean predicate that the
   check evaluates on the real planner's histories (case CIter). *)
From Coq Require Import ZArith List Bool Lia Arith Permutation.
Import ListNotations.
From Verif Require Import Lib.Corr Lib.ListFacts Lib.Compact_List Gen.C30 Model.C30 Proofs.C30 Proofs.C30_regime.
Open Scope Z_scope.

(* ids distinct and below the next fresh id *)
Definition fresh_ok (l : list meta) (newid : Z) : Prop :=
  NoDup (map bid l) /\ Forall (fun m => bid m < newid) l.

Lemma fresh_apply l p newid : fresh_ok l newid -> fresh_ok (apply_plan l p newid) (newid + 1).
Proof.
  intros (Hn & Hlt).
  assert (Hlt' : Forall (fun m => bid m < newid + 1) (apply_plan l p newid)).
  { apply apply_plan_Forall; [simpl; lia | eapply Forall_impl; [|exact Hlt]; simpl; intros; lia]. }
  split; [|exact Hlt'].
  eapply Permutation_NoDup; [apply Permutation_map, Permutation_sym, apply_plan_perm|].
  simpl. constructor.
  - intros Hin. apply in_map_iff in Hin. destruct Hin as (x & E & Hx). apply filter_In in Hx.
    rewrite Forall_forall in Hlt. specialize (Hlt x (proj1 Hx)). lia.
  - eapply sublist_NoDup; [apply sublist_map, sublist_filter | exact Hn].
Qed.

Lemma iterate_replay ranges marks : positive_ranges ranges ->
  forall n l newid h fin, sorted_mint l -> fresh_ok l newid ->
  iterate n ranges marks l newid = Some (h, fin) ->
  replay_pred ranges marks l newid h = true /\ replay_fin l newid h = Some fin.
Proof.
  intros Hr. induction n as [|n IH]; intros l newid h fin Hs Hf H; simpl in H; [discriminate|].
  destruct (plan ranges marks l) as [p|] eqn:Hp; [|discriminate].
  destruct p as [|a p'].
  - inversion H; subst. simpl. split; auto.
    pose proof (plan_nil_disjoint _ _ _ Hp) as Hd. apply select_overlapping_nil in Hd. now rewrite Hd.
  - destruct (iterate n ranges marks (apply_plan l (a :: p') newid) (newid + 1)) as [[h' fin']|] eqn:Hit; [|discriminate].
    inversion H; subst. destruct Hf as [Hn Hlt].
    destruct (IH _ _ _ _ (sorted_apply l (a :: p') newid Hs) (fresh_apply l (a :: p') newid (conj Hn Hlt)) Hit) as [IH1 IH2].
    assert (Hlk : lookup_all l (bid a :: map bid p') = Some (a :: p'))
      by exact (lookup_all_sublist _ _ Hn (plan_sublist _ _ _ _ Hp)).
    assert (Hpp : plan_pred ranges marks l (bid a :: map bid p') = true) by exact (plan_pred_holds _ _ _ _ Hr Hs Hn Hp).
    cbn [replay_pred replay_fin map]. rewrite Hlk, Hpp, IH1. auto.
Qed.

Lemma max_range_eq ranges : max_range ranges = maxr ranges.
Proof. reflexivity. Qed.

Lemma sorted_mint_b_spec l : sorted_mint_b l = true -> sorted_mint l.
Proof.
  unfold sorted_mint. induction l as [|a r IH]; simpl; auto.
  intros H. apply andb_true_iff in H. destruct H as [H1 H2]. split; auto.
  apply Forall_forall. intros x Hx. rewrite forallb_forall in H1. apply Z.leb_le, H1, Hx.
Qed.

Lemma in_max_window_spec R m : 0 < R -> (in_max_window R m = true <-> in_some_win R m).
Proof.
  intros HR. unfold in_max_window, in_some_win, inwin. rewrite Z.leb_le. split.
  - intros H. exists (mint m / R). split; auto. apply Z.mul_div_le; auto.
  - intros (k & H1 & H2). assert (k <= mint m / R) by (apply Z.div_le_lower_bound; lia). nia.
Qed.

Lemma win_regime_spec ranges l : ranges <> [] -> win_regime ranges l = true ->
  positive_ranges ranges /\ Forall (fun iv => (iv | maxr ranges)) ranges /\ Win ranges l.
Proof.
  intros Hne H. unfold win_regime in H. rewrite max_range_eq in H.
  apply andb_true_iff in H. destruct H as [H H4]. apply andb_true_iff in H. destruct H as [H H3].
  apply andb_true_iff in H. destruct H as [H1 H2]. rewrite forallb_forall in H1, H3, H4.
  assert (H1' : forall iv, In iv ranges -> 0 < iv /\ maxr ranges mod iv = 0).
  { intros iv Hiv. apply H1 in Hiv. apply andb_true_iff in Hiv. now rewrite Z.ltb_lt, Z.eqb_eq in Hiv. }
  assert (Hp : positive_ranges ranges) by (apply Forall_forall; intros iv Hiv; apply H1', Hiv).
  split; [exact Hp|]. split.
  - apply Forall_forall. intros iv Hiv. destruct (H1' iv Hiv). apply Z.mod_divide; auto. lia.
  - pose proof (maxr_pos ranges Hne Hp) as HR. repeat split.
    + now apply sorted_mint_b_spec.
    + apply Forall_forall. intros m Hm. apply Z.ltb_lt, H3, Hm.
    + apply Forall_forall. intros m Hm. apply in_max_window_spec, H4; auto.
Qed.

Lemma iter_pred_ok ranges marks l newid :
  ranges <> [] -> positive_ranges ranges -> l <> [] -> wf l -> sorted_mint l -> fresh_ok l newid ->
  exists h fin, iterate (S (measure l)) ranges marks l newid = Some (h, fin) /\
    corr_ok (CIter ranges marks l newid h) = true /\ pred_ok (CIter ranges marks l newid h) = true.
Proof.
  intros Hne Hr Hl Hw Hs Hf.
  destruct (converges ranges marks l newid Hne Hl Hw) as (h & fin & Hit & Hfin & Hlen & _).
  exists h, fin. split; auto.
  destruct (iterate_replay ranges marks Hr _ _ _ _ _ Hs Hf Hit) as [Hrp Hrf]. split.
  - unfold corr_ok. rewrite Hit. apply list_eqb_refl. intros x. apply list_eqb_refl, Z.eqb_refl.
  - unfold pred_ok. rewrite Hrp, Hrf. apply Nat.leb_le in Hlen. rewrite Hlen. cbn [andb].
    destruct (win_regime ranges l) eqn:Ewin; auto.
    destruct (win_regime_spec ranges l Hne Ewin) as (Hp & Hdiv & HW).
    assert (HWf : Win ranges fin).
    { eapply (iterate_invariant (Win ranges)); [|exact HW|exact Hit]. intros. eapply win_step; eauto. }
    destruct HWf as (_ & _ & Hwf). apply forallb_forall. intros m Hm. rewrite max_range_eq.
    apply in_max_window_spec; [apply maxr_pos; auto|]. rewrite Forall_forall in Hwf. auto.
Qed.

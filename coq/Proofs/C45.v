(* C45 — matches and filterRulesByMatchers of Model/C45.v: the loop over the
   selector sets is OR over sets of AND over selectors ([spec_match]), the loop
   as it stood before the repair is AND over sets, and the facts about the
   shape of the Go loops (Gen/C45.v) that tie the model to the source. *)
From Coq Require Import NArith ZArith List Bool Lia Permutation Sorted String.
Import ListNotations.
From Verif Require Import Lib.Corr Lib.Misc_Cmp Gen.C45 Model.C45.

(* texts of the `return` statements that sit inside a for loop *)
Fixpoint returns_in_loops (evs : list (string * string)) (depth : nat) : list string :=
  match evs with
  | [] => []
  | (k, t) :: evs' =>
    if String.eqb k "for" then returns_in_loops evs' (S depth)
    else if String.eqb k "endfor" then returns_in_loops evs' (pred depth)
    else if String.eqb k "return" then
      match depth with
      | O => returns_in_loops evs' depth
      | S _ => t :: returns_in_loops evs' depth
      end
    else returns_in_loops evs' depth
  end.

Definition last_return (evs : list (string * string)) : string :=
  match rev evs with
  | (k, t) :: _ => if String.eqb k "return" then t else ""%string
  | [] => ""%string
  end.

(* inside the loop over the sets the function can only answer `true` (a set is
   satisfied); `false` is answered after all sets were tried; the per-set
   helper answers `false` inside its loop over the selectors and `true` after *)
Definition loop_shape_ok : bool :=
  list_eqb String.eqb (returns_in_loops matches_events 0) ["true"%string]
  && String.eqb (last_return matches_events) "false"
  && list_eqb String.eqb (returns_in_loops matchesAll_events 0) ["false"%string]
  && String.eqb (last_return matchesAll_events) "true".

Lemma loop_shape : loop_shape_ok = true.
Proof. vm_compute. reflexivity. Qed.

Section M.
  Variable re : str -> str -> bool.
  Variable templ : str -> bool.

  Lemma matches_all_forallb ms ls :
    matches_all re ms ls = forallb (fun m => matcher_ok re m (lget ls (m_name m))) ms.
  Proof.
    induction ms as [|m ms IH]; simpl; [reflexivity|].
    destruct (matcher_ok re m (lget ls (m_name m))); simpl; [exact IH | reflexivity].
  Qed.

  Lemma matches_sets_existsb sets ls :
    matches_sets re sets ls
    = existsb (fun s => forallb (fun m => matcher_ok re m (lget ls (m_name m))) s) sets.
  Proof.
    induction sets as [|s sets IH]; simpl; [reflexivity|].
    rewrite matches_all_forallb.
    destruct (forallb _ s); simpl; [reflexivity | exact IH].
  Qed.

  Lemma matches_eq_spec sets ls : matches re templ sets ls = spec_match re templ sets ls.
  Proof.
    unfold matches, spec_match. destruct sets as [|s sets]; [reflexivity|].
    apply matches_sets_existsb.
  Qed.

  Definition satisfies (s : list matcher) (ls : labels) : Prop :=
    forall m, In m s -> matcher_ok re m (lget (non_templated templ ls) (m_name m)) = true.

  Lemma matches_iff sets ls :
    sets <> [] ->
    (matches re templ sets ls = true <-> exists s, In s sets /\ satisfies s ls).
  Proof.
    intro Hne. rewrite matches_eq_spec. unfold spec_match.
    destruct sets as [|s0 sets]; [congruence|].
    rewrite existsb_exists. split.
    - intros [s [Hin Hall]]. exists s. split; [exact Hin|].
      rewrite forallb_forall in Hall. exact Hall.
    - intros [s [Hin Hall]]. exists s. split; [exact Hin|].
      apply forallb_forall. exact Hall.
  Qed.

  Lemma matches_unfixed_single s ls :
    matches_unfixed re templ [s] ls = spec_match re templ [s] ls.
  Proof.
    unfold matches_unfixed, spec_match. simpl. rewrite matches_all_forallb.
    destruct (forallb _ s); reflexivity.
  Qed.

  (* filterRulesByMatchers keeps exactly the rules selected by the
     specification, in order, and drops the groups left without rules *)
  Lemma filter_rules_spec sets gs :
    sets <> [] ->
    filter_rules re templ sets gs
    = filter (fun g => negb (is_nil (g_rules g)))
        (map (fun g => Group (g_key g) (filter (fun r => spec_match re templ sets (r_labels r)) (g_rules g))) gs).
  Proof.
    intro Hne. unfold filter_rules. destruct sets as [|s0 sets]; [congruence|].
    f_equal. apply map_ext. intro g. unfold filter_group. f_equal.
    apply filter_ext. intro r. apply matches_eq_spec.
  Qed.
End M.

(* the loop as it stood before the repair answers AND over all sets: with the
   two selector sets {a="x"} and {a="y"} a rule labelled a="x" is not returned *)
Definition ex_re (p v : str) : bool := false.
Definition ex_templ (v : str) : bool := false.
Definition ex_sets : list (list matcher) :=
  [[Matcher 0 [97%N] [120%N]]; [Matcher 0 [97%N] [121%N]]].
Definition ex_labels : labels := [([97%N], [120%N])].

Lemma unfixed_refuted :
  exists re templ sets ls,
    spec_match re templ sets ls = true /\ matches_unfixed re templ sets ls = false.
Proof. exists ex_re, ex_templ, ex_sets, ex_labels. vm_compute. split; reflexivity. Qed.

(* tie T: filterRulesByMatchers decides every rule on its own:
   every call in the function is one of len / r.GetLabels / matches, and the
   call of matches is not guarded by any `if` (no cached verdicts) *)
Fixpoint calls_at_if_depth0 (evs : list (string * string)) (depth : nat) : list string :=
  match evs with
  | [] => []
  | (k, t) :: r =>
    if String.eqb k "if" then calls_at_if_depth0 r (S depth)
    else if String.eqb k "endif" then calls_at_if_depth0 r (pred depth)
    else if String.eqb k "call" then
      match depth with O => t :: calls_at_if_depth0 r depth | S _ => calls_at_if_depth0 r depth end
    else calls_at_if_depth0 r depth
  end.

Definition filter_per_rule_ok : bool :=
  forallb (fun e => negb (String.eqb (fst e) "call")
                    || existsb (String.eqb (snd e)) ["len"; "r.GetLabels"; "matches"]%string)
          filterRules_events
  && existsb (String.eqb "matches") (calls_at_if_depth0 filterRules_events 0).

Lemma filter_per_rule : filter_per_rule_ok = true.
Proof. vm_compute. reflexivity. Qed.

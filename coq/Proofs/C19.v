(* C19 — lemmas: the constructor as read from the source is the repaired one, so the
   facts of Lib/Hashring_KetamaFacts.v (loops) and Lib/Hashring_Build.v (constructor) apply to it. *)
From Coq Require Import ZArith List Bool Lia Arith Permutation.
Import ListNotations.
From Verif Require Import Lib.Corr Lib.Hashring_Ketama Lib.Hashring_KetamaFacts Lib.Hashring_Answers
  Lib.Hashring_AnswersFacts Lib.Hashring_Build Gen.C19 Model.C19.
Close Scope Z_scope.

(* tie T: the source read on this run has the lap-without-progress exit *)
Lemma lap_check_true : lap_check = true.
Proof. vm_compute. reflexivity. Qed.

Lemma ketama_new_src_eq eps rf : ketama_new_src eps rf = ketama_new eps rf.
Proof. unfold ketama_new_src, ketama_new. rewrite lap_check_true. reflexivity. Qed.

Lemma sorted_z_map_hash l : sorted_z (map s_hash l) = sorted_hash l.
Proof.
  induction l as [|a l IH]; [reflexivity|]. destruct l as [|b r]; [reflexivity|].
  change (sorted_z (map s_hash (a :: b :: r))) with ((s_hash a <=? s_hash b)%Z && sorted_z (map s_hash (b :: r))).
  rewrite IH. reflexivity.
Qed.

Lemma map_fst_combine {A B} (l : list A) : forall (r : list B), length r = length l -> map fst (combine l r) = l.
Proof. induction l; intros [|b r] H; simpl in *; try reflexivity; try discriminate. f_equal. apply IHl. lia. Qed.

Lemma map_snd_combine {A B} (l : list A) : forall (r : list B), length r = length l -> map snd (combine l r) = r.
Proof. induction l; intros [|b r] H; simpl in *; try reflexivity; try discriminate. f_equal. apply IHl. lia. Qed.

Lemma forallb_map {A B} (f : B -> bool) (g : A -> B) l : forallb f (map g l) = forallb (fun x => f (g x)) l.
Proof. induction l; simpl; [reflexivity|]. rewrite IHl. reflexivity. Qed.

Lemma usable_of_ok eps rf ring reps :
  ring = sort_sections (sections_of 0 eps) -> length reps = length ring ->
  Forall (replicas_wf (length eps) rf) reps ->
  usable eps rf (combine (map (fun s => (s_hash s, s_ep s)) ring) reps) = true.
Proof.
  intros Hr L F. unfold usable.
  assert (L' : length reps = length (map (fun s => (s_hash s, s_ep s)) ring)) by (rewrite map_length; exact L).
  rewrite combine_length, map_length, L, Nat.min_id.
  assert (Hlen : length ring = length (sections_of 0 eps)) by (rewrite Hr; apply sort_sections_length).
  rewrite Hlen, Nat.eqb_refl. simpl.
  replace (map (fun x : Z * nat * list nat => fst (fst x)) (combine (map (fun s => (s_hash s, s_ep s)) ring) reps))
    with (map s_hash ring).
  2:{ rewrite <- (map_map fst (fun p : Z * nat => fst p)), (map_fst_combine _ _ L'), map_map. reflexivity. }
  assert (Hs : sorted_hash ring = true) by (rewrite Hr; apply sort_sections_sorted).
  rewrite sorted_z_map_hash, Hs. simpl.
  rewrite <- (forallb_map (fun r => (length r =? rf) && nodup_nat r && forallb (fun e => e <? length eps) r) snd),
    (map_snd_combine _ _ L').
  apply forallb_forall. intros r Hin. rewrite Forall_forall in F. apply replicas_wf_bool. auto.
Qed.

(* the observed unbalanced layout (corpus/C19/unbalanced-a1-b3-rf4.json):
   zones A:{a1}, B:{b1,b2,b3}, one section per node, real xxhash values *)
Definition eps_unbalanced : list (Z * list Z) :=
  [(0, [17435437932079402853]); (1, [17927577647030366782]);
   (1, [2009852540237172958]); (1, [10848447329640431025])]%Z.

Lemma unbalanced_err : ketama_new eps_unbalanced 4 = KErr.
Proof. vm_compute. reflexivity. Qed.

Lemma src_total eps rf :
  ketama_new_src eps rf = KErr \/
  exists ring reps, ketama_new_src eps rf = KOk ring reps /\
    pred_ok (CKetama false eps rf (OOk (combine (map (fun s => (s_hash s, s_ep s)) ring) reps))) = true.
Proof.
  rewrite ketama_new_src_eq.
  destruct (ketama_new eps rf) as [ring reps| |] eqn:E.
  - right. exists ring, reps. split; [reflexivity|].
    destruct (ketama_new_fuel_ok _ _ _ _ _ _ E) as [Hr [_ [L F]]].
    exact (usable_of_ok eps rf ring reps Hr L F).
  - now left.
  - exfalso. exact (ketama_new_total eps rf E).
Qed.

Lemma src_ring_usable eps rf ring reps :
  ketama_new_src eps rf = KOk ring reps ->
  ring = sort_sections (sections_of 0 eps) /\ rf <= length eps /\
  length reps = length ring /\
  Forall (fun r => length r = rf /\ NoDup r /\ forall e, In e r -> e < length eps) reps.
Proof. rewrite ketama_new_src_eq. apply ketama_new_fuel_ok. Qed.

Lemma src_error_only_where_original_spins eps rf :
  rf <= length eps -> ketama_new_src eps rf = KErr ->
  forall fuel, ketama_new_fuel false fuel eps rf = KFuel.
Proof. rewrite ketama_new_src_eq. apply ketama_err_original_diverges. Qed.

Lemma src_unbalanced_layout :
  ketama_new_src eps_unbalanced 4 = KErr /\
  forall fuel, ketama_new_fuel false fuel eps_unbalanced 4 = KFuel.
Proof.
  split; [rewrite ketama_new_src_eq; exact unbalanced_err|].
  apply ketama_err_original_diverges; [vm_compute; repeat constructor|exact unbalanced_err].
Qed.

Lemma src_single_zone eps rf :
  length (az_set [] eps) <= 1 -> rf <= length eps -> Forall (fun e => snd e <> []) eps ->
  exists ring reps, ketama_new_src eps rf = KOk ring reps.
Proof. rewrite ketama_new_src_eq. apply single_zone_ok. Qed.

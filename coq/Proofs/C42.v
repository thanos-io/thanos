(* C42 — proofs about Model/C42.v, in four parts.
   Exact pieces ([eval_on]: direct evaluation on an explicit list of timestamps) and their
   extraction; merging seen per series ([merge_stream_sorted], [merge_stream_in]) and per matrix
   ([matrix_merge_streams]), with minTime of an exact piece ([min_time_eval_on]): this is what
   Proofs/C42_history.v builds on. Two principles carry it: a sample list sorted by time is
   determined by its members ([sorted_fst_unique]), and a matrix with sorted keys and no empty
   stream is determined by its streams ([matrix_ext]).
   Then the one- and two-piece merges, partition in matching-step mode (every request sent
   downstream starts on the request's grid), and boolean checkers for the examples. *)
From Coq Require Import ZArith List Bool Lia.
Import ListNotations.
From Verif Require Import Lib.Corr Lib.ListFacts Gen.C41 Model.C41 Gen.C42 Model.C42.
Open Scope Z_scope.

Definition samples_on (f : downstream) (s : Z) (ts : list Z) : samples :=
  flat_map (fun t => match f s t with Some v => [(t, v)] | None => [] end) ts.

Definition eval_on (f : downstream) (sids : list Z) (ts : list Z) : matrix :=
  flat_map (fun s => nonempty_stream s (samples_on f s ts)) sids.

Lemma eval_eval_on f sids a b st : eval f sids a b st = eval_on f sids (steps a b st).
Proof. reflexivity. Qed.

(* strictly increasing lists *)
Fixpoint incr (l : list Z) : Prop :=
  match l with
  | [] => True
  | x :: l' => (forall y, In y l' -> x < y) /\ incr l'
  end.

Lemma incr_app l1 l2 : incr l1 -> incr l2 -> (forall x y, In x l1 -> In y l2 -> x < y) -> incr (l1 ++ l2).
Proof.
  induction l1 as [|a l1 IH]; intros H1 H2 H; [exact H2|]. cbn in *. destruct H1 as [A B]. split.
  - intros y Hy. apply in_app_or in Hy as [Hy|Hy]; [auto | apply H; auto].
  - apply IH; auto.
Qed.

Lemma incr_map_filter {B} (g : B -> Z) p l : incr (map g l) -> incr (map g (filter p l)).
Proof.
  induction l as [|a l IH]; [intros; exact I|]. cbn [map filter]. intros [A B'].
  destruct (p a); [|auto]. split; [|auto].
  intros y Hy. apply A. apply in_map_iff in Hy as (z & <- & Hz). apply filter_In in Hz as [Hz _].
  apply in_map, Hz.
Qed.

Lemma incr_filter p l : incr l -> incr (filter p l).
Proof. intro H. rewrite <- (map_id (filter p l)). apply incr_map_filter. rewrite map_id. exact H. Qed.

Lemma sorted_fst_unique {B} : forall l1 l2 : list (Z * B),
  incr (map fst l1) -> incr (map fst l2) -> (forall p, In p l1 <-> In p l2) -> l1 = l2.
Proof.
  induction l1 as [|h1 l1 IH]; intros [|h2 l2] I1 I2 E.
  - reflexivity.
  - exfalso. apply (proj2 (E h2)). left. reflexivity.
  - exfalso. apply (proj1 (E h1)). left. reflexivity.
  - cbn in I1, I2. destruct I1 as [A1 B1], I2 as [A2 B2].
    assert (H12 : In h1 (h2 :: l2)) by (apply E; left; reflexivity).
    assert (H21 : In h2 (h1 :: l1)) by (apply E; left; reflexivity).
    assert (h1 = h2).
    { destruct H12 as [->|H12]; [reflexivity|]. destruct H21 as [->|H21]; [reflexivity|]. exfalso.
      assert (fst h2 < fst h1) by (apply A2; apply in_map; exact H12).
      assert (fst h1 < fst h2) by (apply A1; apply in_map; exact H21). lia. }
    subst h2. f_equal. apply IH; auto. intro p. split; intro Hp.
    + assert (K : In p (h1 :: l2)) by (apply E; right; exact Hp). destruct K as [<-|K]; [|exact K].
      exfalso. assert (fst h1 < fst h1) by (apply A1; apply in_map; exact Hp). lia.
    + assert (K : In p (h1 :: l1)) by (apply E; right; exact Hp). destruct K as [<-|K]; [|exact K].
      exfalso. assert (fst h1 < fst h1) by (apply A2; apply in_map; exact Hp). lia.
Qed.

Lemma samples_on_cons f s t ts :
  samples_on f s (t :: ts) = match f s t with Some v => [(t, v)] | None => [] end ++ samples_on f s ts.
Proof. reflexivity. Qed.

Lemma samples_on_in f s ts t v : In (t, v) (samples_on f s ts) <-> In t ts /\ f s t = Some v.
Proof.
  unfold samples_on. rewrite in_flat_map. split.
  - intros (x & Hx & H). destruct (f s x) eqn:E; [|contradiction].
    destruct H as [H|[]]. inversion H; subst. auto.
  - intros [H1 H2]. exists t. rewrite H2. split; [exact H1 | left; reflexivity].
Qed.

Lemma samples_on_fst_in f s ts t : In t (map fst (samples_on f s ts)) -> In t ts.
Proof.
  intro H. apply in_map_iff in H as ([t' v] & E & H). cbn in E. subst.
  apply samples_on_in in H. tauto.
Qed.

Lemma samples_on_incr f s ts : incr ts -> incr (map fst (samples_on f s ts)).
Proof.
  induction ts as [|t ts IH]; [intros; exact I|]. intros [H1 H2]. rewrite samples_on_cons.
  destruct (f s t); cbn; [|auto]. split; [|auto].
  intros y Hy. apply H1. eapply samples_on_fst_in; eauto.
Qed.

Lemma samples_on_filter f s p ts :
  filter (fun q => p (fst q)) (samples_on f s ts) = samples_on f s (filter p ts).
Proof.
  induction ts as [|t ts IH]; [reflexivity|]. rewrite samples_on_cons, filter_app, IH. cbn [filter].
  destruct (f s t) eqn:E; cbn [filter fst]; destruct (p t); rewrite ?samples_on_cons, ?E; reflexivity.
Qed.

Lemma extract_stream_on f s a b m ts :
  extract_stream a b m (samples_on f s ts) = samples_on f s (filter (isTimestampAtStep a b m) ts).
Proof. unfold extract_stream. apply (samples_on_filter f s (isTimestampAtStep a b m)). Qed.

Lemma extract_eval_on f a b m ts : forall sids,
  extract a b m (eval_on f sids ts) = eval_on f sids (filter (isTimestampAtStep a b m) ts).
Proof.
  induction sids as [|s sids IH]; [reflexivity|].
  unfold eval_on in *. cbn [flat_map]. unfold extract in *. rewrite flat_map_app, IH. f_equal.
  rewrite <- extract_stream_on.
  destruct (samples_on f s ts) as [|p l]; [reflexivity|].
  cbn [nonempty_stream flat_map fst snd]. apply app_nil_r.
Qed.

Fixpoint last_z (l : list Z) (d : Z) : Z := match l with [] => d | x :: l' => last_z l' x end.

Lemma last_z_ge : forall l d, incr (d :: l) -> forall x, In x (d :: l) -> x <= last_z l d.
Proof.
  induction l as [|t l IH]; intros d [H1 H2] x Hx.
  - destruct Hx as [<-|[]]. cbn. lia.
  - specialize (IH t H2). cbn [last_z].
    destruct Hx as [<-|Hx]; [|auto]. specialize (H1 t (or_introl eq_refl)). specialize (IH t (or_introl eq_refl)). lia.
Qed.

Lemma last_z_in : forall l d, In (last_z l d) (d :: l).
Proof. induction l as [|t l IH]; intro d; [left; reflexivity | right; apply IH]. Qed.

Lemma last_ts_z : forall (l : samples) d, last_ts l d = last_z (map fst l) d.
Proof. induction l as [|[t v] l IH]; intro d; [reflexivity | apply IH]. Qed.

Lemma last_ts_ge (l : samples) d p : incr (map fst l) -> In p l -> fst p <= last_ts l d.
Proof.
  destruct l as [|[t v] l]; intros H Hp; [contradiction|]. cbn [last_ts]. rewrite last_ts_z.
  apply last_z_ge; [exact H | exact (in_map fst _ _ Hp)].
Qed.

(* T fact: both sort.Search predicates are `> minTs` *)
Lemma slice_strict : slice_keeps_equal = false.
Proof. reflexivity. Qed.

Lemma incr_head_lt (p : Z * Z) l q : incr (map fst (p :: l)) -> In q l -> fst p < fst q.
Proof. intros [H _] Hq. apply H, in_map, Hq. Qed.

Lemma drop_le_filter : forall (l : samples) m, incr (map fst l) ->
  drop_le l m = filter (fun p => m <? fst p) l.
Proof.
  induction l as [|[t v] l IH]; intros m H; [reflexivity|].
  cbn [drop_le filter fst]. rewrite slice_strict. cbv iota.
  destruct (Z.leb_spec t m), (Z.ltb_spec m t); try lia.
  - apply IH, H.
  - f_equal. symmetry. apply filter_all.
    intros q Hq. pose proof (incr_head_lt _ _ _ H Hq). cbn [fst] in *. lia.
Qed.

Lemma slice_samples_filter (l : samples) m : incr (map fst l) ->
  slice_samples l m = filter (fun p => m <? fst p) l.
Proof.
  intro H. destruct l as [|[t0 v0] l]; [reflexivity|]. unfold slice_samples. cbn [last_ts].
  destruct (Z.ltb_spec m t0) as [E1|E1].
  - symmetry. apply filter_all. intros q [<-|Hq]; cbn [fst]; [lia|].
    pose proof (incr_head_lt _ _ _ H Hq). cbn [fst] in *. lia.
  - destruct (m >? last_ts l t0) eqn:E2; [|apply drop_le_filter, H].
    symmetry. apply filter_none. intros q Hq. apply Z.ltb_ge.
    destruct Hq as [<-|Hq]; cbn [fst]; [lia|]. pose proof (last_ts_ge _ t0 q H (or_intror Hq)). cbn [last_ts] in *. lia.
Qed.

(* merging sorted sample lists: keep everything already there, then whatever is strictly later *)
Lemma merge_stream_sorted (ex new : samples) :
  incr (map fst ex) -> incr (map fst new) ->
  merge_stream ex new =
  match ex with
  | [] => new
  | (te, _) :: _ => ex ++ filter (fun p => last_ts ex te <? fst p) new
  end.
Proof.
  intros Hex Hnew. destruct ex as [|[te ve] ex]; [reflexivity|].
  destruct new as [|[t0 v0] new]; [reflexivity|].
  cbn [merge_stream]. set (e := last_ts ((te, ve) :: ex) te).
  assert (Hlater : forall q, In q new -> t0 < fst q) by (intros q Hq; exact (incr_head_lt _ _ _ Hnew Hq)).
  destruct (Z.eqb_spec e t0) as [E1|E1]; [|destruct (e >? t0) eqn:E2]; f_equal.
  - cbn [filter fst]. rewrite (proj2 (Z.ltb_ge e t0)) by lia.
    symmetry. apply filter_all. intros q Hq. specialize (Hlater q Hq). lia.
  - apply slice_samples_filter, Hnew.
  - symmetry. apply filter_all. intros q [<-|Hq]; cbn [fst]; [lia|]. specialize (Hlater q Hq). lia.
Qed.

Lemma merge_stream_incr ex new :
  incr (map fst ex) -> incr (map fst new) -> incr (map fst (merge_stream ex new)).
Proof.
  intros Hex Hnew. rewrite merge_stream_sorted by assumption.
  destruct ex as [|[te ve] ex']; [exact Hnew|]. rewrite map_app.
  apply incr_app; [exact Hex | apply incr_map_filter, Hnew |].
  intros x y Hx Hy. apply in_map_iff in Hx as (px & <- & Hpx). apply in_map_iff in Hy as (py & <- & Hpy).
  apply filter_In in Hpy as [_ Hpy]. pose proof (last_ts_ge _ te px Hex Hpx). lia.
Qed.

(* the merge is the union as soon as every new sample that is not after the existing ones is
   among them *)
Lemma merge_stream_in ex new :
  incr (map fst ex) -> incr (map fst new) ->
  (forall p q, In p new -> In q ex -> fst p <= fst q -> In p ex) ->
  forall p, In p (merge_stream ex new) <-> In p ex \/ In p new.
Proof.
  intros Hex Hnew C p. rewrite merge_stream_sorted by assumption.
  destruct ex as [|[te ve] ex']; [cbn; tauto|]. set (ex := (te, ve) :: ex') in *.
  rewrite in_app_iff, filter_In. split; [tauto|]. intros [H|H]; [tauto|].
  destruct (Z.ltb_spec (last_ts ex te) (fst p)); [tauto|]. left.
  assert (Hl : In (last_ts ex te) (map fst ex)) by (unfold ex; cbn [last_ts]; rewrite last_ts_z; apply last_z_in).
  apply in_map_iff in Hl as (q & Eq & Hq). apply (C p q H Hq). lia.
Qed.

Lemma merge_stream_nil_l l : merge_stream [] l = l.
Proof. reflexivity. Qed.

Lemma merge_stream_nil_r l : merge_stream l [] = l.
Proof. destruct l as [|[t v] l]; cbn; [reflexivity|]. rewrite app_nil_r. reflexivity. Qed.

Lemma merge_stream_nonempty_r l new : new <> [] -> merge_stream l new <> [].
Proof.
  intro H. destruct l as [|[te ve] l]; [exact H|]. destruct new as [|[t0 v0] new]; cbn; [discriminate|].
  destruct (_ =? _); [discriminate|]. destruct (_ >? _); discriminate.
Qed.

Fixpoint stream_of (s : Z) (m : matrix) : samples :=
  match m with
  | [] => []
  | (s', l) :: m' => if s =? s' then l else stream_of s m'
  end.

Definition wf (m : matrix) : Prop := incr (map fst m) /\ Forall (fun sl => snd sl <> []) m.

Lemma wf_nil : wf [].
Proof. split; [exact I | constructor]. Qed.

Lemma wf_cons s l m : wf ((s, l) :: m) <-> (forall y, In y (map fst m) -> s < y) /\ l <> [] /\ wf m.
Proof.
  split.
  - intros [[K K'] N]. inversion N; subst. repeat split; assumption.
  - intros (K & Hl & K' & N). split; [split; assumption | constructor; assumption].
Qed.

Lemma stream_of_notin s m : ~ In s (map fst m) -> stream_of s m = [].
Proof.
  induction m as [|[s' l] m IH]; cbn; [auto|]. intro H.
  destruct (Z.eqb_spec s s') as [->|_]; [exfalso; apply H; left; reflexivity|]. apply IH. tauto.
Qed.

Lemma stream_of_in m s l : wf m -> In (s, l) m <-> stream_of s m = l /\ l <> [].
Proof.
  induction m as [|[s' l'] m IH]; intro W.
  - cbn. split; [intros [] | intros [<- H]; congruence].
  - apply wf_cons in W as (K & Hl & W). specialize (IH W).
    cbn [stream_of In]. destruct (Z.eqb_spec s s') as [->|Ne].
    + split; [|intros [-> _]; left; reflexivity].
      intros [E|H]; [inversion E; subst; auto|].
      specialize (K _ (in_map fst _ _ H)). cbn in K. lia.
    + rewrite <- IH. split; [intros [E|H]; [congruence | exact H] | right; assumption].
Qed.

Lemma matrix_ext m1 m2 : wf m1 -> wf m2 -> (forall s, stream_of s m1 = stream_of s m2) -> m1 = m2.
Proof.
  intros W1 W2 E. apply sorted_fst_unique; [apply W1 | apply W2 |].
  intros [s l]. rewrite !stream_of_in, E by assumption. reflexivity.
Qed.

Definition upsert_all (m out : matrix) : matrix :=
  fold_left (fun out sl => upsert (fst sl) (snd sl) out) m out.

Lemma upsert_keys s l out x : In x (map fst (upsert s l out)) -> x = s \/ In x (map fst out).
Proof.
  induction out as [|[s' l'] out IH]; cbn [upsert]; [intros [<-|[]]; auto|].
  destruct (Z.eqb_spec s s') as [->|_]; [intros [<-|H]; cbn; auto|].
  destruct (s <? s'); [intros [<-|H]; cbn; auto|].
  intros [<-|H]; [right; left; reflexivity|]. destruct (IH H); cbn; auto.
Qed.

Lemma upsert_wf s l out : wf out -> l <> [] -> wf (upsert s l out).
Proof.
  induction out as [|[s' l'] out IH]; intros W Hl.
  - apply wf_cons. split; [intros ? []|]. split; [exact Hl | exact wf_nil].
  - pose proof W as W0. apply wf_cons in W as (K & Hl' & W).
    cbn [upsert]. destruct (Z.eqb_spec s s') as [->|Ne]; [|destruct (Z.ltb_spec s s')]; apply wf_cons.
    + split; [exact K|]. split; [apply merge_stream_nonempty_r, Hl | exact W].
    + split; [|split; [exact Hl | exact W0]].
      cbn [map fst]. intros y [<-|Hy]; [lia | specialize (K _ Hy); lia].
    + split; [|split; [exact Hl' | exact (IH W Hl)]].
      intros y Hy. apply upsert_keys in Hy as [->|Hy]; [lia | auto].
Qed.

Lemma upsert_stream s l out x : wf out ->
  stream_of x (upsert s l out) = if x =? s then merge_stream (stream_of x out) l else stream_of x out.
Proof.
  induction out as [|[s' l'] out IH]; intro W.
  - cbn. destruct (x =? s); reflexivity.
  - apply wf_cons in W as (K & _ & W).
    cbn [upsert]. destruct (Z.eqb_spec s s') as [->|Ne]; [|destruct (Z.ltb_spec s s')]; cbn [stream_of].
    + destruct (x =? s'); reflexivity.
    + destruct (Z.eqb_spec x s) as [E|_]; [subst x|reflexivity].
      rewrite (proj2 (Z.eqb_neq s s') Ne), stream_of_notin; [reflexivity|].
      intro Hy. specialize (K _ Hy). lia.
    + destruct (Z.eqb_spec x s') as [E|_]; [subst x|apply IH, W].
      rewrite (proj2 (Z.eqb_neq s' s)) by lia. reflexivity.
Qed.

Lemma upsert_all_stream : forall m out x, wf m -> wf out ->
  stream_of x (upsert_all m out) = merge_stream (stream_of x out) (stream_of x m)
  /\ wf (upsert_all m out).
Proof.
  induction m as [|[s1 l1] m IH]; intros out x Wm Wo.
  - cbn. rewrite merge_stream_nil_r. auto.
  - apply wf_cons in Wm as (K & Hl & Wm).
    change (upsert_all ((s1, l1) :: m) out) with (upsert_all m (upsert s1 l1 out)).
    destruct (IH (upsert s1 l1 out) x Wm (upsert_wf _ _ _ Wo Hl)) as [A B]. split; [|exact B].
    rewrite A, upsert_stream by exact Wo. cbn [stream_of]. destruct (Z.eqb_spec x s1) as [E|_]; [subst x|reflexivity].
    rewrite (stream_of_notin s1 m); [apply merge_stream_nil_r|].
    intro Hy. specialize (K _ Hy). lia.
Qed.

Lemma matrix_merge_fold ps : forall out, Forall wf ps -> wf out ->
  let R := fold_left (fun out m => upsert_all m out) ps out in
  wf R /\ forall x, stream_of x R = fold_left (fun acc m => merge_stream acc (stream_of x m)) ps (stream_of x out).
Proof.
  induction ps as [|m ps IH]; intros out F Wo; cbn zeta; [cbn; auto|].
  inversion F as [|? ? Wm F']; subst. cbn [fold_left].
  destruct (IH (upsert_all m out) F' (proj2 (upsert_all_stream m out 0 Wm Wo))) as [A B].
  split; [exact A|]. intro x. rewrite B, (proj1 (upsert_all_stream m out x Wm Wo)). reflexivity.
Qed.

Lemma matrix_merge_streams ps : Forall wf ps ->
  wf (matrix_merge ps) /\
  forall x, stream_of x (matrix_merge ps) = fold_left (fun acc m => merge_stream acc (stream_of x m)) ps [].
Proof. intro F. exact (matrix_merge_fold ps [] F wf_nil). Qed.

Lemma eval_on_keys f sids ts p : In p (eval_on f sids ts) -> In (fst p) sids.
Proof.
  unfold eval_on. intro H. apply in_flat_map in H as (s & Hs & H).
  destruct (samples_on f s ts); cbn in H; [contradiction|]. destruct H as [<-|[]]. exact Hs.
Qed.

Lemma eval_on_wf f sids ts : incr sids -> wf (eval_on f sids ts).
Proof.
  induction sids as [|s l IH]; [intros; apply wf_nil|]. intros [H1 H2].
  change (eval_on f (s :: l) ts) with (nonempty_stream s (samples_on f s ts) ++ eval_on f l ts).
  destruct (samples_on f s ts) as [|p q]; [exact (IH H2)|].
  apply wf_cons. split; [|split; [discriminate | exact (IH H2)]].
  intros y Hy. apply in_map_iff in Hy as (x & <- & Hx). apply H1. apply eval_on_keys in Hx. exact Hx.
Qed.

Lemma eval_on_stream f sids ts s : incr sids ->
  stream_of s (eval_on f sids ts) = if existsb (Z.eqb s) sids then samples_on f s ts else [].
Proof.
  induction sids as [|a l IH]; [reflexivity|]. intros [H1 H2].
  change (eval_on f (a :: l) ts) with (nonempty_stream a (samples_on f a ts) ++ eval_on f l ts).
  cbn [existsb]. destruct (Z.eqb_spec s a) as [->|Ne]; cbn [orb].
  - destruct (samples_on f a ts) as [|p q]; cbn [nonempty_stream app stream_of]; [|rewrite Z.eqb_refl; reflexivity].
    apply stream_of_notin. intro K. apply in_map_iff in K as (x & Ex & Hx).
    apply eval_on_keys in Hx. rewrite Ex in Hx. specialize (H1 _ Hx). lia.
  - rewrite <- (IH H2). destruct (samples_on f a ts); cbn [nonempty_stream app stream_of]; [reflexivity|].
    rewrite (proj2 (Z.eqb_neq s a) Ne). reflexivity.
Qed.

Lemma eval_on_stream_in f sids ts s t v : incr sids ->
  In (t, v) (stream_of s (eval_on f sids ts)) <-> In s sids /\ In t ts /\ f s t = Some v.
Proof.
  intro Hs. rewrite eval_on_stream by exact Hs. destruct (existsb (Z.eqb s) sids) eqn:E.
  - apply existsb_exists in E as (x & Hx & E). apply Z.eqb_eq in E. subst x.
    rewrite samples_on_in. tauto.
  - split; [intros []|]. intros (H & _). exfalso.
    assert (existsb (Z.eqb s) sids = true) by (apply existsb_exists; exists s; split; [auto|lia]). congruence.
Qed.

Lemma eval_on_stream_incr f sids ts s : incr sids -> incr ts ->
  incr (map fst (stream_of s (eval_on f sids ts))).
Proof.
  intros Hs H. rewrite eval_on_stream by exact Hs.
  destruct (existsb (Z.eqb s) sids); [apply samples_on_incr, H | exact I].
Qed.

Definition mt_step (acc : Z) (sl : Z * samples) : Z :=
  match snd sl with
  | [] => acc
  | (t, _) :: _ => if (acc =? -1) || (t <? acc) then t else acc
  end.

Definition firsts (m : matrix) : list Z :=
  flat_map (fun sl => match snd sl with [] => [] | (t, _) :: _ => [t] end) m.

Lemma min_time_snoc m sl : min_time (m ++ [sl]) = mt_step (min_time m) sl.
Proof. unfold min_time. rewrite fold_left_app. reflexivity. Qed.

Lemma firsts_snoc m s l :
  firsts (m ++ [(s, l)]) = firsts m ++ match l with [] => [] | (t, _) :: _ => [t] end.
Proof. unfold firsts. rewrite flat_map_app. cbn. rewrite app_nil_r. reflexivity. Qed.

(* -1 stands for "no sample": with non-negative times, minTime is the least first timestamp *)
Lemma min_time_spec m : (forall t, In t (firsts m) -> 0 <= t) ->
  (firsts m = [] /\ min_time m = -1)
  \/ (In (min_time m) (firsts m) /\ forall t, In t (firsts m) -> min_time m <= t).
Proof.
  induction m as [|[s l] m IH] using rev_ind; intro Hf; [left; split; reflexivity|].
  rewrite min_time_snoc, firsts_snoc in *. unfold mt_step. cbn [snd].
  destruct l as [|[t v] l]; [rewrite app_nil_r in *; exact (IH Hf)|]. right.
  assert (Ht : 0 <= t) by (apply Hf, in_or_app; right; left; reflexivity).
  destruct IH as [[-> ->]|[Hin Hle]]; [intros x Hx; apply Hf, in_or_app; left; exact Hx | |].
  - cbn. split; [left; reflexivity | intros x [<-|[]]; lia].
  - assert (0 <= min_time m) by (apply Hf, in_or_app; left; exact Hin).
    rewrite (proj2 (Z.eqb_neq (min_time m) (-1))) by lia. cbn [orb].
    destruct (Z.ltb_spec t (min_time m)); (split; [apply in_or_app; cbn; tauto|]);
      intros x Hx; apply in_app_or in Hx as [Hx|[<-|[]]]; try specialize (Hle x Hx); lia.
Qed.

Lemma firsts_eval_in f sids ts t :
  In t (firsts (eval_on f sids ts)) <-> exists s v l, In s sids /\ samples_on f s ts = (t, v) :: l.
Proof.
  induction sids as [|s sids IH]; [split; [intros [] | intros (? & ? & ? & [] & _)]|].
  change (eval_on f (s :: sids) ts) with (nonempty_stream s (samples_on f s ts) ++ eval_on f sids ts).
  unfold firsts in *. rewrite flat_map_app, in_app_iff, IH. split.
  - intros [H|(s' & v & l & Hs & E)]; [|exists s', v, l; split; [right; exact Hs | exact E]].
    destruct (samples_on f s ts) as [|[t0 v0] l] eqn:E; [contradiction|]. destruct H as [<-|[]].
    exists s, v0, l. split; [left; reflexivity | exact E].
  - intros (s' & v & l & [<-|Hs] & E); [left; rewrite E; left; reflexivity | right; exists s', v, l; auto].
Qed.

Definition nonneg (ts : list Z) : Prop := forall t, In t ts -> 0 <= t.

Lemma min_time_eval_on f sids ts : incr sids -> incr ts -> nonneg ts ->
  let r := min_time (eval_on f sids ts) in
  (eval_on f sids ts = [] /\ r = -1)
  \/ ((exists s v, In s sids /\ In r ts /\ f s r = Some v)
      /\ forall s t v, In s sids -> In t ts -> f s t = Some v -> r <= t).
Proof.
  intros Hs Hi Hn. cbv zeta.
  assert (Hhead : forall s t v l, samples_on f s ts = (t, v) :: l -> In t ts /\ f s t = Some v)
    by (intros s t v l E; apply samples_on_in; rewrite E; left; reflexivity).
  destruct (min_time_spec (eval_on f sids ts)) as [[E R]|[Hin Hle]].
  - intros t Ht. apply firsts_eval_in in Ht as (s & v & l & _ & E). apply Hn, (Hhead _ _ _ _ E).
  - left. split; [|exact R]. destruct (eval_on_wf f sids ts Hs) as [_ N].
    destruct (eval_on f sids ts) as [|[s [|[t v] l]] m]; [reflexivity | inversion N as [|? ? H _]; exfalso; apply H; reflexivity | discriminate].
  - right. split.
    + apply firsts_eval_in in Hin as (s & v & l & Hs' & E). exists s, v. split; [exact Hs' | apply (Hhead _ _ _ _ E)].
    + intros s t v Hs' Ht Hf. assert (K : In (t, v) (samples_on f s ts)) by (apply samples_on_in; auto).
      pose proof (samples_on_incr f s ts Hi) as Hinc.
      destruct (samples_on f s ts) as [|[t0 v0] l] eqn:E; [contradiction|].
      assert (Hle0 : min_time (eval_on f sids ts) <= t0) by (apply Hle, firsts_eval_in; exists s, v0, l; auto).
      destruct K as [K|K]; [inversion K; subst; exact Hle0|].
      pose proof (incr_head_lt _ _ _ Hinc K). cbn [fst] in *. lia.
Qed.

(* One piece, and two pieces of which the second continues the first. These special cases are
   properties in their own right (C42_merge_single, C42_merge_stream_exact,
   C42_merge_exact_partial); the proof for whole histories does not use them but the theorem for
   any number of pieces in Proofs/C42_history.v. *)

(* the timestamps covered after merging piece 2 into piece 1 *)
Definition union_ts (ts1 ts2 : list Z) : list Z :=
  match ts1 with
  | [] => ts2
  | t :: _ => ts1 ++ filter (fun x => last_z ts1 t <? x) ts2
  end.

(* every timestamp of piece 2 that is not after the end of piece 1 is also a timestamp of piece 1 *)
Definition compat (ts1 ts2 : list Z) : Prop :=
  match ts1 with
  | [] => True
  | t :: _ => forall x, In x ts2 -> x <= last_z ts1 t -> In x ts1
  end.

Theorem merge_stream_exact f s ts1 ts2 :
  incr ts1 -> incr ts2 -> compat ts1 ts2 ->
  merge_stream (samples_on f s ts1) (samples_on f s ts2) = samples_on f s (union_ts ts1 ts2).
Proof.
  intros I1 I2 C. destruct ts1 as [|t1 ts1]; [reflexivity|]. cbn [union_ts compat] in *.
  set (T1 := t1 :: ts1) in *. set (L := last_z T1 t1) in *.
  assert (HL : forall x, In x T1 -> x <= L) by exact (last_z_ge ts1 t1 I1).
  apply sorted_fst_unique.
  - apply merge_stream_incr; apply samples_on_incr; assumption.
  - apply samples_on_incr, incr_app; [exact I1 | apply incr_filter, I2 |].
    intros x y Hx Hy. apply filter_In in Hy as [_ Hy]. specialize (HL x Hx). lia.
  - intros [t v]. rewrite merge_stream_in; try (apply samples_on_incr; assumption).
    + rewrite !samples_on_in, in_app_iff, filter_In. split; [|tauto].
      intros [H|[A B]]; [tauto|]. destruct (Z.ltb_spec L t); [tauto|].
      split; [left; apply C; assumption | exact B].
    + intros [t2 v2] [tq vq] Hp Hq Hle. apply samples_on_in in Hp as [A B], Hq as [A' _].
      apply samples_on_in. split; [|exact B]. apply C; [exact A|].
      specialize (HL tq A'). cbn [fst] in Hle. lia.
Qed.

Theorem merge_two_exact f sids ts1 ts2 :
  incr sids -> incr ts1 -> incr ts2 -> compat ts1 ts2 ->
  matrix_merge [eval_on f sids ts1; eval_on f sids ts2] = eval_on f sids (union_ts ts1 ts2).
Proof.
  intros Hs H1 H2 C.
  destruct (matrix_merge_streams [eval_on f sids ts1; eval_on f sids ts2]) as [W S];
    [repeat (constructor; [apply eval_on_wf, Hs|]); constructor|].
  apply matrix_ext; [exact W | apply eval_on_wf, Hs |]. intro x.
  rewrite S. cbn [fold_left]. rewrite merge_stream_nil_l, !eval_on_stream by exact Hs.
  destruct (existsb (Z.eqb x) sids); [apply merge_stream_exact; assumption | reflexivity].
Qed.

Theorem merge_response_one f sids ts : incr sids ->
  merge_response [eval_on f sids ts] = eval_on f sids ts.
Proof.
  intro Hs. pose proof (eval_on_wf f sids ts Hs) as W.
  destruct (matrix_merge_streams [eval_on f sids ts]) as [W' S]; [constructor; [exact W | constructor]|].
  apply matrix_ext; [exact W' | exact W |]. intro x. apply S.
Qed.

Lemma sort_two {A} (lt : A -> A -> bool) a b :
  sort_by lt [a; b] = if lt b a then [b; a] else [a; b].
Proof. reflexivity. Qed.

(* MergeResponse of an exact piece and an exact later (overlapping or adjacent) piece is exact:
   the sort by minTime keeps them in time order, except when the later piece is empty, and
   merging with an empty matrix on either side changes nothing *)
Theorem merge_response_two f sids ts1 ts2 :
  incr sids -> incr ts1 -> incr ts2 -> compat ts1 ts2 -> nonneg ts1 -> nonneg ts2 ->
  merge_response [eval_on f sids ts1; eval_on f sids ts2] = eval_on f sids (union_ts ts1 ts2).
Proof.
  intros Hs H1 H2 C N1 N2. unfold merge_response. rewrite sort_two.
  destruct (Z.ltb_spec (min_time (eval_on f sids ts2)) (min_time (eval_on f sids ts1))) as [O|_];
    [|apply merge_two_exact; assumption].
  assert (E2 : eval_on f sids ts2 = []).
  { destruct (min_time_eval_on f sids ts2 Hs H2 N2) as [[E _]|[(s2 & v2 & Hs2 & Ht2 & Hf2) _]]; [exact E|exfalso].
    pose proof (N2 _ Ht2).
    destruct (min_time_eval_on f sids ts1 Hs H1 N1) as [[_ R]|[(_ & _ & _ & Ht1 & _) Le1]]; cbv zeta in *; [lia|].
    destruct ts1 as [|t1 ts1]; [contradiction|]. cbn [compat] in C.
    pose proof (last_z_ge ts1 t1 H1 _ Ht1).
    specialize (Le1 s2 _ v2 Hs2 (C _ Ht2 ltac:(cbn [last_z]; lia)) Hf2). lia. }
  rewrite <- (merge_two_exact f sids ts1 ts2) by assumption. rewrite E2. reflexivity.
Qed.

Definition on_grid (rs st x : Z) : Prop := Z.rem (x - rs) st = 0.

Lemma realign_on_grid rs st ee : st <> 0 -> on_grid rs st (ee - Z.rem (ee - rs) st).
Proof.
  intro H. unfold on_grid.
  replace (ee - Z.rem (ee - rs) st - rs) with (Z.quot (ee - rs) st * st).
  - apply Z.rem_mul. exact H.
  - pose proof (Z.quot_rem' (ee - rs) st). lia.
Qed.

Lemma part_loop_on_grid rs re st : 0 < st -> forall exts start rq rp fin,
  on_grid rs st start ->
  part_loop rs re st start exts = (rq, rp, fin) ->
  on_grid rs st fin /\ forall ab, In ab rq -> on_grid rs st (fst ab).
Proof.
  intro Hst. induction exts as [|[[es ee] em] rest IH]; intros start rq rp fin G E.
  - cbn in E. inversion E; subst. split; [exact G | intros ? []].
  - cbn [part_loop] in E.
    destruct ((ee <? start) || (es >? re)); [eapply IH; eauto|].
    destruct (negb (rs =? re) && (re - rs >? min_cache_extent) && (ee - es <? min_cache_extent)); [eapply IH; eauto|].
    assert (X : (st >? 0) = true) by lia. rewrite X in E.
    destruct (part_loop rs re st (ee - Z.rem (ee - rs) st) rest) as [[rq' rp'] fin'] eqn:R.
    inversion E; subst. clear E.
    destruct (IH _ _ _ _ (realign_on_grid rs st ee ltac:(lia)) R) as [A B].
    split; [exact A|]. intros ab Hab. apply in_app_or in Hab as [Hab|Hab]; [|auto].
    destruct (start <? es); [|contradiction]. destruct Hab as [<-|[]]. exact G.
Qed.

Theorem partition_on_grid rs re st exts reqs cached : 0 < st ->
  partition rs re st exts = (reqs, cached) ->
  forall ab, In ab reqs -> on_grid rs st (fst ab).
Proof.
  intros Hst E. unfold partition in E.
  destruct (part_loop rs re st rs exts) as [[rq rp] fin] eqn:R.
  assert (G0 : on_grid rs st rs) by (unfold on_grid; rewrite Z.sub_diag; apply Z.rem_0_l; lia).
  destruct (part_loop_on_grid rs re st Hst _ _ _ _ _ G0 R) as [A B].
  inversion E; subst. clear E. intros ab Hab.
  assert (K : In ab rq \/ ab = (fin, re) \/ ab = (rs, re)).
  { destruct ((rs =? re) && Nat.eqb (length cached) 0).
    - apply in_app_or in Hab as [Hab|[<-|[]]]; [|auto].
      destruct (fin <? re); [apply in_app_or in Hab as [Hab|[<-|[]]]; auto | auto].
    - destruct (fin <? re); [apply in_app_or in Hab as [Hab|[<-|[]]]; auto | auto]. }
  destruct K as [K | [ -> | -> ] ]; [auto | exact A | exact G0].
Qed.

(* boolean checkers for the side conditions, used by the examples *)
Fixpoint incrb (l : list Z) : bool :=
  match l with
  | [] => true
  | x :: l' => forallb (fun y => x <? y) l' && incrb l'
  end.

Lemma incrb_incr l : incrb l = true -> incr l.
Proof.
  induction l as [|x l IH]; cbn; [auto|]. intro H. apply andb_true_iff in H as [H1 H2].
  split; [|auto]. intros y Hy. rewrite forallb_forall in H1. specialize (H1 y Hy). lia.
Qed.

Lemma nonnegb_nonneg l : forallb (fun t => 0 <=? t) l = true -> nonneg l.
Proof. intros H t Ht. rewrite forallb_forall in H. specialize (H t Ht). lia. Qed.

Definition compatb (ts1 ts2 : list Z) : bool :=
  match ts1 with
  | [] => true
  | t :: _ => forallb (fun x => negb (x <=? last_z ts1 t) || existsb (Z.eqb x) ts1) ts2
  end.

Lemma compatb_compat ts1 ts2 : compatb ts1 ts2 = true -> compat ts1 ts2.
Proof.
  destruct ts1 as [|t ts1]; cbn [compatb compat]; [auto|]. intros H x Hx Hle.
  rewrite forallb_forall in H. specialize (H x Hx). apply orb_true_iff in H as [H|H].
  - apply negb_true_iff in H. lia.
  - apply existsb_exists in H as (y & Hy & E). apply Z.eqb_eq in E. subst. exact Hy.
Qed.

(* C28 — proofs: every scenario the model accepts satisfies the property
   predicate at every crash point; the invariant behind it; per-function
   statements. *)
From Coq Require Import ZArith NArith List Bool Lia Arith String.
Import ListNotations.
From Verif Require Import Lib.Corr Lib.Crash_Store Lib.Crash_Block Lib.Crash_BlockFacts Lib.Crash_BlockProgs.
From Verif Require Import Gen.C28 Model.C28.

(* tie T: the orders computed from the source are the ones the lemmas are about *)
Lemma upload_phases_std : upload_phases = Some std_upload.
Proof. vm_compute. reflexivity. Qed.
Lemma delete_phases_std : delete_phases = Some std_delete.
Proof. vm_compute. reflexivity. Qed.
Lemma replicate_phases_std : replicate_phases = Some std_replicate.
Proof. vm_compute. reflexivity. Qed.

Opaque upload_phases delete_phases replicate_phases.

Lemma upload_phases_inv ph : upload_phases = Some ph -> ph = std_upload.
Proof. rewrite upload_phases_std. intros H. inversion H. reflexivity. Qed.
Lemma delete_phases_inv ph : delete_phases = Some ph -> ph = std_delete.
Proof. rewrite delete_phases_std. intros H. inversion H. reflexivity. Qed.
Lemma replicate_phases_inv ph : replicate_phases = Some ph -> ph = std_replicate.
Proof. rewrite replicate_phases_std. intros H. inversion H. reflexivity. Qed.

Definition sinv (U : univ) (st : state) : Prop := binv U (fst st) /\ binv U (snd st).

Lemma sinv_side U st s : sinv U st -> binv U (side_get st s).
Proof. intros [H1 H2]. destruct s; assumption. Qed.

Lemma sinv_set U st s b : sinv U st -> binv U b -> sinv U (side_set st s b).
Proof. intros [H1 H2] Hb. destruct s; split; simpl; assumption. Qed.

Lemma sinv_empty U : sinv U ([], []).
Proof. split; apply binv_empty. Qed.

Lemma cut_states b crash l b' : In b' (bstates b (cut crash l)) -> In b' (bstates b l).
Proof.
  destruct crash as [k|]; simpl; [|auto]. apply states_firstn_incl.
Qed.

Lemma cut_full crash l : is_cut crash l = false -> cut crash l = l.
Proof.
  destruct crash as [k|]; simpl; [|reflexivity]. intros H. apply Nat.ltb_ge in H.
  apply firstn_all2. exact H.
Qed.

(* what an action has achieved when it ran to the end and returned nil *)
Definition final_clause (st : state) (a : action) (post : bucket) : Prop :=
  match a with
  | AUpload _ id _ _ | ARepDel id _ _ => bhas post (id, FMeta) = true
  | ADelete _ id _ => block_gone_b post id = true
  | AMark _ id _ => bhas post (id, FDelMark) = true
  | AReplicate id =>
      same_content (match bget (fst st) (id, FMeta) with Some o => o | None => Blob 0 end)
                   (bget post (id, FMeta)) = true
  end.

Lemma action_sound U st a l ok :
  wf_univ U -> sinv U st -> action_safe st a = true -> action_ops U st a = Some (l, ok) ->
  let b := side_get st (action_side a) in
  bguarded U b l
  /\ (ok = true -> final_clause st a (bapply_ops b l))
  /\ match a with
     | ADelete _ id _ => bhas b (id, FDelMark) = true ->
                         forall b', In b' (bstates b l) -> mark_or_gone_b b' id = true
     | _ => True
     end.
Proof.
  intros Hwf Hst Hsafe Ha. destruct a as [s id order cid|s id order|s id sz|id|id sched order]; simpl in *.
  - rewrite upload_phases_std in Ha. destruct (ublock U id) as [bl|] eqn:Hu.
    + destruct (upload_ops std_upload U id order cid (b_lbl bl)) as [l0|] eqn:Hl; [|discriminate].
      injection Ha as -> <-. split; [|split; [|exact I]].
      * apply (upload_guarded U _ id order cid (b_lbl bl)); [exact Hwf|apply sinv_side, Hst|exact Hl].
      * intros _. apply bhas_true. rewrite (upload_final U _ id order cid (b_lbl bl) l bl Hu Hl). discriminate.
    + injection Ha as <- <-. split; [exact I|]. split; [discriminate|exact I].
  - rewrite delete_phases_std in Ha.
    destruct (delete_ops std_delete (side_get st s) id order) as [l0|] eqn:Hl; [|discriminate].
    injection Ha as -> <-. split; [exact (delete_guarded U _ id order l Hl)|]. split.
    + intros _. exact (delete_final _ id order l Hl).
    + exact (delete_mark_kept _ id order l Hl).
  - injection Ha as <- <-. split; [apply mark_guarded|]. split; [intros _; apply mark_final|exact I].
  - rewrite replicate_phases_std in Ha. destruct Hst as [Hsrc Hdst].
    destruct (bget (fst st) (id, FMeta)) as [om|] eqn:Hm; [|injection Ha as <- <-; repeat split; discriminate].
    destruct (same_content om (bget (snd st) (id, FMeta))) eqn:Hs; injection Ha as <- <-.
    + split; [exact I|]. split; [|exact I]. intros _. exact Hs.
    + split; [apply replicate_guarded; assumption|]. split; [|exact I].
      intros _. exact (replicate_final U _ _ id om Hsrc Hm).
  - rewrite replicate_phases_std, delete_phases_std in Ha. unfold std_replicate in Ha.
    destruct (delete_ops std_delete (fst st) id order) as [dels|] eqn:Hd; [|discriminate].
    injection Ha as Hr. apply andb_true_iff in Hsafe as [Hif Hni]. apply negb_true_iff in Hni.
    destruct Hst as [Hsrc Hdst].
    destruct (repdel_safe U (fst st) (snd st) id sched order dels l ok Hwf Hsrc Hdst Hd Hif Hni Hr) as [G F].
    split; [exact G|]. split; [exact F|exact I].
Qed.

Lemma action_states U st a l ok crash :
  wf_univ U -> sinv U st -> action_safe st a = true -> action_ops U st a = Some (l, ok) ->
  let b := side_get st (action_side a) in
  (forall b', In b' (bstates b (cut crash l)) -> binv U b')
  /\ sinv U (side_set st (action_side a) (bapply_ops b (cut crash l))).
Proof.
  intros Hwf Hst Hsafe Ha b. destruct (action_sound U st a l ok Hwf Hst Hsafe Ha) as [Hg _].
  assert (Hall : forall b', In b' (bstates b (cut crash l)) -> binv U b').
  { intros b' Hb'. apply (binv_states U b l Hwf (sinv_side U st _ Hst) Hg), (cut_states _ _ _ _ Hb'). }
  split; [exact Hall|]. apply sinv_set; [exact Hst|]. apply Hall, states_last.
Qed.

Lemma step_sound U st s st' :
  wf_univ U -> sinv U st -> action_safe st (fst (fst (fst (fst s)))) = true -> corr_step U st s = Some st' ->
  sinv U st' /\ pred_step st s = (true, st').
Proof.
  intros Hwf Hst Hsafe Hc. destruct s as [[[[a crash] ret] ops] snaps]. simpl in Hsafe. unfold corr_step in Hc.
  destruct (action_ops U st a) as [[l ok]|] eqn:Ha; [|discriminate].
  set (b := side_get st (action_side a)) in *.
  destruct (list_eqb bop_eqb ops (cut crash l) && list_eqb bucket_eqb snaps (tl (bstates b (cut crash l)))
            && Bool.eqb ret (ok && negb (is_cut crash l))) eqn:Hchk; [|discriminate].
  inversion Hc; subst st'. clear Hc.
  apply andb_true_iff in Hchk as [Hchk Hret]. apply andb_true_iff in Hchk as [Hops Hsn].
  apply ops_eqb_spec in Hops. apply buckets_eqb_spec in Hsn. apply Bool.eqb_prop in Hret.
  destruct (action_sound U st a l ok Hwf Hst Hsafe Ha) as [_ [Hfin Hmk]].
  destruct (action_states U st a l ok crash Hwf Hst Hsafe Ha) as [Hall Hst'].
  fold b in Hfin, Hmk, Hall, Hst'. split; [exact Hst'|].
  unfold pred_step. fold b. rewrite Hsn, blast_states. f_equal.
  assert (Hvis : forallb visible_complete_b (tl (bstates b (cut crash l))) = true).
  { apply forallb_forall. intros b' Hb'. apply (binv_visible_complete U), Hall, tl_In, Hb'. }
  rewrite Hvis. simpl.
  (* an action that returned nil ran to the end *)
  assert (Hfin' : ret = true -> final_clause st a (bapply_ops b (cut crash l))).
  { intros ->. symmetry in Hret. apply andb_true_iff in Hret as [H1 H2].
    rewrite cut_full by (destruct (is_cut crash l); [discriminate|reflexivity]). exact (Hfin H1). }
  destruct a as [s id order cid|s id order|s id sz|id|id sched order]; simpl in *;
    try (destruct ret; [exact (Hfin' eq_refl)|reflexivity]).
  apply andb_true_iff. split; [|destruct ret; [exact (Hfin' eq_refl)|reflexivity]].
  destruct (bhas b (id, FDelMark)) eqn:Hm; [|reflexivity].
  apply forallb_forall. intros b' Hb'. apply Hmk; [reflexivity|]. apply (cut_states _ _ _ _ (tl_In _ _ Hb')).
Qed.

Lemma steps_sound U : forall steps st,
  wf_univ U -> sinv U st -> corr_steps U st steps = true -> safe_steps U st steps = true ->
  pred_steps st steps = true.
Proof.
  induction steps as [|s r IH]; intros st Hwf Hst Hc Hsf; simpl in *; [reflexivity|].
  destruct (corr_step U st s) as [st'|] eqn:Hs; [|discriminate].
  apply andb_true_iff in Hsf as [Hs1 Hs2].
  destruct (step_sound U st s st' Hwf Hst Hs1 Hs) as [Hst' Hp]. rewrite Hp. simpl.
  apply IH; assumption.
Qed.

Lemma corr_implies_pred c : corr_ok c = true -> safe_case c = true -> pred_ok c = true.
Proof.
  destruct c as [U steps]. simpl. intros H Hsf. apply andb_true_iff in H as [Hwf Hc].
  apply (steps_sound U steps ([], []) (wf_univ_b_spec U Hwf)); [apply sinv_empty|exact Hc|exact Hsf].
Qed.

(* the model run of a list of (action, crash point): every bucket state passed through *)
Fixpoint run_states (U : univ) (st : state) (acts : list (action * option nat)) : option (list bucket) :=
  match acts with
  | [] => Some []
  | (a, crash) :: r =>
      match (if action_safe st a then action_ops U st a else None) with
      | None => None
      | Some (l, _) =>
          let b := side_get st (action_side a) in
          match run_states U (side_set st (action_side a) (bapply_ops b (cut crash l))) r with
          | Some rest => Some (bstates b (cut crash l) ++ rest)
          | None => None
          end
      end
  end.

Lemma run_states_inv U : forall acts st all,
  wf_univ U -> sinv U st -> run_states U st acts = Some all -> forall b, In b all -> binv U b.
Proof.
  induction acts as [|[a crash] r IH]; intros st all Hwf Hst Hr b Hb; simpl in Hr.
  - inversion Hr; subst. contradiction.
  - destruct (action_safe st a) eqn:Hsafe; [|discriminate].
    destruct (action_ops U st a) as [[l ok]|] eqn:Ha; [|discriminate].
    destruct (action_states U st a l ok crash Hwf Hst Hsafe Ha) as [Hall Hst'].
    destruct (run_states U _ r) as [rest|] eqn:Hrest; [|discriminate].
    inversion Hr; subst all. apply in_app_or in Hb as [Hb|Hb]; [exact (Hall _ Hb)|].
    exact (IH _ _ Hwf Hst' Hrest _ Hb).
Qed.

Lemma all_prefixes_visible_complete U acts all :
  wf_univ_b U = true -> run_states U ([], []) acts = Some all ->
  forall b, In b all -> visible_complete b.
Proof.
  intros Hwf Hr b Hb. apply (binv_visible U).
  exact (run_states_inv U acts _ _ (wf_univ_b_spec U Hwf) (sinv_empty U) Hr b Hb).
Qed.

Fixpoint model_steps (U : univ) (st : state) (acts : list (action * option nat)) : option (list step) :=
  match acts with
  | [] => Some []
  | (a, crash) :: r =>
      match (if action_safe st a then action_ops U st a else None) with
      | None => None
      | Some (l, ok) =>
          let b := side_get st (action_side a) in
          let l' := cut crash l in
          match model_steps U (side_set st (action_side a) (bapply_ops b l')) r with
          | Some rest => Some ((a, crash, ok && negb (is_cut crash l), l', tl (bstates b l')) :: rest)
          | None => None
          end
      end
  end.

Lemma model_steps_corr U : forall acts st steps,
  model_steps U st acts = Some steps -> corr_steps U st steps = true /\ safe_steps U st steps = true.
Proof.
  induction acts as [|[a crash] r IH]; intros st steps H; simpl in H.
  - inversion H; subst. split; reflexivity.
  - destruct (action_safe st a) eqn:Hsafe; [|discriminate].
    destruct (action_ops U st a) as [[l ok]|] eqn:Ha; [|discriminate].
    destruct (model_steps U _ r) as [rest|] eqn:Hr; [|discriminate].
    inversion H; subst steps. clear H. simpl. rewrite Ha, Hsafe.
    rewrite (proj2 (ops_eqb_spec _ _) eq_refl), (proj2 (buckets_eqb_spec _ _) eq_refl), Bool.eqb_reflx. simpl.
    apply IH. exact Hr.
Qed.

Lemma model_case_ok U acts steps :
  wf_univ_b U = true -> model_steps U ([], []) acts = Some steps ->
  corr_ok (CScen U steps) = true /\ pred_ok (CScen U steps) = true.
Proof.
  intros Hwf H. destruct (model_steps_corr U acts _ steps H) as [H1 H2].
  assert (Hc : corr_ok (CScen U steps) = true) by (simpl; rewrite Hwf; exact H1).
  split; [exact Hc|apply corr_implies_pred; [exact Hc|exact H2]].
Qed.

Lemma upload_prefix_safe ph U b id order cid lbl l k :
  upload_phases = Some ph -> wf_univ U -> binv U b -> upload_ops ph U id order cid lbl = Some l ->
  visible_complete (bapply_ops b (firstn k l)).
Proof.
  intros ->%upload_phases_inv Hwf Hb Hl.
  apply (binv_visible U), binv_prefix, (upload_guarded U b id order cid lbl); assumption.
Qed.

Lemma reupload_after_crash ph U b id order cid lbl l k order' cid' lbl' l' bl :
  upload_phases = Some ph -> wf_univ U -> binv U b -> ublock U id = Some bl ->
  upload_ops ph U id order cid lbl = Some l ->
  upload_ops ph U id order' cid' lbl' = Some l' ->
  let crashed := bapply_ops b (firstn k l) in
  (forall j, visible_complete (bapply_ops crashed (firstn j l')))
  /\ bget (bapply_ops crashed l') (id, FMeta) = Some (MetaO cid' (files_of bl) lbl')
  /\ visible_complete (bapply_ops crashed l').
Proof.
  intros Hph Hwf Hb Hu Hl Hl' crashed.
  assert (Hc : binv U crashed).
  { apply upload_phases_inv in Hph. subst ph.
    apply binv_prefix, (upload_guarded U b id order cid lbl); assumption. }
  assert (Hj : forall j, visible_complete (bapply_ops crashed (firstn j l')))
    by (intros j; apply (upload_prefix_safe ph U crashed id order' cid' lbl'); assumption).
  split; [exact Hj|]. split.
  - apply upload_phases_inv in Hph. subst ph. eapply upload_final; eauto.
  - rewrite <- (firstn_all l'). apply Hj.
Qed.

Lemma delete_prefix_safe ph U b id order l k :
  delete_phases = Some ph -> wf_univ U -> binv U b -> delete_ops ph b id order = Some l ->
  let b' := bapply_ops b (firstn k l) in
  visible_complete b'
  /\ (bget b (id, FDelMark) <> None ->
      bget b' (id, FDelMark) <> None \/ forall f, is_dirmarker f = false -> bget b' (id, f) = None).
Proof.
  intros ->%delete_phases_inv Hwf Hb Hl b'. split.
  - apply (binv_visible U), binv_prefix, (delete_guarded U b id order); assumption.
  - intros Hm. apply bhas_true in Hm.
    pose proof (delete_mark_kept b id order l Hl Hm b' (states_prefix _ _ _ _ _ _ _)) as H.
    apply orb_true_iff in H as [H|H]; [left; apply bhas_true, H|right; apply gone_spec, H].
Qed.

Lemma delete_completes ph b id order l :
  delete_phases = Some ph -> delete_ops ph b id order = Some l ->
  forall f, is_dirmarker f = false -> bget (bapply_ops b l) (id, f) = None.
Proof. intros ->%delete_phases_inv Hl. apply gone_spec, (delete_final b id order l Hl). Qed.

Lemma replicate_prefix_safe ph U src dst id k :
  replicate_phases = Some ph -> wf_univ U -> binv U src -> binv U dst ->
  visible_complete (bapply_ops dst (firstn k (replicate_ops ph src dst id)))
  /\ binv U (bapply_ops dst (firstn k (replicate_ops ph src dst id))).
Proof.
  intros ->%replicate_phases_inv Hwf Hs Hd.
  assert (H : binv U (bapply_ops dst (firstn k (replicate_ops std_replicate src dst id))))
    by (apply binv_prefix, replicate_guarded; assumption).
  split; [apply (binv_visible U)|]; exact H.
Qed.

Lemma replicate_completes ph U src dst id om :
  replicate_phases = Some ph -> binv U src -> bget src (id, FMeta) = Some om ->
  same_content om (bget (bapply_ops dst (replicate_ops ph src dst id)) (id, FMeta)) = true.
Proof. intros ->%replicate_phases_inv. apply replicate_final. Qed.

Lemma replicate_during_delete_safe ph U src dst id sched order dels ops ok :
  delete_phases = Some ph -> wf_univ U -> binv U src -> binv U dst ->
  delete_ops ph src id order = Some dels ->
  index_first order = true -> bhas dst (id, FIndex) = false ->
  repdel_ops src dst id (combine sched dels) = (ops, ok) ->
  (forall k, visible_complete (bapply_ops dst (firstn k ops)))
  /\ (ok = true -> bhas (bapply_ops dst ops) (id, FMeta) = true).
Proof.
  intros ->%delete_phases_inv Hwf Hs Hd Hdel Hi Hn H.
  destruct (repdel_safe U src dst id sched order dels ops ok Hwf Hs Hd Hdel Hi Hn H) as [G F].
  split; [|exact F]. intros k. apply (binv_visible U), binv_prefix; assumption.
Qed.

(* without "index before chunks" (a bucket that lists "chunks/" before "index", as S3 and GCS do)
   there is a schedule that makes an incomplete block visible in the target: the deleter removes
   meta.json and chunks/000001 between the replicator's Get of meta.json and its listing of chunks/ *)
Definition race_U : univ := [(0%N, mkblk [(1%N, 11%Z); (2%N, 7%Z)] 9%Z 0%N)].
Definition race_acts : list (action * option nat) :=
  [(AUpload false 0 [1; 2]%N 0, None); (AMark false 0 40, None)].
Definition race_order : list file := [FChunk 1; FChunk 2; FIndex].

Lemma replicate_delete_race_refuted :
  exists st ops,
    sinv race_U st /\ bhas (snd st) (0%N, FIndex) = false
    /\ action_ops race_U st (ARepDel 0 [1; 1]%nat race_order) = Some (ops, true)
    /\ visible_complete_b (bapply_ops (snd st) ops) = false
    /\ index_first race_order = false.
Proof.
  destruct (run_states race_U ([], []) race_acts) as [all|] eqn:Hr; [|vm_compute in Hr; discriminate].
  pose proof (run_states_inv race_U race_acts ([], []) all
                (wf_univ_b_spec race_U eq_refl) (sinv_empty race_U) Hr) as Hall.
  vm_compute in Hr. inversion Hr as [Hall']. clear Hr.
  set (src := [kv 0 (FChunk 1) (Blob 11); kv 0 (FChunk 2) (Blob 7); kv 0 FDelMark (Blob 40); kv 0 FIndex (Blob 9);
               kv 0 FMeta (MetaO 0 [(FChunk 1, 11%Z); (FChunk 2, 7%Z); (FIndex, 9%Z); (FMeta, 0%Z)] 0)]).
  exists (src, []). eexists. split.
  - split; [|apply binv_empty]. apply Hall. rewrite <- Hall'. unfold src, kv. simpl.
    repeat (first [left; reflexivity | right]).
  - split; [reflexivity|]. split; [vm_compute; reflexivity|]. split; vm_compute; reflexivity.
Qed.

(* C04 — the chunkSeriesIterator state machine (Model/C04_Csi.v) is a list
   iterator over the stream Model.C04.chunk_iter: Next yields its elements one
   by one, Seek(t) positions on the first remaining element with timestamp >= t
   (the current one included), and both return with fuel linear in what is
   left to read. *)
From Coq Require Import ZArith List Bool Lia Arith.
Import ListNotations.
From Verif Require Import Lib.Corr Gen.C04 Model.C04 Model.C04_Csi Proofs.C04 Proofs.C04_Cuts.
Open Scope Z_scope.
Local Opaque MinT.

Lemma drop_lt_app_nonempty t A B y d : drop_lt t A = y :: d -> drop_lt t (A ++ B) = (y :: d) ++ B.
Proof.
  induction A as [|w A IH]; simpl; [discriminate|].
  destruct (fst w <? t); [exact IH|]. intros H. injection H as <- <-. reflexivity.
Qed.

(* seeking inside the stream = restarting the stream with a higher threshold *)
Lemma drop_lt_chunk_iter_from : forall cs thr t,
  thr <= t -> drop_lt t (chunk_iter_from thr cs) = chunk_iter_from t cs.
Proof.
  induction cs as [|c cs IH]; intros thr t Hle; [reflexivity|].
  cbn [chunk_iter_from]. rewrite <- (drop_lt_drop_lt thr t c Hle).
  destruct (drop_lt thr c) as [|x c'] eqn:E; [simpl; apply IH, Hle|].
  destruct (drop_lt t (x :: c')) as [|y d] eqn:E2.
  - pose proof (proj1 (Forall_forall _ _) (proj1 (drop_lt_nil_iff _ _) E2)) as Hlt.
    rewrite drop_lt_app_all_lt by exact Hlt.
    apply IH. destruct (last_t_mem c' x) as (z & Hz & Ez). specialize (Hlt z Hz). simpl in Hlt. lia.
  - rewrite (drop_lt_app_nonempty _ _ _ _ _ E2), (drop_lt_last _ _ _ _ _ E2). reflexivity.
Qed.

Definition started (s : csi) : bool := MinT <? x_t (c_cur s).

Definition rem (s : csi) : list sample :=
  x_rem (c_cur s) ++ chunk_iter_from (last_t (x_t (c_cur s)) (x_rem (c_cur s)) + 1) (c_rest s).

Definition cur_sample (s : csi) : sample := (x_t (c_cur s), x_v (c_cur s)).

(* current sample (if any) followed by the rest of the stream *)
Definition all (s : csi) : list sample := if started s then cur_sample s :: rem s else rem s.

Definition above (l : list sample) : Prop := Forall (fun x => MinT < fst x) l.

(* well-formed states: every timestamp is above MinInt64 (AtT = MinInt64 means
   that no sample has been read), and once a sample has been read lastVal
   holds: it is what Seek answers when the current sample is already >= t *)
Definition W (s : csi) : Prop :=
  above (x_rem (c_cur s)) /\ Forall above (c_rest s) /\ MinT <= x_t (c_cur s)
  /\ (started s = true -> c_lastVal s = true).

(* a chunk just entered: nothing read yet, AtT = MinInt64 *)
Lemma W_fresh c r lv : above c -> Forall above r -> W (mkCsi (fresh c) r lv).
Proof.
  intros Hc Hr. repeat split; simpl; auto; try lia.
  unfold started. simpl. rewrite Z.ltb_irrefl. discriminate.
Qed.

Lemma all_fresh c r lv : above c -> all (mkCsi (fresh c) r lv) = chunk_iter_from (MinT + 1) (c :: r).
Proof.
  intros Hc. unfold all, started, rem. simpl. rewrite Z.ltb_irrefl. destruct Hc as [|x c0 Hx _]; [reflexivity|].
  cbn [chunk_iter_from drop_lt last_t]. destruct (fst x <? MinT + 1) eqn:E; [lia|]. reflexivity.
Qed.

(* the initial state delivers Model.C04.chunk_iter *)
Lemma csi_new_all cs c r : map csamples cs = c :: r -> above c -> Forall above r ->
  exists s0, csi_new (map csamples cs) = Some s0 /\ W s0 /\ all s0 = chunk_iter cs.
Proof.
  intros E Hc Hr. unfold chunk_iter. rewrite E. eexists. split; [reflexivity|].
  split; [apply W_fresh; assumption | apply all_fresh; assumption].
Qed.

Definition next_spec (s s' : csi) (v : bool) : Prop :=
  match rem s with
  | [] => v = false
  | y :: r => v = true /\ cur_sample s' = y /\ rem s' = r /\ W s' /\ c_lastVal s' = true /\ started s' = true
  end.

Definition seek_spec (t : Z) (s s' : csi) (v : bool) : Prop :=
  match drop_lt t (all s) with
  | [] => v = false
  | y :: r => v = true /\ cur_sample s' = y /\ rem s' = r /\ W s' /\ c_lastVal s' = true /\ started s' = true
  end.

(* what is left to read (of a state; Model.C04.size is that of an iterator tree);
   Next and Seek spend at most two units of fuel per unit of it *)
Definition size (s : csi) : nat :=
  (length (x_rem (c_cur s)) + fold_right (fun c n => S (length c) + n) 0 (c_rest s))%nat.

Lemma csi_steps : forall f,
  (forall s, W s -> (2 * size s + 1 <= f)%nat ->
     exists s' v, cnext f s = Some (s', v) /\ next_spec s s' v
                  /\ (size s' <= size s)%nat /\ (v = true -> (size s' < size s)%nat)) /\
  (forall s t, W s -> MinT < t -> (2 * size s + 2 <= f)%nat ->
     exists s' v, cseek f t s = Some (s', v) /\ seek_spec t s s' v /\ (size s' <= size s)%nat).
Proof.
  induction f as [|f [IHn IHs]]; [split; intros; lia|].
  split.
  - intros s (Hrem & Hrest & Hge & Hlv) Hf. cbn [cnext]. unfold xnext.
    destruct s as [[xt xv xr] rest lv]. unfold size, next_spec, rem in Hf |- *. simpl in Hrem, Hrest, Hge, Hlv, Hf |- *.
    destruct xr as [|y r].
    + destruct rest as [|c rest'].
      * exists (mkCsi (mkX xt xv []) [] lv), false. simpl. repeat split; [lia|discriminate].
      * (* the next chunk is entered with Seek(lastT + 1) *)
        inversion Hrest as [|? ? Hc Hrest']; subst.
        destruct (IHs (mkCsi (fresh c) rest' lv) (xt + 1)) as (s' & v & E & Hsp & Hsz);
          [apply W_fresh; assumption|lia| |].
        { unfold size. simpl in Hf |- *. lia. }
        exists s', v. unfold size in Hsz. simpl in Hsz, Hf |- *. repeat split; [exact E| |lia|lia].
        unfold seek_spec in Hsp. rewrite all_fresh, drop_lt_chunk_iter_from in Hsp by (assumption || lia).
        exact Hsp.
    + exists (mkCsi (mkX (fst y) (snd y) r) rest true), true. simpl.
      inversion Hrem; subst.
      assert (Hst : started (mkCsi (mkX (fst y) (snd y) r) rest true) = true)
        by (unfold started; simpl; apply Z.ltb_lt; assumption).
      repeat split; simpl; auto; try lia. unfold cur_sample. simpl. destruct y; reflexivity.
  - intros s t HW Ht Hf. cbn [cseek].
    destruct (t <=? x_t (c_cur s)) eqn:Et.
    + exists s, (c_lastVal s). destruct HW as (Hrem & Hrest & Hge & Hlv).
      assert (Hst : started s = true) by (unfold started; apply Z.ltb_lt; lia).
      split; [reflexivity|]. split; [|lia].
      unfold seek_spec, all. rewrite Hst. simpl. unfold cur_sample at 1. simpl.
      destruct (x_t (c_cur s) <? t) eqn:E2; [lia|].
      repeat split; auto.
    + destruct (IHn s HW) as (s1 & v1 & -> & Hn & Hle & Hlt); [lia|]. cbv zeta.
      assert (Hall : drop_lt t (all s) = drop_lt t (rem s)).
      { unfold all. destruct (started s); [|reflexivity]. apply drop_lt_lt. simpl. lia. }
      unfold seek_spec. rewrite Hall. unfold next_spec in Hn.
      destruct (rem s) as [|y r] eqn:Er.
      * subst v1. exists (mkCsi (c_cur s1) (c_rest s1) false), false.
        repeat split. exact Hle.
      * destruct Hn as (-> & Hcur & Hrem1 & HW1 & Hlv1 & Hst1). specialize (Hlt eq_refl).
        replace (mkCsi (c_cur s1) (c_rest s1) true) with s1 by (destruct s1; simpl in *; congruence).
        destruct (IHs s1 t HW1 Ht) as (s' & v & E & Hs & Hsz); [lia|].
        exists s', v. split; [exact E|]. split; [|lia].
        unfold seek_spec, all in Hs. rewrite Hst1, Hcur, Hrem1 in Hs. exact Hs.
Qed.

Theorem csi_next_correct s :
  W s -> exists s' v, cnext (2 * size s + 1) s = Some (s', v) /\ next_spec s s' v.
Proof.
  intros HW. destruct (proj1 (csi_steps _) s HW (le_n _)) as (s' & v & E & H & _). eauto.
Qed.

Theorem csi_seek_correct s t :
  W s -> MinT < t -> exists s' v, cseek (2 * size s + 2) t s = Some (s', v) /\ seek_spec t s s' v.
Proof.
  intros HW Ht. destruct (proj2 (csi_steps _) s t HW Ht (le_n _)) as (s' & v & E & H & _). eauto.
Qed.

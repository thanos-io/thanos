(* C10 — proofs about the selection model: chunk time filter, posting groups. *)
From Coq Require Import ZArith NArith List Bool Lia Sorted.
From Coq Require Strings.String.
Import ListNotations.
From Verif Require Import Lib.Corr Lib.ListFacts Lib.Storegw_Str Gen.C10 Model.C10.
Open Scope Z_scope.

Lemma smem_in v l : smem v l = true <-> In v l.
Proof.
  induction l as [|a l IH]; simpl; [split; [discriminate|tauto]|].
  rewrite orb_true_iff, IH, str_eqb_eq. split; intros [H|H]; auto.
Qed.

Lemma smem_ext v l1 l2 : (forall x, In x l1 <-> In x l2) -> smem v l1 = smem v l2.
Proof.
  intro H. destruct (smem v l1) eqn:E1, (smem v l2) eqn:E2; try reflexivity.
  - apply smem_in in E1. apply H in E1. apply smem_in in E1. congruence.
  - apply smem_in in E2. apply H in E2. apply smem_in in E2. congruence.
Qed.

(* [sinsert] is, as a term, the sorted insertion [ins str_leb] of Lib/ListFacts.v, so that
   file's lemmas about [isort] speak of [ssort]. *)
Lemma ssort_isort l : ssort l = isort str_leb l.
Proof. reflexivity. Qed.

Lemma ssort_in y l : In y (ssort l) <-> In y l.
Proof. exact (isort_In str_leb y l). Qed.

Lemma ssort_sorted l : StronglySorted str_le (ssort l).
Proof. exact (str_isort_sorted l). Qed.

Lemma scompact_in y : forall l, In y (scompact l) <-> In y l.
Proof.
  induction l as [|a l IH]; [tauto|]. cbn [scompact]. destruct l as [|b l']; [tauto|].
  destruct (str_eqb a b) eqn:E.
  - apply str_eqb_eq in E. subst b. rewrite IH. simpl. intuition.
  - change (In y (a :: scompact (b :: l')) <-> In y (a :: b :: l')). simpl. simpl in IH. rewrite IH. tauto.
Qed.

Lemma smem_sorted_sets v l : smem v (scompact (ssort l)) = smem v l.
Proof. apply smem_ext. intro x. rewrite scompact_in, ssort_in. tauto. Qed.

Lemma smem_filter v f l : smem v (filter f l) = smem v l && f v.
Proof.
  induction l as [|a l IH]; simpl; [reflexivity|].
  destruct (f a) eqn:Ea; simpl; rewrite IH.
  - destruct (str_eqb v a) eqn:E; simpl; [|reflexivity]. apply str_eqb_eq in E. subst a. rewrite Ea. reflexivity.
  - destruct (str_eqb v a) eqn:E; simpl; [|reflexivity]. apply str_eqb_eq in E. subst a. rewrite Ea.
    rewrite andb_false_r. reflexivity.
Qed.

Definition overlaps (mint maxt : Z) (c : chunk) : bool :=
  let '(cmin, cmax, _) := c in (cmin <=? maxt) && (mint <=? cmax).

Definition cmin_of (c : chunk) : Z := fst (fst c).

(* chunks of a series are ordered by start time; once one starts after the queried range
   every later one does too, so the early [break] loses nothing *)
Lemma chunks_for_filter : forall cs mint maxt,
  StronglySorted (fun a b => cmin_of a <= cmin_of b) cs ->
  chunks_for cs mint maxt = filter (overlaps mint maxt) cs.
Proof.
  induction cs as [|[[cmin cmax] h] cs IH]; intros mint maxt Hs; [reflexivity|].
  inversion Hs as [|? ? Hs' Hall]; subst.
  cbn [chunks_for filter overlaps]. unfold chunk_break_cond, chunk_keep_cond.
  destruct (cmin >? maxt) eqn:E1.
  - rewrite Z.gtb_ltb in E1. apply Z.ltb_lt in E1.
    replace (cmin <=? maxt) with false by (symmetry; apply Z.leb_gt; lia). cbn [andb].
    (* nothing later overlaps either *)
    symmetry. clear IH Hs Hs'. induction cs as [|[[c2 c3] h2] cs IH2]; [reflexivity|].
    inversion Hall as [|? ? H1 H2]; subst. unfold cmin_of in H1. simpl in H1.
    cbn [filter overlaps]. replace (c2 <=? maxt) with false by (symmetry; apply Z.leb_gt; lia). cbn [andb].
    apply IH2. exact H2.
  - rewrite Z.gtb_ltb in E1. apply Z.ltb_ge in E1.
    replace (cmin <=? maxt) with true by (symmetry; apply Z.leb_le; lia). cbn [andb].
    rewrite Z.geb_leb. destruct (mint <=? cmax); rewrite IH by exact Hs'; reflexivity.
Qed.

Definition in_group (g : group) (v : str) : bool :=
  if g_all g then negb (smem v (g_rem g)) else smem v (g_add g).

(* the truth function of one matcher follows its type, value and set matches: what Prometheus
   matchers guarantee (labels.Matcher / FastRegexMatcher contracts) *)
Definition coherent (m : matcher) : Prop :=
  match m_type m with
  | MEq => forall v, m_fun m v = str_eqb v (m_value m)
  | MNeq => forall v, m_fun m v = negb (str_eqb v (m_value m))
  | MRe => (m_sets m <> [] -> forall v, m_fun m v = smem v (m_sets m))
           /\ (m_value m = dot_star -> forall v, m_fun m v = true)
           /\ (m_value m = dot_plus -> forall v, m_fun m v = negb (is_nil v))
           /\ (m_value m = [] -> forall v, m_fun m v = is_nil v)
  | MNre => (m_sets m <> [] -> forall v, m_fun m v = negb (smem v (m_sets m)))
            /\ (m_value m = dot_star -> forall v, m_fun m v = false)
            /\ (m_value m = dot_plus -> forall v, m_fun m v = is_nil v)
            /\ (m_value m = [] -> forall v, m_fun m v = negb (is_nil v))
  end.

Lemma is_nil_eqb (v : str) : is_nil v = str_eqb v [].
Proof. destruct v; reflexivity. Qed.

Lemma is_nil_true {A} (l : list A) : is_nil l = true -> l = [].
Proof. destruct l; [reflexivity|discriminate]. Qed.

Lemma is_nil_false {A} (l : list A) : is_nil l = false -> l <> [].
Proof. destruct l; [discriminate|]. intros _ H. discriminate. Qed.

(* reduces [in_group] of a record built by [to_group] to the membership test of its keys *)
Ltac R := unfold in_group; cbn [mtype_eqb andb orb negb g_all g_add g_rem]; rewrite ?andb_false_r; cbn [mtype_eqb andb orb negb g_all g_add g_rem].

Lemma group_sem m vals v :
  coherent m -> smem [] vals = false -> (smem v vals = true \/ v = []) ->
  in_group (to_group m vals) v = m_fun m v.
Proof.
  intros Hc Hne Hv. unfold to_group.
  assert (Hvals : smem v vals = negb (is_nil v)).
  { destruct Hv as [H | ->]; [|simpl; exact Hne]. rewrite H. destruct v; [congruence|reflexivity]. }
  unfold coherent in Hc.
  destruct (m_type m) eqn:Et; cbn [mtype_eqb andb orb negb].
  - (* = *)
    destruct (m_fun m []) eqn:E0.
    + rewrite Hc in E0. destruct (is_nil (m_value m)) eqn:En.
      * apply is_nil_true in En. R. rewrite Hvals, Hc, En, <- is_nil_eqb.
        rewrite negb_involutive. reflexivity.
      * apply is_nil_false in En. exfalso. apply En. symmetry. apply str_eqb_eq. exact E0.
    + R. cbn [smem negb]. rewrite Hc, orb_false_r. reflexivity.
  - (* != *)
    destruct (m_fun m []) eqn:E0.
    + R. cbn [smem negb]. rewrite Hc, orb_false_r. reflexivity.
    + rewrite Hc in E0. apply negb_false_iff in E0. apply str_eqb_eq in E0.
      rewrite <- E0. cbn [is_nil]. R. rewrite Hvals, Hc, <- E0, <- is_nil_eqb. reflexivity.
  - (* =~ *)
    destruct Hc as (Hsets & Hstar & Hplus & Hempty).
    destruct (str_eqb (m_value m) dot_star) eqn:Es.
    { apply str_eqb_eq in Es. R. cbn [smem negb]. rewrite Hstar by exact Es. reflexivity. }
    destruct (m_fun m []) eqn:E0.
    + destruct (is_nil (m_value m)) eqn:En.
      * apply is_nil_true in En. R. rewrite Hvals, Hempty by exact En.
        rewrite negb_involutive. reflexivity.
      * R. rewrite smem_filter, Hvals.
        destruct v as [|x v']; cbn [is_nil negb andb]; [rewrite E0; reflexivity|].
        rewrite negb_involutive. reflexivity.
    + destruct (is_nil (m_sets m)) eqn:Esets; cbn [negb].
      * destruct (str_eqb (m_value m) dot_plus) eqn:Ep.
        -- apply str_eqb_eq in Ep. R. rewrite Hvals, Hplus by exact Ep. reflexivity.
        -- R. rewrite smem_filter, Hvals.
           destruct v as [|x v']; cbn [is_nil negb andb]; [rewrite E0; reflexivity|reflexivity].
      * apply is_nil_false in Esets. R.
        rewrite smem_sorted_sets, Hsets by exact Esets. reflexivity.
  - (* !~ *)
    destruct Hc as (Hsets & Hstar & Hplus & Hempty).
    destruct (str_eqb (m_value m) dot_star) eqn:Es.
    { apply str_eqb_eq in Es. R. cbn [smem negb]. rewrite Hstar by exact Es. reflexivity. }
    destruct (m_fun m []) eqn:E0.
    + destruct (is_nil (m_sets m)) eqn:Esets; cbn [negb].
      * destruct (str_eqb (m_value m) dot_plus) eqn:Ep.
        -- apply str_eqb_eq in Ep. R. rewrite Hvals, Hplus by exact Ep.
           rewrite negb_involutive. reflexivity.
        -- R. rewrite smem_filter, Hvals.
           destruct v as [|x v']; cbn [is_nil negb andb]; [rewrite E0; reflexivity|].
           rewrite negb_involutive. reflexivity.
      * apply is_nil_false in Esets. R.
        rewrite smem_sorted_sets, Hsets by exact Esets. reflexivity.
    + destruct (is_nil (m_value m)) eqn:En.
      * apply is_nil_true in En. R. rewrite Hvals, Hempty by exact En. reflexivity.
      * R. rewrite smem_filter, Hvals.
        destruct v as [|x v']; cbn [is_nil negb andb]; [rewrite E0; reflexivity|reflexivity].
Qed.

(* tie T: the order of the tests in toPostingGroup is the one modelled *)
Section TestsOrder.
Import Coq.Strings.String.   (* inside a section, so that [length] and [concat] stay List's after it *)
Lemma to_posting_group_tests_order :
  to_posting_group_tests =
  [("if", "m.Type == labels.MatchRegexp && m.Value == "".*""");
   ("if", "m.Type == labels.MatchNotRegexp && m.Value == "".*""");
   ("if", "m.Matches("""")");
   ("if", "m.Type == labels.MatchNotRegexp");
   ("if", "m.Type == labels.MatchNotEqual");
   ("if", "m.Value == """" && (m.Type == labels.MatchEqual || m.Type == labels.MatchRegexp)");
   ("if", "m.Type == labels.MatchNotRegexp && m.Value == "".+""");
   ("if", "m.Type == labels.MatchRegexp");
   ("if", "m.Type == labels.MatchEqual");
   ("if", "m.Value == """" && (m.Type == labels.MatchNotEqual || m.Type == labels.MatchNotRegexp)");
   ("if", "m.Type == labels.MatchRegexp && m.Value == "".+""")]%string.
Proof. reflexivity. Qed.
End TestsOrder.

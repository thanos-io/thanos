(* C04 — deduplication off with OVERLAPPING pieces: a series whose chunks are
   arbitrary (overlapping, nested, duplicated) pieces of its strictly increasing
   samples L, sorted by MinTime and together holding every sample, is read back
   as exactly L by the chunk iterator. *)
From Coq Require Import ZArith List Bool NArith Lia Sorting.Sorted.
Import ListNotations.
From Verif Require Import Lib.Corr Gen.C04 Model.C04 Proofs.C04 Proofs.C04_Cuts.
Open Scope Z_scope.

Lemma sub_full : forall A B, sub A B -> (length B <= length A)%nat -> A = B.
Proof.
  induction 1 as [B|x A B H IH|x A B H IH]; simpl; intros Hl.
  - destruct B; [reflexivity|simpl in Hl; lia].
  - apply sub_length in H. lia.
  - f_equal. apply IH. lia.
Qed.

Section Pieces.
Variable L : list sample.
Hypothesis HL : SS L.

Lemma good_last c x r : good L c -> csamples c = x :: r -> last_t (fst x) r = cmax c.
Proof. intros [(x' & r' & E & _ & Hmax) _] E2. rewrite E in E2. injection E2 as -> ->. symmetry. exact Hmax. Qed.

(* every sample at or above the threshold that some chunk holds is delivered *)
Lemma chunk_iter_from_delivers : forall cs thr x,
  StronglySorted (fun c d => cmin c <= cmin d) cs -> Forall (good L) cs ->
  In x L -> thr <= fst x -> (exists c, In c cs /\ In x (csamples c)) ->
  In x (chunk_iter_from thr (map csamples cs)).
Proof.
  induction cs as [|c cs IH]; intros thr x Hsort Hgood HxL Hthr (c0 & Hc0 & Hx); [destruct Hc0|].
  apply StronglySorted_inv in Hsort as [Hsort Hle]. rewrite Forall_forall in Hle.
  pose proof (Forall_inv Hgood) as Hc. pose proof (Forall_inv_tail Hgood) as Hgood'.
  rewrite Forall_forall in Hgood.
  pose proof (good_bounds L HL c0 x (Hgood c0 Hc0) Hx) as Hb0.
  assert (Hlo : cmin c <= fst x) by (destruct Hc0 as [<-|Hc0]; [|specialize (Hle _ Hc0)]; lia).
  cbn [map chunk_iter_from].
  destruct (Z_le_gt_dec (fst x) (cmax c)) as [Hhi|Hhi].
  - (* x lies within the bounds of c, so c holds it *)
    assert (Hin : In x (csamples c)).
    { rewrite (proj2 Hc). apply filter_In. split; [exact HxL|]. apply andb_true_iff. rewrite !Z.leb_le. lia. }
    apply (in_drop_lt thr) in Hin; [|eapply SS_sub; [apply good_sub, Hc|exact HL]|exact Hthr].
    destruct (drop_lt thr (csamples c)) as [|y c']; [destruct Hin|].
    apply in_or_app. left. exact Hin.
  - (* x lies after the end of c, so a later chunk holds it *)
    destruct Hc0 as [<-|Hc0]; [lia|].
    destruct (drop_lt thr (csamples c)) as [|y c'] eqn:E; [|apply in_or_app; right]; apply IH; eauto.
    destruct (csamples c) as [|x0 r0] eqn:Ec; [discriminate E|].
    rewrite (drop_lt_last _ _ _ _ _ E), (good_last c x0 r0 Hc Ec). lia.
Qed.

Lemma chunk_iter_pieces cs :
  Forall (fun x => MinT < fst x) L ->
  StronglySorted (fun c d => cmin c <= cmin d) cs -> Forall (good L) cs ->
  (forall x, In x L -> exists c, In c cs /\ In x (csamples c)) ->
  chunk_iter cs = L.
Proof.
  intros HM Hsort Hgood Hcov.
  pose proof (chunk_iter_sub L cs HL Hgood) as Hsub.
  apply sub_full; [exact Hsub|]. apply sub_length.
  apply sorted_sublist; [eapply SS_sub; eassumption|exact HL|].
  intros x Hx. apply chunk_iter_from_delivers; auto.
  rewrite Forall_forall in HM. specialize (HM _ Hx). lia.
Qed.
End Pieces.

(* Select with dedup off over series made of such pieces *)
Record pitem := mkP { p_lbl : labels; p_L : list sample; p_cs : list chunk }.

Definition pitem_ok (x : pitem) : Prop :=
  rawstream (p_L x)
  /\ StronglySorted (fun c d => cmin c <= cmin d) (p_cs x)
  /\ Forall (good (p_L x)) (p_cs x)
  /\ (forall y, In y (p_L x) -> exists c, In c (p_cs x) /\ In y (csamples c)).

Theorem select_plain_pieces mint maxt items :
  Forall pitem_ok items ->
  select mint maxt false (map (fun x => (p_lbl x, p_cs x)) items)
  = Some (map (fun x => (p_lbl x, in_range mint maxt (p_L x))) items).
Proof.
  intros HF. rewrite Forall_forall in HF.
  assert (Hci : forall x, In x items -> chunk_iter (p_cs x) = p_L x).
  { intros x Hx. destruct (HF _ Hx) as ([HS HM] & Hsort & Hgood & Hcov). apply chunk_iter_pieces; auto. }
  rewrite select_plain, map_map.
  - f_equal. apply map_ext_in. intros x Hx. cbn [fst snd]. rewrite (Hci x Hx). reflexivity.
  - apply Forall_map, Forall_forall. intros x Hx. cbn [snd]. rewrite (Hci x Hx). apply (HF x Hx).
Qed.

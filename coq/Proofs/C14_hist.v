(* C14 — the other operations, one step, whole read histories, and the faulty bucket. *)
From Coq Require Import ZArith NArith List Bool Lia.
Import ListNotations.
From Verif Require Import Lib.Corr Lib.ListFacts Gen.C14 Model.C14 Proofs.C14 Proofs.C14_main.
Open Scope Z_scope.

Definition op_truth (listing : N -> bool -> list N) (o : op) : list N :=
  match o with OIter d r => listing d r | _ => [] end.

Definition valid_op (o : op) : Prop :=
  match o with OGetRange _ off len => 0 <= off /\ 0 < len | OGet _ chunk => 0 < chunk | _ => True end.

Definition res_of (x : outcome * cache) : result := fst (fst (fst x)).

Lemma get_reader_none chunk maxsize : forall fuel rest, get_reader fuel rest chunk maxsize None = None.
Proof.
  induction fuel as [|f IH]; intro rest; [reflexivity|]. cbn [get_reader].
  destruct (blen rest <=? 0); [reflexivity|apply IH].
Qed.

(* The buffer grows by one read at a time and is dropped for good by the first read that
   makes it exceed maxsize; its sizes only grow, so it survives to EOF exactly when the
   whole object fits. With nothing left to read the buffer is returned as it is. *)
Lemma get_reader_eq chunk maxsize : 0 < chunk -> forall fuel rest b, (length rest < fuel)%nat ->
  get_reader fuel rest chunk maxsize (Some b)
  = if (blen rest <=? 0) || (blen b + blen rest <=? maxsize) then Some (b ++ rest) else None.
Proof.
  intro Hc. induction fuel as [|f IH]; intros rest b Hf; [lia|].
  cbn [get_reader]. destruct (Z.leb_spec (blen rest) 0) as [E0|E0].
  - rewrite (blen_0 rest E0), app_nil_r. reflexivity.
  - cbn [orb]. set (n := Z.min chunk (blen rest)). assert (Hn : 0 < n <= blen rest) by lia.
    set (rest' := slice rest n (blen rest)).
    assert (Hbl : blen rest' = blen rest - n) by (apply slice_length; lia).
    assert (Hsplit : slice rest 0 n ++ rest' = rest).
    { unfold rest'. rewrite slice_app by lia. apply slice_full. }
    destruct (Z.leb_spec (blen b + n) maxsize) as [E1|E1].
    + rewrite IH by (unfold blen in *; lia).
      rewrite blen_app, slice_length, Hbl, <- app_assoc, Hsplit by lia.
      destruct (Z.leb_spec (blen rest - n) 0), (Z.leb_spec (blen b + (n - 0) + (blen rest - n)) maxsize),
        (Z.leb_spec (blen b + blen rest) maxsize); (reflexivity || lia).
    + rewrite get_reader_none. destruct (Z.leb_spec (blen b + blen rest) maxsize); [lia|reflexivity].
Qed.

(* the chunked getReader stores exactly the complete object, and only when it fits *)
Lemma get_reader_ok chunk maxsize : 0 < chunk -> forall fuel rest b, (length rest < fuel)%nat ->
  blen b <= maxsize ->
  get_reader fuel rest chunk maxsize (Some b) = (if blen b + blen rest <=? maxsize then Some (b ++ rest) else None).
Proof.
  intros Hc fuel rest b Hf Hb. rewrite get_reader_eq by assumption. pose proof (blen_nonneg rest).
  destruct (Z.leb_spec (blen rest) 0), (Z.leb_spec (blen b + blen rest) maxsize); (reflexivity || lia).
Qed.

(* without any assumption on maxSize: what is stored is never a proper prefix *)
Lemma get_reader_whole chunk maxsize : 0 < chunk -> forall fuel rest b, (length rest < fuel)%nat ->
  get_reader fuel rest chunk maxsize (Some b) = None \/ get_reader fuel rest chunk maxsize (Some b) = Some (b ++ rest).
Proof. intros Hc fuel rest b Hf. rewrite get_reader_eq by assumption. destruct (_ || _); auto. Qed.

Lemma get_ok g w listing c hits name chunk : 0 < chunk -> cache_ok w listing c ->
  answers w listing (get g w c hits name chunk) (reference w (OGet name chunk) []).
Proof.
  intros Hchunk Hc. unfold get.
  (* the three layers of Get: content cached / known absent / read from the bucket *)
  set (miss := match find_obj w name with Some _ => _ | None => _ end).
  set (known := match fetch c hits (KExists name) with Some _ => _ | None => _ end).
  unfold reference.
  assert (Hmiss : answers w listing miss (match find_obj w name with Some obj => RBytes obj | None => RErr end)).
  { unfold miss. destruct (find_obj w name) as [o|] eqn:Eo; cbv iota beta.
    - set (R := get_reader _ _ _ _ _).
      destruct (get_reader_whole chunk (c_maxsize g) Hchunk (S (length o)) o [] ltac:(lia) : R = None \/ R = Some o) as [-> | ->];
        (split; [reflexivity|]); repeat apply cache_ok_store; simpl; rewrite ?Eo; eauto.
    - split; [reflexivity|]. apply cache_ok_store; [exact Hc|simpl; rewrite Eo; reflexivity]. }
  assert (Hknown : answers w listing known (match find_obj w name with Some obj => RBytes obj | None => RErr end)).
  { unfold known. destruct (fetch c hits (KExists name)) as [[b|z|[|]|l]|] eqn:E; try exact Hmiss.
    apply (fetch_ok _ _ _ _ _ _ Hc) in E. simpl in E.
    destruct (find_obj w name); [discriminate|]. split; [reflexivity|exact Hc]. }
  destruct (fetch c hits (KContent name)) as [[[|x b]|z|b|l]|] eqn:E; try exact Hknown.
  destruct (fetch_ok _ _ _ _ _ _ Hc E) as (o & Ho & Hv). inversion Hv; subst.
  rewrite Ho. split; [reflexivity|exact Hc].
Qed.

Lemma exists_ok w listing c hits name : cache_ok w listing c ->
  answers w listing (exists_ w c hits name) (reference w (OExists name) []).
Proof.
  intro Hc. unfold exists_, reference.
  destruct (fetch c hits (KExists name)) as [[b|z|b|l]|] eqn:E;
    try (split; [reflexivity|apply cache_ok_store; [exact Hc|reflexivity]]).
  apply (fetch_ok _ _ _ _ _ _ Hc) in E. simpl in E. inversion E; subst. split; [reflexivity|exact Hc].
Qed.

Lemma attributes_ok w listing c hits name : cache_ok w listing c ->
  answers w listing (attributes w c hits name) (reference w (OAttr name) []).
Proof.
  intro Hc. unfold attributes, reference.
  pose proof (cached_attributes_ok w listing c hits name Hc) as Ha.
  destruct (cached_attributes w c hits name) as [[osz c1] st]. destruct Ha as (Hc1 & Ho).
  destruct (find_obj w name); subst osz; split; auto.
Qed.

Lemma iter_ok w listing c hits d r : cache_ok w listing c ->
  answers w listing (iter c hits d r (listing d r)) (RList (listing d r)).
Proof.
  intro Hc. unfold iter.
  destruct (fetch c hits (KIter d r)) as [[b|z|b|l]|] eqn:E;
    try (split; [reflexivity|apply cache_ok_store; [exact Hc|reflexivity]]).
  apply (fetch_ok _ _ _ _ _ _ Hc) in E. simpl in E. inversion E; subst. split; [reflexivity|exact Hc].
Qed.

Lemma step_ok g w listing c o hits :
  0 < c_S g -> valid_op o -> cache_ok w listing c ->
  answers w listing (step g w c o hits (op_truth listing o)) (reference w o (op_truth listing o)).
Proof.
  intros HS Hv Hc. destruct o as [n off len|n chunk|n|n|d r]; simpl step; simpl op_truth.
  - destruct Hv as [H1 H2]. apply get_range_ok; assumption.
  - apply get_ok; assumption.
  - apply exists_ok; assumption.
  - apply attributes_ok; assumption.
  - apply iter_ok; assumption.
Qed.

Fixpoint run (g : cfg) (w : world) (listing : N -> bool -> list N) (c : cache) (ops : list (op * list key)) : list result :=
  match ops with
  | [] => []
  | (o, hits) :: r =>
      let x := step g w c o hits (op_truth listing o) in
      res_of x :: run g w listing (snd x) r
  end.

(* induction along a history that starts from a truthful cache: each step answers like the
   underlying bucket and hands a truthful cache on to the rest *)
Lemma history_ind g w listing (P : cache -> list (op * list key) -> Prop) : 0 < c_S g ->
  (forall c, P c []) ->
  (forall c o hits r, valid_op o ->
     let x := step g w c o hits (op_truth listing o) in
     res_of x = reference w o (op_truth listing o) -> P (snd x) r -> P c ((o, hits) :: r)) ->
  forall ops c, cache_ok w listing c -> Forall (fun p => valid_op (fst p)) ops -> P c ops.
Proof.
  intros HS H0 Hs. induction ops as [|[o hits] ops IH]; intros c Hc Hv; [apply H0|].
  inversion Hv as [|? ? Hv1 Hv2]; subst.
  destruct (step_ok g w listing c o hits HS Hv1 Hc) as (H1 & H2). apply Hs; auto.
Qed.

Lemma history_ok g w listing : 0 < c_S g ->
  forall ops c, cache_ok w listing c -> Forall (fun p => valid_op (fst p)) ops ->
  run g w listing c ops = map (fun p => reference w (fst p) (op_truth listing (fst p))) ops.
Proof.
  intro HS. apply (history_ind g w listing); [exact HS|reflexivity|].
  intros c o hits r _ x H1 IH. simpl. fold x. rewrite H1, IH. reflexivity.
Qed.

(* the case the harness would emit when the implementation behaves like the model *)
Fixpoint mk_obs (g : cfg) (w : world) (listing : N -> bool -> list N) (c : cache) (ops : list (op * list key)) : list obs :=
  match ops with
  | [] => []
  | (o, hits) :: r =>
      let truth := op_truth listing o in
      let x := step g w c o hits truth in
      (o, hits, truth, res_of x, reference w o truth, snd (fst (fst x)), snd (fst x)) :: mk_obs g w listing (snd x) r
  end.

Lemma result_eqb_refl r : r <> RUnmodelled -> result_eqb r r = true.
Proof.
  destruct r; simpl; intro H; try reflexivity; try congruence.
  - apply bytes_eqb_refl.
  - apply Bool.eqb_reflx.
  - apply Z.eqb_refl.
  - apply bytes_eqb_refl.
Qed.

Lemma zz_eqb_refl p : zz_eqb p p = true.
Proof. unfold zz_eqb. rewrite !Z.eqb_refl. reflexivity. Qed.

Lemma keyset_eqb_refl l : keyset_eqb l l = true.
Proof.
  unfold keyset_eqb.
  assert (H : forallb (fun k => mem_key k l) l = true).
  { apply forallb_forall. intros k Hk. apply existsb_exists. exists k. split; [exact Hk|apply key_eqb_eq; reflexivity]. }
  rewrite H. reflexivity.
Qed.

Lemma reference_modelled w o truth : valid_op o -> reference w o truth <> RUnmodelled.
Proof.
  destruct o as [n off len|n chunk|n|n|d r]; simpl; intro Hv; try (destruct (find_obj w n); discriminate); try discriminate.
  rewrite orb_false_intro by lia.
  destruct (find_obj w n); discriminate.
Qed.

Lemma case_ok g w listing : 0 < c_S g ->
  forall ops c, cache_ok w listing c -> Forall (fun p => valid_op (fst p)) ops ->
  run_corr g w c (mk_obs g w listing c ops) = true
  /\ forallb (fun x : obs =>
                let '(o, _, truth, impl, under, _, _) := x in
                result_eqb impl under && result_eqb (reference w o truth) under) (mk_obs g w listing c ops) = true.
Proof.
  intro HS. apply (history_ind g w listing); [exact HS|split; reflexivity|].
  intros c o hits r Hv x H1 (I1 & I2). cbn [mk_obs run_corr forallb]. fold x.
  pose proof (reference_modelled w o (op_truth listing o) Hv) as Hm. rewrite <- H1 in Hm |- *.
  destruct x as [[[res calls] stores] c']. cbn [res_of fst snd] in *.
  rewrite (result_eqb_refl _ Hm), (list_eqb_refl _ zz_eqb_refl), orb_true_r, keyset_eqb_refl, I1, I2. split; reflexivity.
Qed.

(* The faulty bucket: the bodies of underlying reads are cut short. [fetch_one_f] fails on every
   short body because each error test after io.ReadFull in fetchMissingSubranges is a plain
   err != nil; that fact is read off the source on every run and stops checking here when
   the tests are relaxed. *)
Lemma read_full_err_test_checked : read_full_err_test_ok = true.
Proof. reflexivity. Qed.

(* a fetch whose body is shorter than the buffer fails: nothing is cut, nothing is stored *)
Lemma fetch_one_f_short cut obj S lastOff lastLen known ms me h st :
  blen (cut_body cut (under_get_range obj ms (me - ms)))
  < (if buf_full_cond lastOff me then buf_size_full ms me else buf_size_last ms me S lastLen) ->
  fetch_one_f cut obj S lastOff lastLen known (ms, me) h st = None.
Proof.
  intros H. unfold fetch_one_f.
  apply Z.ltb_lt in H. rewrite H, orb_true_r. reflexivity.
Qed.

(* a fetch over the faulty bucket that succeeds is the healthy fetch: the body was long enough
   and the buffer holds the same bytes *)
Lemma fetch_one_f_some cut obj S lastOff lastLen known m h st r : 0 <= cut ->
  fetch_one_f cut obj S lastOff lastLen known m h st = Some r ->
  fetch_one obj S lastOff lastLen known m h st = Some r.
Proof.
  destruct m as [ms me]. intro Hcut. unfold fetch_one_f, fetch_one, cut_body.
  set (data := under_get_range obj ms (me - ms)). pose proof (blen_nonneg data).
  set (bufSize := if buf_full_cond lastOff me then _ else _).
  destruct (Z.ltb_spec bufSize 0); [auto|]. cbn [orb]. rewrite slice_length by lia.
  destruct (Z.ltb_spec (Z.min cut (blen data) - 0) bufSize); [discriminate|].
  destruct (Z.ltb_spec (blen data) bufSize); [lia|].
  rewrite slice_slice by lia. auto.
Qed.

Lemma fetch_all_f_some cut obj S lastOff lastLen known : 0 <= cut -> forall ms h st r,
  fetch_all_f cut obj S lastOff lastLen known ms h st = Some r ->
  fetch_all obj S lastOff lastLen known ms h st = Some r.
Proof.
  intro Hcut. induction ms as [|m ms IH]; intros h st r H; [exact H|].
  cbn [fetch_all_f] in H. cbn [fetch_all].
  destruct (fetch_one_f cut obj S lastOff lastLen known m h st) as [[h' st']|] eqn:E; [|discriminate].
  rewrite (fetch_one_f_some _ _ _ _ _ _ _ _ _ _ Hcut E). apply IH. exact H.
Qed.

(* whatever cachedGetRange over the faulty bucket returns is what the healthy one returns
   (same answer, same cache), or an error having stored nothing but the attributes *)
Lemma get_range_f_cases cut g w c hits name off len : 0 <= cut ->
  forall r, get_range_f cut g w c hits name off len = r ->
  r = get_range g w c hits name off len
  \/ r = let '(_, c1, st1) := cached_attributes w c hits name in ((RErr, [], st1), c1).
Proof.
  intros Hcut r. unfold get_range_f, get_range.
  destruct (_ || _); [intros <-; auto|].
  destruct (cached_attributes w c hits name) as [[[size|] c1] st1]; [|intros <-; auto].
  destruct (find_obj w name) as [obj|]; [|intros <-; auto].
  destruct (past_end_cond off size); [intros <-; auto|].
  cbv zeta. destruct (_ <? _); [|intros <-; auto].
  destruct (merge_loop _ _ _ _) as [merged|]; [|intros <-; auto].
  destruct (fetch_all_f _ _ _ _ _ _ _ _ _) as [[h1 st]|] eqn:E; intros <-; [|auto].
  rewrite (fetch_all_f_some _ _ _ _ _ _ Hcut _ _ _ _ E). auto.
Qed.

(* hence, for every fault: the answer is the underlying bucket's bytes or an error - never
   other bytes - and the cache stays truthful *)
Lemma get_range_f_ok cut g w listing c hits name off len :
  0 <= cut -> 0 < c_S g -> 0 <= off -> 0 < len -> cache_ok w listing c ->
  (fst (fst (fst (get_range_f cut g w c hits name off len))) = reference w (OGetRange name off len) []
   \/ fst (fst (fst (get_range_f cut g w c hits name off len))) = RErr)
  /\ cache_ok w listing (snd (get_range_f cut g w c hits name off len)).
Proof.
  intros Hcut HS Hoff Hlen Hc.
  destruct (get_range_f_cases cut g w c hits name off len Hcut _ eq_refl) as [-> | ->].
  - destruct (get_range_ok g w listing c hits name off len HS Hoff Hlen Hc) as (H1 & H2). auto.
  - pose proof (cached_attributes_ok w listing c hits name Hc) as Ha.
    destruct (cached_attributes w c hits name) as [[osz c1] st1]. destruct Ha as [Ha _]. auto.
Qed.

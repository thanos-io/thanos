(* C39 — proofs about Model/C39.v. The varints of the model, written with Go's
   bit operations, are brought to the arithmetic form of Lib/Uvarint.v. Both
   versions of Get are one loop that parses a slot per iteration, differing in
   where the size test stands; on the encoder's output each iteration sees the
   bytes of one slot, which gives the round trip for both at once. *)
From Coq Require Import ZArith NArith String List Bool Lia Arith.
Import ListNotations.
From Verif Require Import Lib.Corr Lib.ListFacts Gen.C39 Model.C39.
From Verif Require Lib.Uvarint.
Open Scope N_scope.

Lemma testbit_small a n : a < 2 ^ n -> N.testbit a n = false.
Proof.
  intros H. destruct (N.eq_dec a 0) as [->|Hz]; [apply N.bits_0|].
  apply N.bits_above_log2. apply N.log2_lt_pow2; lia.
Qed.

Lemma lor_shiftl_add a v s : a < 2 ^ s -> N.lor a (N.shiftl v s) = a + v * 2 ^ s.
Proof.
  intros H.
  assert (L : N.land a (N.shiftl v s) = 0).
  { apply N.bits_inj_0. intros n. rewrite N.land_spec.
    destruct (N.lt_ge_cases n s) as [Hn|Hn].
    - rewrite N.shiftl_spec_low by assumption. apply andb_false_r.
    - rewrite testbit_small; [reflexivity|].
      eapply N.lt_le_trans; [exact H|]. apply N.pow_le_mono_r; lia. }
  rewrite <- N.lxor_lor by exact L.
  rewrite <- N.add_nocarry_lxor by exact L.
  rewrite N.shiftl_mul_pow2. reflexivity.
Qed.

(* byte(x)|0x80: the low seven bits of x with bit 7 set, whether x has it or not *)
Lemma cont_byte x : N.lor (x mod 256) 128 = x mod 128 + 128.
Proof.
  change 256 with (128 * 2). rewrite N.mod_mul_r by discriminate.
  pose proof (lor_shiftl_add (x mod 128) 1 7 (N.mod_lt _ 128 ltac:(discriminate))) as E.
  change (N.shiftl 1 7) with 128 in E. change (1 * 2 ^ 7) with 128 in E.
  pose proof (N.mod_lt (x / 128) 2 ltac:(discriminate)) as Hb.
  set (b := (x / 128) mod 2) in *. assert (b = 0 \/ b = 1) as [-> | ->] by lia.
  - rewrite N.mul_0_r, N.add_0_r. exact E.
  - rewrite N.mul_1_r, <- E, <- N.lor_assoc, N.lor_diag. reflexivity.
Qed.

Lemma land_127 b : N.land b 127 = b mod 128.
Proof. change 127 with (N.ones 7). rewrite N.land_ones. reflexivity. Qed.

Lemma shiftr_7 x : N.shiftr x 7 = x / 128.
Proof. rewrite N.shiftr_div_pow2. reflexivity. Qed.

Lemma put_uvarint_f_eq : forall fuel x, put_uvarint_f fuel x = Uvarint.put fuel x.
Proof.
  induction fuel as [|f IH]; intro x; cbn [put_uvarint_f Uvarint.put]; [reflexivity|].
  rewrite cont_byte, shiftr_7, IH. reflexivity.
Qed.

Lemma put_uvarint_cons x : exists b t, put_uvarint x = b :: t.
Proof. unfold put_uvarint. rewrite put_uvarint_f_eq. apply Uvarint.put_cons. Qed.

Lemma put_uvarint_len8 x : x < 2 ^ 56 -> (List.length (put_uvarint x) <= 8)%nat.
Proof. intros H. unfold put_uvarint. rewrite put_uvarint_f_eq. exact (Uvarint.put_length 10 7 x H). Qed.

Lemma uvarint_go_last i x s b r : (i <= 9)%nat -> b < 128 -> (i = 9%nat -> b <= 1) -> x < 2 ^ s ->
  uvarint_go (b :: r) i x s = (x + b * 2 ^ s, Z.of_nat (S i)).
Proof.
  intros Hi Hb H9 Hx. cbn [uvarint_go].
  destruct (Nat.eqb_spec i 10); [lia|]. rewrite (proj2 (N.ltb_lt b 128) Hb).
  rewrite lor_shiftl_add, Nat2Z.inj_succ by exact Hx.
  destruct (Nat.eqb_spec i 9) as [E|_]; [|reflexivity].
  rewrite (proj2 (N.ltb_ge 1 b) (H9 E)). reflexivity.
Qed.

Lemma uvarint_go_cont i x s b r : (i <= 9)%nat -> 128 <= b -> x < 2 ^ s ->
  uvarint_go (b :: r) i x s = uvarint_go r (S i) (x + b mod 128 * 2 ^ s) (s + 7).
Proof.
  intros Hi Hb Hx. cbn [uvarint_go].
  destruct (Nat.eqb_spec i 10); [lia|]. rewrite (proj2 (N.ltb_ge b 128) Hb).
  rewrite land_127, lor_shiftl_add by exact Hx. reflexivity.
Qed.

Lemma uvarint_put x r : x < 2 ^ 64 ->
  uvarint (put_uvarint x ++ r) = (x, Z.of_nat (List.length (put_uvarint x))).
Proof.
  unfold uvarint, put_uvarint. rewrite put_uvarint_f_eq.
  apply (Uvarint.get_put _ (fun i x s buf => uvarint_go buf i x s) (fun v n _ => (v, Z.of_nat n))
           uvarint_go_last uvarint_go_cont); repeat constructor.
Qed.

(* one iteration: the length prefix and, if it is not 0, the l+1 bytes after it *)
Inductive parsed := PErr | PPanic | PAbsent (rest : list N) | PPresent (x rest : list N).

Definition parse_slot (presize : bool) (b : list N) : parsed :=
  let '(l, n) := uvarint b in
  let m := int_l_plus_1 l in
  let b' := skipn (Z.to_nat n) b in
  let short := (Z.of_nat (List.length b') <? m)%Z in
  if (n <? 1)%Z || (presize && short) then PErr
  else if l =? 0 then PAbsent b'
  else if short then PErr
  else if (m <? 0)%Z then PPanic
  else PPresent (firstn (Z.to_nat m) b') (skipn (Z.to_nat m) b').

(* [get_loop] is [gloop false], [get_presize_loop] is [gloop true] *)
Fixpoint gloop (presize : bool) (k : nat) (b : list N) : get_res :=
  match parse_slot presize b with
  | PErr => GErr
  | PPanic => GPanic
  | PAbsent r => match k with O => GNotExist | S k' => gloop presize k' r end
  | PPresent x r => match k with O => from_data x | S k' => gloop presize k' r end
  end.

Lemma get_loop_gloop : forall k b, get_loop k b = gloop false k b.
Proof.
  induction k as [|k IH]; intro b; cbn [get_loop gloop]; unfold parse_slot;
    destruct (uvarint b) as [l n]; cbv zeta; cbn [andb]; rewrite orb_false_r.
  all: destruct (n <? 1)%Z; [reflexivity|]; destruct (l =? 0); [auto|];
    destruct (_ <? int_l_plus_1 l)%Z; [reflexivity|]; destruct (_ <? 0)%Z; auto.
Qed.

Lemma get_presize_loop_gloop : forall k b, get_presize_loop k b = gloop true k b.
Proof.
  induction k as [|k IH]; intro b; cbn [get_presize_loop gloop]; unfold parse_slot;
    destruct (uvarint b) as [l n]; cbv zeta; cbn [andb].
  all: destruct (n <? 1)%Z; [reflexivity|]; destruct (_ <? int_l_plus_1 l)%Z; [reflexivity|]; cbn [orb];
    destruct (l =? 0); [auto|]; destruct (_ <? 0)%Z; auto.
Qed.

Definition slot_bytes (s : sub) : list N :=
  match s with
  | None => [0]
  | Some (e, d) => put_uvarint (N.of_nat (List.length d)) ++ e :: d
  end.

Lemma sub_wf_some e d :
  sub_wf (Some (e, d)) = true ->
  (0 < List.length d)%nat /\ existsb (N.eqb e) valid_encodings = true /\ N.of_nat (List.length d) < 2 ^ 56.
Proof.
  unfold sub_wf. intros H.
  apply andb_true_iff in H as [H H3]. apply andb_true_iff in H as [H1 H2].
  apply negb_true_iff in H1. apply Nat.eqb_neq in H1. apply N.ltb_lt in H3.
  repeat split; [lia|assumption|assumption].
Qed.

Lemma encode_slots : forall chks, forallb sub_wf chks = true -> encode chks = Some (flat_map slot_bytes chks).
Proof.
  induction chks as [|c chks IH]; intros Hwf; [reflexivity|].
  cbn [forallb] in Hwf. apply andb_true_iff in Hwf as [Hc Hwf].
  cbn [encode flat_map]. rewrite (IH Hwf). destruct c as [[e d]|]; [|reflexivity].
  apply sub_wf_some in Hc as (_ & _ & Hl). cbn [slot_bytes].
  rewrite (proj2 (Nat.ltb_ge uvarint_buf_len _) (put_uvarint_len8 _ Hl)), <- app_assoc. reflexivity.
Qed.

Lemma slots_nonempty c chks : flat_map slot_bytes (c :: chks) <> [].
Proof.
  cbn [flat_map]. destruct c as [[e d]|]; [|discriminate]. cbn [slot_bytes].
  destruct (put_uvarint_cons (N.of_nat (List.length d))) as (b & t & ->). discriminate.
Qed.

Lemma int_l_plus_1_small l : l < 2 ^ 56 -> int_l_plus_1 l = (Z.of_N l + 1)%Z.
Proof.
  intros H. unfold int_l_plus_1, to_int64.
  assert (l < 2 ^ 63) by (eapply N.lt_trans; [exact H|reflexivity]).
  rewrite (proj2 (N.ltb_lt l (2 ^ 63))) by assumption.
  assert (Z.of_N l < 2 ^ 63)%Z by (change (2 ^ 63)%Z with (Z.of_N (2 ^ 63)); lia).
  rewrite (proj2 (Z.ltb_lt _ _)) by lia. reflexivity.
Qed.

(* An iteration that starts at the bytes of a well-formed slot takes exactly
   them. The size test placed first wants a byte after an absent slot. *)
Lemma parse_slot_wf p s tl : sub_wf s = true -> (p = true -> s = None -> tl <> []) ->
  parse_slot p (slot_bytes s ++ tl) =
  match s with None => PAbsent tl | Some (e, d) => PPresent (e :: d) tl end.
Proof.
  intros W Htl. unfold parse_slot. destruct s as [[e d]|]; cbn [slot_bytes].
  - apply sub_wf_some in W as (Hd & _ & Hl). rewrite <- app_assoc.
    rewrite uvarint_put by (eapply N.lt_trans; [exact Hl|reflexivity]).
    destruct (put_uvarint_cons (N.of_nat (List.length d))) as (b0 & t0 & Eu).
    set (u := put_uvarint (N.of_nat (List.length d))) in *.
    rewrite int_l_plus_1_small by exact Hl. cbv zeta.
    replace (Z.of_N (N.of_nat (List.length d)) + 1)%Z with (Z.of_nat (List.length (e :: d))) by (cbn [List.length]; lia).
    rewrite !Nat2Z.id, skipn_app_length.
    rewrite (proj2 (Z.ltb_ge _ 1)) by (rewrite Eu; cbn [List.length]; lia).
    rewrite (proj2 (Z.ltb_ge (Z.of_nat (List.length ((e :: d) ++ tl))) _)) by (rewrite app_length; lia).
    rewrite (proj2 (N.eqb_neq _ 0)) by lia.
    rewrite (proj2 (Z.ltb_ge _ 0)) by lia.
    rewrite andb_false_r, firstn_app_length, skipn_app_length. reflexivity.
  - change (uvarint ([0] ++ tl)) with (0, 1%Z). cbv beta iota zeta.
    change (skipn (Z.to_nat 1) ([0] ++ tl)) with tl. change (int_l_plus_1 0) with 1%Z.
    destruct p; [|reflexivity].
    destruct tl as [|t tl]; [exfalso; exact (Htl eq_refl eq_refl eq_refl)|].
    rewrite (proj2 (Z.ltb_ge (Z.of_nat (List.length (t :: tl))) 1)) by (cbn [List.length]; lia). reflexivity.
Qed.

Lemma gloop_slots p : forall chks k s, forallb sub_wf chks = true -> nth_error chks k = Some s ->
  (p = true -> s <> None \/ (S k < List.length chks)%nat) ->
  gloop p k (flat_map slot_bytes chks) = expected s.
Proof.
  induction chks as [|c chks IH]; intros k s Hwf Hn Hp; [destruct k; discriminate|].
  cbn [forallb] in Hwf. apply andb_true_iff in Hwf as [Hc Hwf]. cbn [flat_map].
  assert (Htl : p = true -> c = None -> flat_map slot_bytes chks <> []).
  { intros Ep Ec. destruct chks as [|c' chks']; [|apply slots_nonempty].
    destruct k as [|[|k]]; [|discriminate..]. injection Hn as <-.
    destruct (Hp Ep) as [H|H]; [contradiction|cbn in H; lia]. }
  destruct k as [|k]; cbn [nth_error] in Hn; cbn [gloop]; rewrite (parse_slot_wf _ _ _ Hc Htl).
  - injection Hn as <-. destruct c as [[e d]|]; [|reflexivity].
    apply sub_wf_some in Hc as (_ & Hv & _). cbn [from_data expected]. rewrite Hv. reflexivity.
  - assert (Hp' : p = true -> s <> None \/ (S k < List.length chks)%nat)
      by (intro Ep; destruct (Hp Ep) as [H|H]; [left; exact H|right; cbn [List.length] in H; lia]).
    destruct c as [[e d]|]; exact (IH k s Hwf Hn Hp').
Qed.

Lemma roundtrip : forall chks,
  forallb sub_wf chks = true ->
  exists bytes, encode chks = Some bytes /\
    forall t s, nth_error chks t = Some s -> get t bytes = expected s.
Proof.
  intros chks Hwf. exists (flat_map slot_bytes chks). split; [exact (encode_slots chks Hwf)|].
  intros t s Hn. unfold get. rewrite get_loop_gloop. apply gloop_slots; [assumption..|discriminate].
Qed.

Lemma get_present : forall chks t e d,
  forallb sub_wf chks = true -> nth_error chks t = Some (Some (e, d)) ->
  exists bytes, encode chks = Some bytes /\ get t bytes = GOk e d.
Proof.
  intros chks t e d Hwf Hn. destruct (roundtrip chks Hwf) as (bytes & E & G).
  exists bytes. split; [exact E|]. apply (G t _ Hn).
Qed.

Lemma get_absent : forall chks t,
  forallb sub_wf chks = true -> nth_error chks t = Some None ->
  exists bytes, encode chks = Some bytes /\ get t bytes = GNotExist.
Proof.
  intros chks t Hwf Hn. destruct (roundtrip chks Hwf) as (bytes & E & G).
  exists bytes. split; [exact E|]. apply (G t _ Hn).
Qed.

Lemma get_res_eqb_refl r : get_res_eqb r r = true.
Proof.
  destruct r; cbn; try reflexivity. rewrite N.eqb_refl. cbn.
  apply bytes_eqb_refl.
Qed.

(* the five-slot array of the Go code, through the boolean predicate of the check *)
Lemma roundtrip_pred : forall chks,
  List.length chks = 5%nat -> forallb sub_wf chks = true ->
  exists bytes, encode chks = Some bytes /\
    pred_ok (CEnc chks bytes (map (fun t => get t bytes) (seq 0 6))) = true.
Proof.
  intros chks H5 Hwf. destruct (roundtrip chks Hwf) as (bytes & E & G).
  exists bytes. split; [exact E|].
  unfold pred_ok. rewrite Hwf. rewrite H5.
  destruct chks as [|c0 [|c1 [|c2 [|c3 [|c4 [|? ?]]]]]]; try discriminate.
  cbn [seq map firstn].
  rewrite (G 0%nat c0 eq_refl), (G 1%nat c1 eq_refl), (G 2%nat c2 eq_refl),
          (G 3%nat c3 eq_refl), (G 4%nat c4 eq_refl).
  cbn [list_eqb]. rewrite !get_res_eqb_refl. reflexivity.
Qed.

(* with the size test first, Get of an absent LAST aggregate fails on the size
   test (`len(b[n:]) < int(0)+1` on an empty tail) instead of ErrAggrNotExist *)
Lemma presize_refuted :
  exists chks bytes,
    forallb sub_wf chks = true /\ encode chks = Some bytes /\
    nth_error chks AggrCounter = Some None /\ get_presize AggrCounter bytes = GErr.
Proof.
  exists [Some (1, [0; 0]); None; None; None; None], [2; 1; 0; 0; 0; 0; 0; 0].
  vm_compute. repeat split; reflexivity.
Qed.

(* ... and agrees with the repaired code on every slot that is present or not the last *)
Lemma get_presize_encode : forall chks bytes k s,
  forallb sub_wf chks = true ->
  encode chks = Some bytes ->
  nth_error chks k = Some s ->
  (s <> None \/ (S k < List.length chks)%nat) ->
  get_presize k bytes = expected s.
Proof.
  intros chks bytes k s Hwf Henc Hn Hc. rewrite (encode_slots chks Hwf) in Henc. injection Henc as <-.
  unfold get_presize. rewrite get_presize_loop_gloop. apply gloop_slots; auto.
Qed.

(* tie T: in the current source of Get the `l == 0` test precedes the size test *)
Lemma source_order : get_order_ok = true.
Proof. vm_compute. reflexivity. Qed.

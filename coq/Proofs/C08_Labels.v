(* C08 — the label part of the proofs (rmLabels, ExtendSortedLabels, presented label set);
   independent of any regenerated source fact, shared with C07. *)
From Coq Require Import ZArith NArith List Bool Lia.
Import ListNotations.
From Verif Require Import Lib.Corr Lib.Proxy_Order Model.C05 Model.C08.
From Verif Require Export Proofs.C05_Labels.
Open Scope Z_scope.

(* Builder.Set of a non-empty value: the label has that value afterwards, every other label is untouched *)
Lemma lfind_lset n v l m : is_empty_str v = false ->
  lfind (lset n v l) m = if str_eqb n m then Some v else lfind l m.
Proof.
  intros Hv. induction l as [|[k w] r IH]; cbn [lset]; rewrite ?Hv.
  - rewrite lfind_cons. reflexivity.
  - destruct (str_cmp n k) eqn:E; rewrite ?Hv.
    + apply str_cmp_eq in E. subst k. rewrite !lfind_cons. destruct (str_eqb n m); reflexivity.
    + rewrite lfind_cons. reflexivity.
    + rewrite !lfind_cons, IH. destruct (str_eqb k m) eqn:E1; [|reflexivity].
      apply str_eqb_eq in E1. subst m. destruct (str_eqb n k) eqn:E2; [|reflexivity].
      apply str_eqb_eq in E2. subst n. rewrite (ord_refl _ str_ord) in E. discriminate.
Qed.

Definition in_drop (d : list str) (m : str) : bool := existsb (fun x => str_eqb x m) d.

Lemma in_drop_flip d n : existsb (str_eqb n) d = in_drop d n.
Proof. unfold in_drop. induction d as [|x r IH]; cbn [existsb]; [reflexivity|]. now rewrite IH, str_eqb_sym. Qed.

Lemma lfind_rm d l m : lfind (rm d l) m = if in_drop d m then None else lfind l m.
Proof.
  induction l as [|[k w] r IH]; cbn [rm filter fst]; [now destruct (in_drop d m)|].
  fold (rm d r). rewrite in_drop_flip.
  destruct (in_drop d k) eqn:D; cbn [negb]; rewrite ?lfind_cons, IH;
    destruct (str_eqb k m) eqn:E; try reflexivity; apply str_eqb_eq in E; subst m; now rewrite D.
Qed.

(* external labels as a store has them: distinct names, non-empty values *)
Definition valid_ext (ext : labels) : Prop :=
  NoDup (map fst ext) /\ forall p, In p ext -> is_empty_str (snd p) = false.

Lemma lfind_fold ext : forall l m, valid_ext ext ->
  lfind (fold_left (fun acc p => lset (fst p) (snd p) acc) ext l) m
  = match lfind ext m with Some v => Some v | None => lfind l m end.
Proof.
  induction ext as [|[n v] e IH]; intros l m [Hnd Hne]; [reflexivity|]. cbn [fold_left fst snd].
  assert (He : valid_ext e).
  { split; [inversion Hnd; assumption | intros p Hp; apply Hne; right; exact Hp]. }
  rewrite IH by exact He. rewrite lfind_cons.
  rewrite lfind_lset by (apply (Hne (n, v)); left; reflexivity).
  destruct (str_eqb n m) eqn:E.
  - apply str_eqb_eq in E. subst m. rewrite (proj2 (lfind_none_iff e n)); [reflexivity|]. inversion Hnd; assumption.
  - reflexivity.
Qed.

Lemma lfind_extend l ext m : valid_ext ext ->
  lfind (extend l ext) m = match lfind ext m with Some v => Some v | None => lfind l m end.
Proof.
  intros H. unfold extend. destruct ext as [|p e]; [reflexivity|]. apply lfind_fold. exact H.
Qed.

Lemma valid_ext_rm d ext : valid_ext ext -> valid_ext (rm d ext).
Proof.
  intros [Hnd Hne]. split.
  - clear Hne. induction ext as [|[k w] r IH]; [constructor|]. cbn [rm filter fst]. fold (rm d r).
    inversion Hnd as [|? ? Hn Hr]; subst.
    destruct (negb (existsb (str_eqb k) d)); [|apply IH; exact Hr].
    cbn [map fst]. constructor; [|apply IH; exact Hr].
    intros Hin. apply Hn. apply in_map_iff in Hin as [[k' w'] [E Hin]]. cbn in E. subst k'.
    apply filter_In in Hin as [Hin _]. apply in_map_iff. exists (k, w'). split; [reflexivity|exact Hin].
  - intros p Hp. apply filter_In in Hp as [Hp _]. apply Hne. exact Hp.
Qed.

(* the labels TSDBStore.Series presents: a dropped label is absent; otherwise the external
   label wins; otherwise the stored label is kept *)
Theorem present_spec ext drop stored m : valid_ext ext ->
  lfind (present ext drop stored) m
  = if in_drop drop m then None
    else match lfind ext m with Some v => Some v | None => lfind stored m end.
Proof.
  intros H. unfold present. rewrite lfind_extend by (apply valid_ext_rm; exact H).
  rewrite !lfind_rm. destruct (in_drop drop m); reflexivity.
Qed.

Theorem present_bucket_spec ext drop stored m : valid_ext ext ->
  lfind (present_bucket ext drop stored) m
  = if in_drop drop m then None
    else match lfind ext m with Some v => Some v | None => lfind stored m end.
Proof.
  intros H. unfold present_bucket. destruct drop as [|d0 dr].
  - rewrite lfind_extend by exact H. reflexivity.
  - rewrite lfind_rm, lfind_extend by (apply valid_ext_rm; exact H). rewrite lfind_rm.
    destruct (in_drop (d0 :: dr) m); reflexivity.
Qed.

Theorem two_orders_agree ext drop stored m : valid_ext ext ->
  lfind (present ext drop stored) m = lfind (present_bucket ext drop stored) m.
Proof.
  intros H. rewrite present_spec, present_bucket_spec by exact H. reflexivity.
Qed.

Corollary ext_override ext drop stored : valid_ext ext ->
  (forall n v, In (n, v) ext -> in_drop drop n = false -> lget (present ext drop stored) n = v)
  /\ (forall n, in_drop drop n = true -> lhas (present ext drop stored) n = false)
  /\ (forall n, in_drop drop n = false -> lhas ext n = false -> lget (present ext drop stored) n = lget stored n).
Proof.
  intros H. split; [|split].
  - intros n v Hin Hd. unfold lget. rewrite present_spec, Hd by exact H.
    now rewrite (in_lfind ext n v (proj1 H) Hin).
  - intros n Hd. unfold lhas. rewrite present_spec, Hd by exact H. reflexivity.
  - intros n Hd Hh. unfold lget, lhas in *. rewrite present_spec, Hd by exact H.
    destruct (lfind ext n); [discriminate|reflexivity].
Qed.

Theorem bucket_series_spec blocks drop ms l :
  In l (bucket_series_labels blocks drop ms) ->
  exists ext stored sl, In (ext, stored) blocks /\ In sl stored /\ l = present_bucket ext drop sl
    /\ ext_loop mname mmatch ms ext <> None.
Proof.
  unfold bucket_series_labels. intros H. apply in_concat in H as [x [Hx Hl]].
  apply in_map_iff in Hx as [[ext stored] [E Hb]]. subst x. unfold block_series_labels in Hl. cbn [fst snd] in Hl.
  destruct (ext_loop mname mmatch ms ext) as [kept|] eqn:Ek; [|destruct Hl].
  destruct kept as [|k0 kr]; [destruct Hl|].
  apply in_map_iff in Hl as [sl [El Hs]]. apply filter_In in Hs as [Hs _].
  exists ext, stored, sl. split; [exact Hb|]. split; [exact Hs|]. split; [symmetry; exact El | rewrite Ek; discriminate].
Qed.

(* every series of a BucketStore response carries the external labels of its block that were
   not dropped (external value wins) and none of the dropped labels *)
Corollary bucket_ext_override blocks drop ms l :
  (forall b, In b blocks -> valid_ext (fst b)) ->
  In l (bucket_series_labels blocks drop ms) ->
  exists ext stored, In (ext, stored) blocks
    /\ (forall n v, In (n, v) ext -> in_drop drop n = false -> lget l n = v)
    /\ (forall n, in_drop drop n = true -> lhas l n = false).
Proof.
  intros Hv H. destruct (bucket_series_spec _ _ _ _ H) as (ext & stored & sl & Hb & Hs & El & _).
  exists ext, stored. split; [exact Hb|]. pose proof (Hv _ Hb) as Hve. cbn [fst] in Hve. subst l. split.
  - intros n v Hin Hd. unfold lget. rewrite present_bucket_spec, Hd by exact Hve.
    pose proof (two_orders_agree ext drop sl n Hve) as T. rewrite present_bucket_spec, Hd in T by exact Hve.
    destruct (ext_override ext drop sl Hve) as [O1 _]. specialize (O1 n v Hin Hd). unfold lget in O1. rewrite T in O1. exact O1.
  - intros n Hd. unfold lhas. rewrite present_bucket_spec, Hd by exact Hve. reflexivity.
Qed.

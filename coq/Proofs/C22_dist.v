(* C22 — distributeTimeseriesToReplicas: the groups, and why every series gets
   exactly one response per replica. *)
From Coq Require Import ZArith List Bool Lia Permutation.
Import ListNotations.
From Verif Require Import Lib.Corr Lib.Receive_Fanout Gen.C22 Model.C22.
Open Scope Z_scope.

Lemma dest_eqb_eq : forall a b, dest_eqb a b = true <-> a = b.
Proof.
  intros [a1 a2] [b1 b2]. unfold dest_eqb. cbn [fst snd]. rewrite andb_true_iff, !Nat.eqb_eq.
  split; [intros [-> ->]; reflexivity|intro H; inversion H; auto].
Qed.

Lemma dest_eqb_refl : forall a, dest_eqb a a = true.
Proof. intro a. apply dest_eqb_eq. reflexivity. Qed.

Lemma dest_eqb_neq : forall a b, a <> b -> dest_eqb a b = false.
Proof. intros a b H. destruct (dest_eqb a b) eqn:E; [apply dest_eqb_eq in E; contradiction|reflexivity]. Qed.

Definition keys (gs : list (dest * list nat)) : list dest := map fst gs.

Lemma add_keys_in : forall d s gs d', In d' (keys (add_to_group d s gs)) <-> d = d' \/ In d' (keys gs).
Proof.
  intros d s gs d'. induction gs as [|[d0 ids] r IH]; cbn [add_to_group keys map fst In].
  - tauto.
  - destruct (dest_eqb d0 d) eqn:E; cbn [keys map fst In].
    + apply dest_eqb_eq in E. subst. tauto.
    + unfold keys in IH. rewrite IH. tauto.
Qed.

Lemma add_keys_nodup : forall d s gs, NoDup (keys (add_to_group d s gs)) <-> NoDup (keys gs).
Proof.
  intros d s gs. induction gs as [|[d0 ids] r IH]; cbn [add_to_group keys map fst].
  - split; intro; [constructor|constructor; [intros []|constructor]].
  - destruct (dest_eqb d0 d) eqn:E; cbn [keys map fst]; [tauto|].
    fold (keys (add_to_group d s r)) (keys r). rewrite !NoDup_cons_iff, IH, add_keys_in.
    assert (d <> d0) by (intro; subst; rewrite dest_eqb_refl in E; discriminate). tauto.
Qed.

Lemma add_group_ids : forall d s gs d',
  group_ids (add_to_group d s gs) d' =
  if dest_eqb d d' then Some (match group_ids gs d with Some ids => ids ++ [s] | None => [s] end)
  else group_ids gs d'.
Proof.
  intros d s gs d'. induction gs as [|[d0 ids] r IH]; cbn [add_to_group group_ids].
  - reflexivity.
  - destruct (dest_eqb d0 d) eqn:E; cbn [group_ids].
    + apply dest_eqb_eq in E. subst d0. destruct (dest_eqb d d'); reflexivity.
    + rewrite IH. destruct (dest_eqb d d') eqn:E2.
      * apply dest_eqb_eq in E2. subst d'. rewrite E. reflexivity.
      * reflexivity.
Qed.

Definition build (ins : list (dest * nat)) (gs : list (dest * list nat)) : list (dest * list nat) :=
  fold_left (fun gs x => add_to_group (fst x) (snd x) gs) ins gs.

Lemma build_keys_in : forall ins gs d, In d (keys (build ins gs)) <-> In d (map fst ins) \/ In d (keys gs).
Proof.
  induction ins as [|[d0 s] r IH]; intros gs d; cbn [build fold_left map fst snd In]; [tauto|].
  fold (build r (add_to_group d0 s gs)). rewrite IH, add_keys_in. tauto.
Qed.

Lemma build_keys_nodup : forall ins gs, NoDup (keys gs) -> NoDup (keys (build ins gs)).
Proof.
  induction ins as [|[d0 s] r IH]; intros gs H; cbn [build fold_left fst snd]; [exact H|].
  apply IH. apply add_keys_nodup. exact H.
Qed.

Definition matching (d : dest) (ins : list (dest * nat)) : list nat :=
  map snd (filter (fun x => dest_eqb (fst x) d) ins).

Lemma matching_app : forall d l1 l2, matching d (l1 ++ l2) = matching d l1 ++ matching d l2.
Proof. intros. unfold matching. rewrite filter_app. apply map_app. Qed.

Lemma build_group_ids : forall ins gs d,
  group_ids (build ins gs) d =
  match group_ids gs d with
  | Some ids => Some (ids ++ matching d ins)
  | None => match matching d ins with [] => None | l => Some l end
  end.
Proof.
  induction ins as [|[d0 s] r IH]; intros gs d; cbn [build fold_left fst snd].
  - unfold matching. cbn. destruct (group_ids gs d); [rewrite app_nil_r|]; reflexivity.
  - fold (build r (add_to_group d0 s gs)). rewrite IH, add_group_ids.
    unfold matching. cbn [filter fst]. destruct (dest_eqb d0 d) eqn:E.
    + apply dest_eqb_eq in E. subst d0. cbn [map snd].
      destruct (group_ids gs d); [rewrite <- app_assoc; reflexivity|reflexivity].
    + reflexivity.
Qed.

(* one series contributes its id to (node, r) iff r is a replica of the request placed on node *)
Lemma matching_one_series : forall place replicas node r s, NoDup replicas ->
  matching (node, r) (map (fun r' => ((placed place s r', r'), s)) replicas)
  = if existsb (Nat.eqb r) replicas && Nat.eqb (placed place s r) node then [s] else [].
Proof.
  intros place replicas node r s Hnd. unfold matching. induction replicas as [|r0 rest IH]; [reflexivity|].
  inversion Hnd as [|? ? Hnotin Hnd']; subst. specialize (IH Hnd').
  cbn [map filter fst existsb]. unfold dest_eqb at 1. cbn [fst snd].
  destruct (Nat.eqb_spec r0 r) as [->|Hne].
  - rewrite Nat.eqb_refl. cbn [orb andb]. rewrite andb_true_r.
    assert (Hex : existsb (Nat.eqb r) rest = false).
    { destruct (existsb (Nat.eqb r) rest) eqn:E; [|reflexivity]. apply existsb_exists in E as [x [Hin Hx]].
      apply Nat.eqb_eq in Hx. subst. contradiction. }
    rewrite Hex in IH. cbn [andb] in IH.
    destruct (Nat.eqb (placed place s r) node); cbn [map snd]; rewrite IH; reflexivity.
  - rewrite andb_false_r. destruct (Nat.eqb_spec r r0) as [->|_]; [congruence|]. cbn [orb]. exact IH.
Qed.

Lemma matching_insertions : forall place replicas node r, NoDup replicas -> In r replicas ->
  matching (node, r) (insertions place replicas) = ids_of place node r.
Proof.
  intros place replicas node r Hnd Hin. unfold insertions, ids_of.
  assert (E : existsb (Nat.eqb r) replicas = true) by (apply existsb_exists; exists r; split; [exact Hin|apply Nat.eqb_refl]).
  induction (seq 0 (List.length place)) as [|s L IH]; [reflexivity|].
  cbn [flat_map filter]. rewrite matching_app, IH, (matching_one_series place replicas node r s Hnd), E.
  cbn [andb]. destruct (Nat.eqb (placed place s r) node); reflexivity.
Qed.

Lemma distribute_keys_nodup : forall place replicas, NoDup (keys (distribute place replicas)).
Proof. intros. unfold distribute. apply (build_keys_nodup (insertions place replicas) []). constructor. Qed.

Lemma distribute_keys_in : forall place replicas d,
  In d (keys (distribute place replicas)) <->
  exists s r, (s < List.length place)%nat /\ In r replicas /\ d = (placed place s r, r).
Proof.
  intros place replicas d. unfold distribute. fold (build (insertions place replicas) []).
  rewrite build_keys_in. cbn [keys map In]. unfold insertions. split.
  - intros [Hin|[]]. apply in_map_iff in Hin as [[d' s] [<- Hin]].
    apply in_flat_map in Hin as [s' [Hs Hin]]. apply in_seq in Hs.
    apply in_map_iff in Hin as [r [E Hr]]. inversion E; subst. exists s, r. split; [lia|]. split; [exact Hr|reflexivity].
  - intros [s [r [Hs [Hr ->]]]]. left. apply in_map_iff. exists (placed place s r, r, s). split; [reflexivity|].
    apply in_flat_map. exists s. split; [apply in_seq; lia|]. apply in_map_iff. exists r. split; [reflexivity|exact Hr].
Qed.

Lemma distribute_group_ids : forall place replicas node r, NoDup replicas ->
  In (node, r) (keys (distribute place replicas)) ->
  group_ids (distribute place replicas) (node, r) = Some (ids_of place node r).
Proof.
  intros place replicas node r Hnd Hin.
  assert (Hr : In r replicas).
  { apply distribute_keys_in in Hin as [s [r' [_ [Hr' E]]]]. inversion E; subst. exact Hr'. }
  unfold distribute. fold (build (insertions place replicas) []). rewrite build_group_ids. cbn [group_ids].
  rewrite (matching_insertions place replicas node r Hnd Hr).
  destruct (ids_of place node r) eqn:E; [|reflexivity]. exfalso.
  apply distribute_keys_in in Hin as [s [r' [Hs [_ Ed]]]]. inversion Ed; subst.
  assert (In s (ids_of place (placed place s r') r')).
  { unfold ids_of. apply filter_In. split; [apply in_seq; lia|apply Nat.eqb_refl]. }
  rewrite E in H. contradiction.
Qed.

(* the hypothesis of the C22 theorems, derived: when the responses come from
   exactly the groups of the distribution (one each), every series gets one
   response per replica of the request *)
Lemma one_response_per_replica : forall place replicas ws, NoDup replicas ->
  Permutation (map write_dest ws) (keys (distribute place replicas)) ->
  forall s, (s < List.length place)%nat ->
  responses_of s (resps_of place ws) = Z.of_nat (List.length replicas).
Proof.
  intros place replicas ws Hnd Hp s Hs. unfold responses_of. f_equal.
  apply (Receive_Fanout.one_response_per_replica (placed place) (List.length place) replicas ws Hnd).
  - apply (Permutation_NoDup (Permutation_sym Hp)), distribute_keys_nodup.
  - intro d. rewrite <- (distribute_keys_in place replicas d). split; apply Permutation_in; [exact Hp|apply Permutation_sym, Hp].
  - exact Hs.
Qed.

Lemma replicas_of_nodup : forall rf rep, NoDup (replicas_of rf rep).
Proof.
  intros rf rep. unfold replicas_of. destruct (rep =? 0); [apply seq_NoDup|].
  constructor; [intros []|constructor].
Qed.

Lemma replicas_of_length : forall rf rep, 0 <= rf -> Z.of_nat (List.length (replicas_of rf rep)) = n_replicas rf rep.
Proof.
  intros rf rep H. unfold replicas_of, n_replicas. destruct (rep =? 0); [rewrite seq_length; lia|reflexivity].
Qed.

(* on duplicate-free lists the boolean [dests_match] gives the permutation
   that [one_response_per_replica] asks for *)
Lemma dests_match_perm : forall gs ws, NoDup (keys gs) -> NoDup (map write_dest ws) ->
  dests_match gs ws = true -> Permutation (map write_dest ws) (keys gs).
Proof.
  intros gs ws Hg Hw H. unfold dests_match, dests_match_list in H.
  apply andb_true_iff in H as [H H3]. apply andb_true_iff in H as [H1 H2].
  apply NoDup_Permutation; [exact Hw|exact Hg|]. intro d. split.
  - intro Hin. rewrite forallb_forall in H3. specialize (H3 d Hin).
    apply existsb_exists in H3 as [g [Hg' E]]. apply dest_eqb_eq in E. rewrite E. apply in_map. exact Hg'.
  - intro Hin. apply in_map_iff in Hin as [g [<- Hg']]. rewrite forallb_forall in H2. specialize (H2 g Hg').
    apply existsb_exists in H2 as [d [Hd E]]. apply dest_eqb_eq in E. rewrite <- E. exact Hd.
Qed.

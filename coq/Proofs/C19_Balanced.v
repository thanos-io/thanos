(* C19 — a sufficient condition for the constructor to succeed with several zones:
   every zone can hold its share ceil(rf / zones) of the replicas. The proof is
   [zones_build] of Lib/Hashring_Build.v; this file holds [zone_members], in whose
   terms Properties/C19.v states the condition, and the statement about the
   constructor as read from the source. *)
From Coq Require Import ZArith List Bool Lia Arith Permutation.
Import ListNotations.
From Verif Require Import Lib.Corr Lib.Hashring_Ketama Lib.Hashring_Answers Lib.Hashring_Build
  Gen.C19 Model.C19 Proofs.C19.
Close Scope Z_scope.

Section Balanced.
  Variable eps : list (Z * list Z).

  (* the positions of the endpoints of zone [a] *)
  Definition zone_members (a : Z) : list nat := filter (fun k => (az_of eps k =? a)%Z) (seq 0 (length eps)).
End Balanced.

Lemma src_balanced_zones eps rf :
  Forall (fun e => snd e <> []) eps -> rf <= length eps ->
  (Z.of_nat rf <= MaxInt64)%Z ->
  (forall a, In a (az_set [] eps) -> rf <= length (az_set [] eps) * length (zone_members eps a)) ->
  exists ring reps, ketama_new_src eps rf = KOk ring reps.
Proof. intros H1 H2 H3 H4. rewrite ketama_new_src_eq. apply zones_build; auto. Qed.

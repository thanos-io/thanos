(* C27 — the glob loop decides "some pattern matches, else some pattern is
   malformed" (so map order is irrelevant), [route] picks the first matching
   config, and a cache keyed by the tenant name only ever repeats [route]. *)
From Coq Require Import ZArith List Bool Lia Arith Permutation.
Import ListNotations.
From Verif Require Import Lib.Corr Gen.C27 Model.C27.
Close Scope Z_scope.

(* tie T: what the current source does, by computation on Gen/C27.v: a pattern
   error does not end the loop of tenantSet.match; GetN takes the write lock
   only after a match; the cache is indexed by the full tenant name. *)
Lemma err_aborts_false : err_aborts = false.
Proof. vm_compute. reflexivity. Qed.

Lemma store_guarded_true : store_guarded = true.
Proof. vm_compute. reflexivity. Qed.

Lemma cache_key_is_tenant_true : cache_key_is_tenant = true.
Proof. reflexivity. Qed.

Lemma glob_loop_spec : forall rs err,
  glob_loop false err rs =
  if existsb is_true rs then MTrue else if err || existsb is_none rs then MErr else MFalse.
Proof.
  induction rs as [|[[|]|] r IH]; intro err; simpl.
  - rewrite orb_false_r. reflexivity.
  - reflexivity.
  - apply IH.
  - rewrite IH. rewrite !orb_true_r. simpl. destruct (existsb is_true r); reflexivity.
Qed.

Lemma glob_match_spec rs :
  glob_match rs = if existsb is_true rs then MTrue else if existsb is_none rs then MErr else MFalse.
Proof. unfold glob_match. rewrite err_aborts_false. apply glob_loop_spec. Qed.

Lemma existsb_perm {A} (f : A -> bool) l l' : Permutation l l' -> existsb f l = existsb f l'.
Proof.
  induction 1; simpl; auto.
  - rewrite IHPermutation. reflexivity.
  - destruct (f x), (f y); reflexivity.
  - congruence.
Qed.

Lemma glob_match_order_independent rs rs' : Permutation rs rs' -> glob_match rs = glob_match rs'.
Proof.
  intro P. rewrite !glob_match_spec, (existsb_perm is_true _ _ P), (existsb_perm is_none _ _ P). reflexivity.
Qed.

(* before the repair: the loop that aborts on a pattern error depends on the order *)
Lemma abort_order_dependent :
  exists rs rs', Permutation rs rs' /\ glob_loop true false rs <> glob_loop true false rs'.
Proof.
  exists [None; Some true], [Some true; None]. split; [apply perm_swap|]. simpl. discriminate.
Qed.

(* config j decides with answer m: it answers m and every earlier one answers "no" *)
Definition decides (tenant : Z) (cfgs : list tset) (j : nat) (m : mres) : Prop :=
  j < length cfgs /\
  tmatch tenant (nth j cfgs TOther) = m /\
  forall j', j' < j -> tmatch tenant (nth j' cfgs TOther) = MFalse.

Lemma decides_head tenant t r : decides tenant (t :: r) 0 (tmatch tenant t).
Proof. split; [simpl; lia|]. split; [reflexivity|]. intros j' Hj. lia. Qed.

Lemma decides_tail tenant t r j m :
  tmatch tenant t = MFalse -> decides tenant r j m -> decides tenant (t :: r) (S j) m.
Proof.
  intros M [H1 [H2 H3]]. split; [simpl; lia|]. split; [exact H2|].
  intros [|j'] Hj; [exact M|]. apply H3. lia.
Qed.

(* [route i] numbers the configs from i: a result k is i + j for the position j of the match *)
Lemma route_first_match_from tenant : forall cfgs i k,
  route i cfgs tenant = RIdx k -> exists j, k = i + j /\ decides tenant cfgs j MTrue.
Proof.
  induction cfgs as [|t r IH]; intros i k H; simpl in H; [discriminate|].
  destruct (tmatch tenant t) eqn:M; [| |discriminate].
  - injection H as <-. exists 0. split; [lia|]. rewrite <- M. apply decides_head.
  - destruct (IH _ _ H) as [j [-> D]]. exists (S j). split; [lia|]. apply decides_tail; assumption.
Qed.

Lemma route_first_match tenant cfgs k : route 0 cfgs tenant = RIdx k -> decides tenant cfgs k MTrue.
Proof. intro H. destruct (route_first_match_from _ _ _ _ H) as [j [-> D]]. exact D. Qed.

Lemma route_err tenant : forall cfgs i,
  route i cfgs tenant = RErr ->
  (forall j, j < length cfgs -> tmatch tenant (nth j cfgs TOther) = MFalse) \/
  (exists j, decides tenant cfgs j MErr).
Proof.
  induction cfgs as [|t r IH]; intros i H; simpl in H.
  - left. intros j Hj. simpl in Hj. lia.
  - destruct (tmatch tenant t) eqn:M; [discriminate| |].
    + destruct (IH _ H) as [Hall|[j D]].
      * left. intros [|j] Hj; [exact M|]. simpl in Hj. apply Hall. lia.
      * right. exists (S j). apply decides_tail; assumption.
    + right. exists 0. rewrite <- M. apply decides_head.
Qed.

(* the same tenant sets with their entries in another order (Go's map iteration) *)
Inductive tset_perm : tset -> tset -> Prop :=
| tp_default : tset_perm TDefault TDefault
| tp_exact ids ids' : Permutation ids ids' -> tset_perm (TExact ids) (TExact ids')
| tp_glob rs rs' : Permutation rs rs' -> tset_perm (TGlob rs) (TGlob rs')
| tp_other : tset_perm TOther TOther.

Lemma tmatch_perm tenant t t' : tset_perm t t' -> tmatch tenant t = tmatch tenant t'.
Proof.
  destruct 1; simpl; try reflexivity.
  - rewrite (existsb_perm _ _ _ H). reflexivity.
  - apply glob_match_order_independent. exact H.
Qed.

Lemma route_order_independent tenant : forall cfgs cfgs' i,
  Forall2 tset_perm cfgs cfgs' -> route i cfgs tenant = route i cfgs' tenant.
Proof.
  intros cfgs cfgs' i F. revert i. induction F as [|t t' r r' Ht F IH]; intro i; simpl; [reflexivity|].
  rewrite (tmatch_perm tenant t t' Ht). destruct (tmatch tenant t'); auto.
Qed.

(* with the repaired loop the set of possible results is the single model result *)
Lemma route_poss_single tenant : forall cfgs i, route_poss i cfgs tenant = [route i cfgs tenant].
Proof.
  induction cfgs as [|t r IH]; intro i; simpl; [reflexivity|].
  assert (E : tmatch_poss tenant t = [tmatch tenant t]).
  { destruct t; reflexivity. }
  rewrite E. destruct (tmatch tenant t); simpl; try reflexivity. rewrite IH. reflexivity.
Qed.

Lemma exec_gen_keyed_correct compute slot : forall evs cache,
  (forall p, In p cache -> snd p = compute (fst p)) ->
  forall t r, In (t, r) (exec_gen compute true slot cache evs) -> r = compute t.
Proof.
  induction evs as [|e evs IH]; intros cache Hinv t r Hin; simpl in Hin; [contradiction|].
  destruct e as [t0|t0].
  - destruct Hin as [Heq|Hin]; [|eapply IH; eauto].
    inversion Heq; subst. unfold cget_gen, same_key.
    destruct (find (fun p => (fst p =? t)%Z) cache) as [p|] eqn:F; [|reflexivity].
    apply find_some in F as [Hp Ht]. apply Z.eqb_eq in Ht. rewrite (Hinv p Hp), Ht. reflexivity.
  - destruct (compute t0) eqn:C.
    + eapply IH; [|exact Hin]. intros p [<-|Hp]; [simpl; symmetry; exact C|auto].
    + eapply IH; eauto.
Qed.

Lemma exec_correct compute : forall evs cache,
  (forall p, In p cache -> snd p = compute (fst p)) ->
  forall t r, In (t, r) (exec compute cache evs) -> r = compute t.
Proof. unfold exec. rewrite cache_key_is_tenant_true. apply exec_gen_keyed_correct. Qed.

(* a cache that finds entries through a slot function without comparing the tenant
   names answers wrongly as soon as two tenants with different routes share a slot:
   serve t1, then ask for t2 *)
Lemma slot_cache_misroutes compute slot t1 t2 i :
  slot t1 = slot t2 -> compute t1 = RIdx i -> compute t2 <> RIdx i ->
  exists r, In (t2, r) (exec_gen compute false slot [] [Lookup t1; Store t1; Lookup t2]) /\ r <> compute t2.
Proof.
  intros Hs H1 H2. exists (RIdx i). simpl. rewrite H1. simpl.
  unfold cget_gen, same_key. simpl. rewrite Hs, Z.eqb_refl. simpl.
  split; [right; left; reflexivity|]. intro E. apply H2. symmetry. exact E.
Qed.

Lemma rres_eqb_refl : forall a, rres_eqb a a = true.
Proof. intros [i|]; simpl; [apply Nat.eqb_refl|reflexivity]. Qed.

Lemma pred_ok_model tenant cfgs n m :
  pred_ok (CRoute [Q tenant cfgs (repeat (route 0 cfgs tenant) (S n)) (repeat (route 0 cfgs tenant) m)]) = true.
Proof.
  simpl. unfold pred_qs. simpl. rewrite andb_true_r, route_poss_single. simpl.
  rewrite !rres_eqb_refl. simpl. rewrite andb_true_r.
  apply forallb_forall. intros x Hx. apply in_app_or in Hx as [Hx|Hx]; apply repeat_spec in Hx; subst; apply rres_eqb_refl.
Qed.

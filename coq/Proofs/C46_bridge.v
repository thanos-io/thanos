(* C46 — bridge: what the correspondence check accepts is a run of the
   transition system, and every run satisfies the predicate that the check
   evaluates on the implementation's observables. *)
From Coq Require Import NArith ZArith List Bool Lia.
Import ListNotations.
From Verif Require Lib.ListFacts.
From Verif Require Import Lib.Corr Gen.C46 Model.C46 Proofs.C46.
Open Scope Z_scope.

Lemma Sub_tail x a b : Sub (x :: a) b -> Sub a b.
Proof.
  intro H. remember (x :: a) as xa eqn:E. revert x a E.
  induction H as [|y l1 l2 H IH|y l1 l2 H IH]; intros x a E; [discriminate| |].
  - apply Sub_skip. eapply IH; eauto.
  - inversion E; subst. apply Sub_skip. exact H.
Qed.

Lemma Sub_is_subseq : forall b a, Sub a b -> is_subseq a b = true.
Proof.
  induction b as [|y b IH]; intros a H.
  - inversion H; subst. reflexivity.
  - destruct a as [|x a]; [reflexivity|]. cbn [is_subseq].
    destruct (x =? y) eqn:E.
    + apply IH. inversion H; subst; [eapply Sub_tail; eauto | assumption].
    + apply IH. inversion H; subst; [assumption|]. rewrite Z.eqb_refl in E. discriminate.
Qed.

Lemma zlist_eqb_refl l : list_eqb Z.eqb l l = true.
Proof. apply ListFacts.list_eqb_refl, Z.eqb_refl. Qed.

Lemma is_suffix_app older qs : is_suffix qs (older ++ qs) = true.
Proof.
  induction older as [|x older IH]; simpl.
  - destruct qs; simpl; rewrite ?zlist_eqb_refl; [reflexivity|]. rewrite Z.eqb_refl. reflexivity.
  - rewrite IH. apply orb_true_r.
Qed.

Lemma ostate_eqb_eq s o : ostate_eqb s o = true -> q s = fst o /\ tok s = snd o /\ mid s = O.
Proof.
  unfold ostate_eqb. intro H. apply andb_true_iff in H as [H H3]. apply andb_true_iff in H as [H1 H2].
  apply (list_eqb_spec Z.eqb) in H1; [|intros x y; apply Z.eqb_eq].
  apply eqb_prop in H2. apply Nat.eqb_eq in H3. auto.
Qed.

Section B.
  Variable cap batch : Z.
  Hypothesis cap_nonneg : 0 <= cap.
  Hypothesis batch_nonneg : 0 <= batch.

  Notation keep := keep_nonneg.

  (* every run of the transition system that ends with no popper between its
     halves satisfies the predicate on its own final state *)
  Lemma trace_pred tr s :
    run cap batch keep init tr = Some s -> mid s = O ->
    obs_pred cap batch tr (q s, tok s) = true.
  Proof.
    intros Hr Hm. destruct (reach_inv cap batch keep cap_nonneg tr s Hr) as [I1 [I2 [older [Hk Hp]]]].
    unfold obs_pred. cbn [fst snd]. repeat (apply andb_true_iff; split).
    - apply Z.leb_le. exact I1.
    - destruct (q s) as [|x l] eqn:E; [reflexivity|].
      destruct I2 as [H|H]; [discriminate | exact H | lia].
    - unfold crit_sizes_ok. apply forallb_forall. intros l Hl.
      pose proof (batch_bound cap batch keep batch_nonneg tr init s Hr) as Hall.
      rewrite Forall_forall in Hall. specialize (Hall l Hl). destruct l; auto. apply Z.leb_le. exact Hall.
    - rewrite Hk. apply is_suffix_app.
    - rewrite Hk. apply Sub_is_subseq. apply Sub_app; [exact Hp | apply Sub_refl].
  Qed.

  (* CMid: an accepted candidate schedule explains the observation *)
  Lemma mid_bridge pre mids term out nilret after :
    corr_ok (CMid cap batch pre mids term out nilret after) = true ->
    pred_ok (CMid cap batch pre mids term out nilret after) = true.
  Proof.
    cbn [corr_ok pred_ok]. intro H0. apply andb_true_iff in H0 as [_ H0]. revert H0.
    rewrite !existsb_exists. intros [tr [Hin Hacc]]. exists tr. split; [exact Hin|].
    unfold accepts in Hacc. destruct (run cap batch keep init tr) as [s|] eqn:Hr; [|discriminate].
    apply ostate_eqb_eq in Hacc as [H1 [H2 H3]].
    pose proof (trace_pred tr s Hr H3) as Hp. rewrite H1, H2 in Hp. destruct after. exact Hp.
  Qed.

  (* CSeq: the recorded operations are a run; every prefix satisfies the predicate *)
  Definition trace1 (o : op) : list label :=
    match o with
    | OPush a _ => [LPush a]
    | OPop out _ => [LTake; LCrit out]
    | OPopBlocked _ => []
    end.
  Definition trace_of (ops : list op) : list label := concat (map trace1 ops).

  (* the model state after one recorded operation, if the recorded observation agrees *)
  Definition seq_step (s : st) (o : op) : option st :=
    match o with
    | OPush a after => let s' := push cap keep s a in if ostate_eqb s' after then Some s' else None
    | OPop out after =>
      match pop batch s with
      | Some (s', o') => if list_eqb Z.eqb o' out && ostate_eqb s' after then Some s' else None
      | None => None
      end
    | OPopBlocked after => if negb (tok s) && ostate_eqb s after then Some s else None
    end.

  Fixpoint seq_end (s : st) (ops : list op) : option st :=
    match ops with
    | [] => Some s
    | o :: r => match seq_step s o with Some s' => seq_end s' r | None => None end
    end.

  Lemma seq_ok_end ops : forall s, seq_ok cap batch s ops = true -> exists s', seq_end s ops = Some s'.
  Proof.
    induction ops as [|o r IH]; intros s H; [eexists; reflexivity|].
    destruct o as [a after|out after|after]; cbn [seq_ok] in H; cbn [seq_end seq_step].
    - apply andb_true_iff in H as [H1 H2]. rewrite H1. apply IH. exact H2.
    - destruct (pop batch s) as [[s' o']|]; [|discriminate].
      apply andb_true_iff in H as [H H3]. rewrite H. apply IH. exact H3.
    - apply andb_true_iff in H as [H H3]. rewrite H. apply IH. exact H3.
  Qed.

  Lemma seq_end_app a : forall s b,
    seq_end s (a ++ b) = match seq_end s a with Some s1 => seq_end s1 b | None => None end.
  Proof.
    induction a as [|o a IH]; intros s b; [reflexivity|]. cbn [app seq_end].
    destruct (seq_step s o); [apply IH | reflexivity].
  Qed.

  Lemma run_app t1 : forall s t2,
    run cap batch keep s (t1 ++ t2) = match run cap batch keep s t1 with Some s1 => run cap batch keep s1 t2 | None => None end.
  Proof.
    induction t1 as [|l t1 IH]; intros s t2; [reflexivity|]. cbn [app run].
    destruct (step cap batch keep s l); [apply IH | reflexivity].
  Qed.

  Lemma seq_step_run s o s' :
    seq_step s o = Some s' ->
    run cap batch keep s (trace1 o) = Some s' /\ ostate_eqb s' (op_after o) = true.
  Proof.
    destruct o as [a after|out after|after]; cbn [seq_step trace1 op_after]; intro H.
    - destruct (ostate_eqb (push cap keep s a) after) eqn:E; [|discriminate]. inversion H; subst.
      split; [reflexivity | exact E].
    - unfold pop in H. destruct (take s) as [s1|] eqn:Et; [|discriminate].
      destruct (crit batch s1) as [[s2 o']|] eqn:Ec; [|discriminate].
      destruct (list_eqb Z.eqb o' out && ostate_eqb s2 after) eqn:E; [|discriminate]. inversion H; subst.
      apply andb_true_iff in E as [E1 E2]. split; [|exact E2].
      cbn [run step]. rewrite Et. cbn [run step]. rewrite Ec. unfold zlist_eqb. rewrite E1. reflexivity.
    - destruct (negb (tok s) && ostate_eqb s after) eqn:E; [|discriminate]. inversion H; subst.
      apply andb_true_iff in E as [_ E]. split; [reflexivity | exact E].
  Qed.

  Lemma seq_end_run ops : forall s s',
    mid s = O -> seq_end s ops = Some s' ->
    run cap batch keep s (trace_of ops) = Some s' /\ mid s' = O.
  Proof.
    induction ops as [|o r IH]; intros s s' Hm H; [injection H as <-; auto|]. cbn [seq_end] in H.
    destruct (seq_step s o) as [s1|] eqn:E; [|discriminate].
    destruct (seq_step_run s o s1 E) as [R Ho]. apply ostate_eqb_eq in Ho as [_ [_ Hm1]].
    unfold trace_of. cbn [map concat]. rewrite run_app, R. apply IH; assumption.
  Qed.

  Lemma kept_app t1 t2 : kept keep (t1 ++ t2) = kept keep t1 ++ kept keep t2.
  Proof. induction t1 as [|[a| |o|] t1 IH]; simpl; rewrite ?IH, ?app_assoc; reflexivity. Qed.
  Lemma popped_app t1 t2 : popped (t1 ++ t2) = popped t1 ++ popped t2.
  Proof. induction t1 as [|[a| |o|] t1 IH]; simpl; rewrite ?IH, ?app_assoc; reflexivity. Qed.

  Lemma kept_trace_of ops : kept keep (trace_of ops) = ops_kept ops.
  Proof.
    induction ops as [|o r IH]; [reflexivity|]. unfold trace_of in *. cbn [map concat]. rewrite kept_app, IH.
    destruct o; simpl; rewrite ?app_nil_r; reflexivity.
  Qed.
  Lemma popped_trace_of ops : popped (trace_of ops) = ops_popped ops.
  Proof.
    induction ops as [|o r IH]; [reflexivity|]. unfold trace_of in *. cbn [map concat]. rewrite popped_app, IH.
    destruct o; simpl; rewrite ?app_nil_r; reflexivity.
  Qed.

  Lemma prefixes_split {A} (l : list A) : forall p, In p (prefixes l) -> exists r, l = p ++ r.
  Proof.
    induction l as [|x l IH]; intros p H; simpl in H.
    - destruct H as [H|[]]. subst. exists []. reflexivity.
    - destruct H as [H|H]; [subst; eexists; reflexivity|].
      apply in_map_iff in H as [p' [E Hp']]. subst p. destruct (IH p' Hp') as [r Hr]. exists r. simpl. congruence.
  Qed.

  Lemma prefix_holds p :
    (exists s', seq_end init p = Some s') -> prefix_ok cap batch p = true.
  Proof.
    intros [s' He]. unfold prefix_ok.
    destruct (rev p) as [|o rp] eqn:Er; [reflexivity|].
    assert (Hp : p = rev rp ++ [o]).
    { rewrite <- (rev_involutive p), Er. reflexivity. }
    rewrite Hp in He. rewrite seq_end_app in He.
    destruct (seq_end init (rev rp)) as [s0|] eqn:E0; [|discriminate].
    cbn [seq_end] in He. destruct (seq_step s0 o) as [s1|] eqn:E1; [|discriminate]. inversion He; subst s'.
    destruct (seq_step_run s0 o s1 E1) as [_ Ho]. apply ostate_eqb_eq in Ho as [H1 [H2 H3]].
    assert (Hrun : run cap batch keep init (trace_of p) = Some s1).
    { apply seq_end_run; [reflexivity|]. rewrite Hp, seq_end_app, E0. cbn [seq_end]. rewrite E1. reflexivity. }
    pose proof (trace_pred _ _ Hrun H3) as HP. unfold obs_pred in HP. cbn [fst snd] in HP.
    rewrite kept_trace_of, popped_trace_of in HP.
    apply andb_true_iff in HP as [HP P5]. apply andb_true_iff in HP as [HP P4].
    apply andb_true_iff in HP as [HP P3]. apply andb_true_iff in HP as [P1 P2].
    rewrite <- H1, <- H2, P1, P2, P4, P5, !andb_true_r. cbn [andb].
    destruct o as [a after|out after|after]; try reflexivity.
    (* the last operation is a Pop: its batch is one of the crit labels of the trace *)
    unfold crit_sizes_ok in P3. rewrite forallb_forall in P3. apply (P3 (LCrit out)).
    rewrite Hp. unfold trace_of. rewrite map_app, concat_app. apply in_or_app. right. simpl. right. left. reflexivity.
  Qed.

  Lemma skipn_app_all {A} (a b : list A) : skipn (List.length a) (a ++ b) = b.
  Proof. induction a as [|x a IH]; simpl; [destruct b; reflexivity | exact IH]. Qed.

  Lemma steps_exact_holds ops : forall s,
    len (q s) <= cap -> mid s = O ->
    seq_ok cap batch s ops = true -> steps_exact cap (q s) ops = true.
  Proof.
    induction ops as [|o r IH]; intros s Hq Hm H; [reflexivity|].
    destruct o as [a after|out after|after]; cbn [seq_ok] in H; cbn [steps_exact].
    - apply andb_true_iff in H as [H1 H2]. apply ostate_eqb_eq in H1 as [E1 [E2 E3]].
      rewrite <- E1, <- (push_q cap keep cap_nonneg s a Hq), zlist_eqb_refl. cbn [andb].
      apply IH; [apply push_len; assumption | exact E3 | exact H2].
    - destruct (pop batch s) as [[s' o']|] eqn:Ep; [|discriminate].
      apply andb_true_iff in H as [H H3]. apply andb_true_iff in H as [H1 H2].
      apply (list_eqb_spec Z.eqb) in H1; [|intros x y; apply Z.eqb_eq]. subst o'.
      apply ostate_eqb_eq in H2 as [E1 [E2 E3]].
      unfold pop, take in Ep. destruct (tok s); [|discriminate]. unfold crit in Ep. cbn [mid q tok] in Ep.
      inversion Ep; subst s' out. clear Ep. cbn [q mid] in *.
      rewrite <- E1, firstn_skipn, zlist_eqb_refl. cbn [andb].
      match type of H3 with seq_ok _ _ ?st _ = _ => apply (IH st) end; [| |exact H3]; cbn [q mid]; [|exact Hm].
      unfold len in *. rewrite skipn_length. lia.
    - apply andb_true_iff in H as [H H3]. apply andb_true_iff in H as [_ H2].
      apply ostate_eqb_eq in H2 as [E1 _]. rewrite <- E1, zlist_eqb_refl. cbn [andb]. apply IH; assumption.
  Qed.

  Lemma seq_bridge ops :
    corr_ok (CSeq cap batch ops) = true -> pred_ok (CSeq cap batch ops) = true.
  Proof.
    cbn [corr_ok pred_ok]. intro H. apply andb_true_iff. split.
    - apply forallb_forall. intros p Hp.
      destruct (prefixes_split ops p Hp) as [r Hr]. apply prefix_holds.
      destruct (seq_ok_end ops init H) as [s' He]. rewrite Hr, seq_end_app in He.
      destruct (seq_end init p) as [s1|]; [eexists; reflexivity | discriminate].
    - apply (steps_exact_holds ops init); [unfold len; simpl; lia | reflexivity | exact H].
  Qed.

  (* the recorded sequential operations are a run of the transition system *)
  Lemma seq_is_run ops :
    corr_ok (CSeq cap batch ops) = true ->
    exists s, run cap batch keep init (trace_of ops) = Some s /\ mid s = O.
  Proof.
    cbn [corr_ok]. intro H. destruct (seq_ok_end ops init H) as [s' He].
    exists s'. apply seq_end_run; [reflexivity | exact He].
  Qed.
End B.

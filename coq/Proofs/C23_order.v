(* C23 — when every series gets one response per replica the status is the
   order-free [spec_status] of the responses (early return included), so it
   does not depend on their arrival order. *)
From Coq Require Import ZArith List Bool Lia String Permutation.
Import ListNotations.
From Verif Require Import Lib.Corr Lib.Receive_Fanout Gen.C23 Model.C23 Proofs.C23.
Open Scope Z_scope.

(* the three arms of [spec_status], as facts about the series *)
Lemma spec_status_cases : forall n q ft rs,
  ((forall s, (s < n)%nat -> q <= successes_of s rs) /\ spec_status n q ft rs = 200)
  \/ ((exists s, (s < n)%nat /\ successes_of s rs < q)
      /\ (forall s, (s < n)%nat -> q <= successes_of s rs \/ ft <= conflicts_of s rs) /\ spec_status n q ft rs = 409)
  \/ ((exists s, (s < n)%nat /\ successes_of s rs < q /\ conflicts_of s rs < ft) /\ spec_status n q ft rs = 503).
Proof.
  intros n q ft rs. unfold spec_status.
  destruct (forallb (fun s => successes_of s rs >=? q) (seq 0 n)) eqn:A.
  { left. split; [|reflexivity]. intros s Hs. apply Z.geb_le, (proj1 (forallb_seq _ n) A s Hs). }
  right. apply forallb_seq_false in A as [s [Hs A]]. rewrite Z.geb_leb, Z.leb_gt in A.
  destruct (forallb (fun s => (successes_of s rs >=? q) || (conflicts_of s rs >=? ft)) (seq 0 n)) eqn:B.
  - left. split; [exists s; split; assumption|]. split; [|reflexivity]. intros s' Hs'.
    pose proof (proj1 (forallb_seq _ n) B s' Hs') as H. apply orb_true_iff in H. rewrite !Z.geb_le in H. exact H.
  - right. split; [|reflexivity]. apply forallb_seq_false in B as [s' [Hs' B]].
    apply orb_false_iff in B as [B1 B2]. rewrite Z.geb_leb, Z.leb_gt in B1, B2. exists s'. auto.
Qed.

Lemma spec_status_perm : forall n q ft rs rs', Permutation rs rs' -> spec_status n q ft rs = spec_status n q ft rs'.
Proof.
  intros n q ft rs rs' H. unfold spec_status.
  rewrite (forallb_pointwise (fun s => (successes_of s rs >=? q) || (conflicts_of s rs >=? ft))
                             (fun s => (successes_of s rs' >=? q) || (conflicts_of s rs' >=? ft))),
          (forallb_pointwise _ (fun s => successes_of s rs' >=? q)); [reflexivity| |];
    intro s; rewrite (successes_of_perm s rs rs' H), ?(conflicts_of_perm s rs rs' H); reflexivity.
Qed.

Section Status.
  Variables (n : nat) (nrep q ft : Z) (rs : list resp).
  Hypothesis Hft : 1 <= ft.
  Hypothesis Hsum : q + ft = nrep + 1.
  Hypothesis Hqft : q <= ft + 1.
  Hypothesis Hwf : forall s, (s < n)%nat -> responses_of s rs = nrep.

  (* the counters of series s where the loop stops: after a prefix l with every
     series determined, or when the channel is closed *)
  Lemma stop_counters : forall l l' s, rs = l ++ l' ->
    can_return_early q ft (reach n l) = true \/ l' = [] -> (s < n)%nat ->
    let x := nth s (reach n l) sst0 in
    0 <= succ x <= successes_of s rs /\ confl x <= conflicts_of s rs /\ fail x <= nrep - successes_of s rs
    /\ confl x + nrdy x <= fail x /\ confl x + unav x <= fail x /\ 0 <= nrdy x /\ 0 <= unav x
    /\ ((q <= succ x \/ ft <= confl x)
        \/ (succ x = successes_of s rs /\ confl x = conflicts_of s rs /\ succ x + fail x = nrep)).
  Proof.
    intros l l' s Hrs Hstop Hs. cbn zeta. pose proof (prefix_counters n l s Hs) as P. cbn zeta in P.
    pose proof (Hwf s Hs) as W. rewrite Hrs, responses_of_app in W. rewrite Hrs, successes_of_app, conflicts_of_app.
    pose proof (successes_le_responses s l). pose proof (successes_le_responses s l').
    pose proof (conflicts_of_nonneg s l').
    repeat (split; [lia|]). destruct Hstop as [Hdet| ->]; [left; exact (proj1 (early_spec q ft n l) Hdet s Hs)|].
    right. change (successes_of s []) with 0. change (conflicts_of s []) with 0. change (responses_of s []) with 0 in W. lia.
  Qed.

  (* what finish returns there, in terms of what the series received in all of rs *)
  Lemma finish_at_stop : forall l l', rs = l ++ l' -> can_return_early q ft (reach n l) = true \/ l' = [] ->
    (finish ft ft (reach n l) = Some Ack /\ forall s, (s < n)%nat -> q <= successes_of s rs)
    \/ exists c, finish ft ft (reach n l) = Some (Failed c) /\ sentinel c
         /\ (exists s, (s < n)%nat /\ successes_of s rs < q)
         /\ (c = CConflict <-> forall s, (s < n)%nat -> q <= successes_of s rs \/ ft <= conflicts_of s rs).
  Proof.
    intros l l' Hrs Hstop. pose proof (fun s => stop_counters l l' s Hrs Hstop) as SC. cbn zeta in SC.
    destruct (finish_spec ft (reach n l) Hft) as [[E Hall]|[c [E [Hsc [Hex Hc]]]]].
    - left. split; [exact E|]. rewrite (Forall_nth_iff _ _ sst0), reach_length in Hall.
      intros s Hs. specialize (Hall s Hs). specialize (SC s Hs). lia.
    - right. exists c. split; [exact E|]. split; [exact Hsc|].
      apply (Exists_nth_iff _ _ sst0) in Hex as [s [Hs Hf]]. rewrite reach_length in Hs.
      split; [exists s; split; [exact Hs|]; specialize (SC s Hs); lia|].
      (* a failed series lacks quorum in rs; determined or complete, it has its ft conflicts
         already, and q <= ft + 1 leaves no room for more of another kind *)
      rewrite Hc, (Forall_nth_iff _ _ sst0), reach_length. unfold blocked.
      split; intros H s' Hs'; specialize (H s' Hs'); specialize (SC s' Hs'); lia.
  Qed.

  Lemma fan_status_is_spec : fan_status n q ft rs = Some (spec_status n q ft rs).
  Proof.
    unfold fan_status. rewrite threshold_is_failure_threshold.
    destruct (loop_prefix ft q ft rs (repeat sst0 n)) as [k [Hk [_ Hor]]]. rewrite Hk. fold (reach n (firstn k rs)).
    assert (Hstop : can_return_early q ft (reach n (firstn k rs)) = true \/ skipn k rs = []).
    { destruct Hor as [H| ->]; [left; exact H|right; apply skipn_all]. }
    destruct (finish_at_stop _ _ (eq_sym (firstn_skipn k rs)) Hstop) as [[E Hq]|[c [E [Hsc [[s [Hs Hlt]] Hc]]]]];
      rewrite E; cbn [result_status];
      destruct (spec_status_cases n q ft rs) as [[A ->]|[[[s' [Hs' A]] [B ->]]|[[s' [Hs' [A B]]] ->]]].
    - reflexivity.
    - specialize (Hq s' Hs'). lia.
    - specialize (Hq s' Hs'). lia.
    - specialize (A s Hs). lia.
    - rewrite (proj2 Hc B). exact status_conflict.
    - destruct Hsc as [->|[->| ->]]; [|exact status_notready|exact status_unavailable].
      pose proof (proj1 Hc eq_refl s' Hs'). lia.
  Qed.
End Status.

Lemma fan_order_independent : forall n nrep q ft rs rs',
  1 <= q -> 1 <= ft -> q + ft = nrep + 1 -> q <= ft + 1 ->
  (forall s, (s < n)%nat -> responses_of s rs = nrep) ->
  Permutation rs rs' ->
  fan_status n q ft rs = fan_status n q ft rs'.
Proof.
  intros n nrep q ft rs rs' _ Hft Hsum Hqft Hwf Hp.
  rewrite (fan_status_is_spec n nrep q ft rs), (fan_status_is_spec n nrep q ft rs'), (spec_status_perm n q ft rs rs' Hp);
    try assumption; [reflexivity|].
  intros s Hs. rewrite <- (responses_of_perm s rs rs' Hp). exact (Hwf s Hs).
Qed.

Lemma existsb_conflicts' : forall n rs ft,
  existsb (fun s => conflicts_of s rs >=? ft) (seq 0 n) = true <->
  exists s, (s < n)%nat /\ conflicts_of s rs >= ft.
Proof. exact existsb_conflicts. Qed.

Lemma handle_pred : forall rf rep place ws, 1 <= rf -> 0 <= rep ->
  (forall s, (s < List.length place)%nat -> responses_of s (resps_of place ws) = n_replicas rf rep) ->
  exists st, handle rf rep place ws = Some st /\ pred_ok (CFan rf rep place ws st) = true.
Proof.
  intros rf rep place ws Hrf Hrep Hwf. unfold handle. cbn [pred_ok].
  destruct (rep >? rf).
  - destruct (Nat.eqb (List.length place) 0); eexists; (split; [first [reflexivity|exact status_badreplica]|reflexivity]).
  - destruct (Nat.eqb (List.length place) 0); [exists 200; split; reflexivity|].
    destruct (handler_thresholds rf rep Hrf Hrep) as [_ [Hft [Hsum [Hqft Hspec]]]]. cbn zeta in *.
    rewrite (spec_threshold_is rf rep Hrf), <- Hspec.
    pose proof (fan_status_is_spec _ _ _ _ _ Hft Hsum Hqft Hwf) as St. rewrite St.
    eexists. split; [reflexivity|]. destruct (only_conflict_unavailable ws); [apply Z.eqb_refl|].
    (* unknown errors among the responses: a 409 still names a series blocked by conflicts *)
    destruct (Z.eqb_spec (spec_status (List.length place) (success_threshold rf rep)
                (failureThreshold_expr (n_replicas rf rep) (success_threshold rf rep)) (resps_of place ws)) 409) as [E|];
      [|reflexivity].
    rewrite E in St. exact (proj2 (existsb_conflicts _ _ _) (fan_409 _ _ _ _ Hft St)).
Qed.

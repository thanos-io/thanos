(* C42 — whole-history exactness of the results cache model (Model/C42.v):
   every answer of every history of step-aligned range queries equals direct evaluation,
   with the invariant "every cached extent is exact for its key". *)
From Coq Require Import ZArith List Bool Lia Znumtheory Sorted RelationClasses.
Import ListNotations.
From Verif Require Import Lib.Corr Lib.ListFacts Gen.C41 Model.C41 Proofs.C41 Gen.C42 Model.C42 Proofs.C42.
Open Scope Z_scope.

Lemma ins_by_map {A B} (g : A -> B) lt x l :
  ins_by lt (g x) (map g l) = map g (ins_by (fun a b => lt (g a) (g b)) x l).
Proof.
  induction l as [|y l IH]; [reflexivity|]. cbn. destruct (lt (g x) (g y)); [reflexivity|].
  cbn. rewrite IH. reflexivity.
Qed.

Lemma sort_by_map {A B} (g : A -> B) lt l :
  sort_by lt (map g l) = map g (sort_by (fun a b => lt (g a) (g b)) l).
Proof.
  unfold sort_by. change (@nil B) with (map g []). generalize (@nil A).
  induction l as [|x l IH]; intro acc; [reflexivity|]. cbn [map fold_left]. rewrite ins_by_map. apply IH.
Qed.

Section Sort.
  Context {A : Type} (lt : A -> A -> bool).
  Hypothesis lt_asym : forall x y, lt x y = true -> lt y x = false.
  Hypothesis le_trans : forall x y z, lt y x = false -> lt z y = false -> lt z x = false.

  (* [x] may stand before [y] *)
  Definition sle (x y : A) : Prop := lt y x = false.

  Lemma sort_by_isort l : sort_by lt l = isort lt (rev l).
  Proof.
    unfold sort_by, isort. rewrite <- fold_left_rev_right.
    induction (rev l) as [|x r IH]; [reflexivity|]. cbn [fold_right]. rewrite IH.
    generalize (fold_right (ins lt) [] r). intro k.
    induction k as [|y k IHk]; cbn; [|rewrite IHk]; reflexivity.
  Qed.

  Lemma sort_by_spec l : StronglySorted sle (sort_by lt l) /\ forall z, In z (sort_by lt l) <-> In z l.
  Proof.
    rewrite sort_by_isort. split.
    - apply (isort_StronglySorted lt sle lt_asym (fun x y H => H) (Transitive0 := le_trans)).
    - intro z. rewrite isort_In. symmetry. apply in_rev.
  Qed.
End Sort.

Section Pieces.
  Variable f : downstream.
  Variable sids : list Z.
  Hypothesis Hsids : incr sids.

  (* grid intervals: the timestamps of a piece *)
  Definition is_iv (st lo hi : Z) (ts : list Z) : Prop :=
    incr ts /\ forall t, In t ts <-> lo <= t <= hi /\ (st | t).

  Definition iv (st : Z) (ts : list Z) : Prop := exists lo hi, 0 <= lo /\ is_iv st lo hi ts.

  Lemma piece_min_time st ts s t v : iv st ts ->
    In (t, v) (stream_of s (eval_on f sids ts)) ->
    0 <= min_time (eval_on f sids ts) <= t /\ In (min_time (eval_on f sids ts)) ts.
  Proof.
    intros (lo & hi & Hlo & Hinc & Hmem) Hin.
    assert (NN : nonneg ts) by (intros x Hx; apply Hmem in Hx; lia).
    destruct (min_time_eval_on f sids ts Hsids Hinc NN) as [[E _]|[(_ & _ & _ & Hr & _) Hle]]; cbv zeta in *.
    - rewrite E in Hin. contradiction.
    - apply eval_on_stream_in in Hin as (Hs & Ht & Hf); [|exact Hsids].
      specialize (Hle s t v Hs Ht Hf). specialize (NN _ Hr). auto.
  Qed.

  Definition mt_lt (a b : matrix) : bool := min_time a <? min_time b.

  Definition piece_lt (ts ts' : list Z) : bool := mt_lt (eval_on f sids ts) (eval_on f sids ts').

  Lemma piece_lt_asym x y : piece_lt x y = true -> piece_lt y x = false.
  Proof. unfold piece_lt, mt_lt. lia. Qed.
  Lemma piece_le_trans x y z : piece_lt y x = false -> piece_lt z y = false -> piece_lt z x = false.
  Proof. unfold piece_lt, mt_lt. lia. Qed.

  Lemma last_ts_app_in (l : samples) d : l <> [] -> In (last_ts l d) (map fst l).
  Proof.
    destruct l as [|[t v] l]; [congruence|]. intros _. cbn [last_ts]. rewrite last_ts_z. apply last_z_in.
  Qed.

  (* A sample of a piece that is not after a sample of a piece sorted before it is a sample of
     that piece too: its time lies between the earlier piece's minTime and one of its
     timestamps, and both pieces are intervals of the same grid. *)
  Lemma piece_convex st ts ts' s p q :
    iv st ts -> iv st ts' -> sle piece_lt ts ts' ->
    In q (stream_of s (eval_on f sids ts)) -> In p (stream_of s (eval_on f sids ts')) ->
    fst p <= fst q -> In p (stream_of s (eval_on f sids ts)).
  Proof.
    intros Iv Iv' Ord Hq Hp Hle. destruct p as [t v], q as [tq vq]. cbn [fst] in Hle.
    destruct (piece_min_time st ts s tq vq Iv Hq) as [_ Q].
    destruct (piece_min_time st ts' s t v Iv' Hp) as [[_ P] _].
    unfold sle, piece_lt, mt_lt in Ord. apply Z.ltb_ge in Ord.
    destruct Iv as (lo & hi & _ & _ & Hmem), Iv' as (lo' & hi' & _ & _ & Hmem').
    apply eval_on_stream_in in Hq as (_ & Hq & _); [|exact Hsids].
    apply eval_on_stream_in in Hp as (Hs & Hp & Hf); [|exact Hsids].
    apply eval_on_stream_in; [exact Hsids|]. split; [exact Hs|]. split; [|exact Hf].
    apply Hmem. apply Hmem in Q, Hq. apply Hmem' in Hp. split; [lia | tauto].
  Qed.

  (* processing sorted (by minTime) pieces one after the other, for one series: the invariant
     is that a sample of a piece still to come that is not after the samples so far is among them *)
  Lemma fold_pieces st s : forall tss acc,
    Forall (iv st) tss -> StronglySorted (sle piece_lt) tss -> incr (map fst acc) ->
    (forall ts p q, In ts tss -> In p (stream_of s (eval_on f sids ts)) -> In q acc ->
                    fst p <= fst q -> In p acc) ->
    let r := fold_left (fun acc m => merge_stream acc (stream_of s m)) (map (eval_on f sids) tss) acc in
    incr (map fst r) /\
    forall p, In p r <-> In p acc \/ exists ts, In ts tss /\ In p (stream_of s (eval_on f sids ts)).
  Proof.
    induction tss as [|ts tss IH]; intros acc F S Ia C; cbn zeta.
    - cbn. split; [exact Ia|]. intro p. split; [auto | intros [H|(ts & [] & _)]; exact H].
    - inversion F as [|? ? Iv F']; subst. inversion S as [|? ? S' Hd]; subst.
      rewrite Forall_forall in F', Hd. cbn [map fold_left].
      set (new := stream_of s (eval_on f sids ts)).
      assert (Inew : incr (map fst new))
        by (apply eval_on_stream_incr; [exact Hsids | destruct Iv as (? & ? & _ & H & _); exact H]).
      assert (Min : forall p, In p (merge_stream acc new) <-> In p acc \/ In p new).
      { apply merge_stream_in; [exact Ia | exact Inew|].
        intros p q Hp Hq. apply (C ts p q); [left; reflexivity | exact Hp | exact Hq]. }
      destruct (IH (merge_stream acc new)) as [I1 I2];
        [apply Forall_forall, F' | exact S' | apply merge_stream_incr; assumption | |].
      { intros ts' p q Hts' Hp Hq Hle. apply Min. apply Min in Hq as [Hq|Hq].
        - left. apply (C ts' p q); [right; exact Hts' | exact Hp | exact Hq | exact Hle].
        - right. apply (piece_convex st ts ts' s p q); auto. }
      split; [exact I1|]. intro p. rewrite I2, Min. split.
      + intros [[H|H]|(ts' & A & B)]; [left; exact H | right; exists ts | right; exists ts']; auto using in_eq, in_cons.
      + intros [H|(ts' & [<-|A] & B)]; [left; left; exact H | left; right; exact B | right; exists ts'; auto].
  Qed.

  Theorem merge_pieces_exact st tss ts : 0 < st ->
    Forall (iv st) tss -> incr ts ->
    (forall t, In t ts <-> exists ts', In ts' tss /\ In t ts') ->
    merge_response (map (eval_on f sids) tss) = eval_on f sids ts.
  Proof.
    intros _ F Hinc U. unfold merge_response.
    rewrite (sort_by_map (eval_on f sids) mt_lt). fold piece_lt.
    destruct (sort_by_spec piece_lt piece_lt_asym piece_le_trans tss) as [Ssorted Smem].
    set (tss' := sort_by piece_lt tss) in *.
    assert (F' : Forall (iv st) tss') by (rewrite Forall_forall in *; intros x Hx; apply F, Smem, Hx).
    destruct (matrix_merge_streams (map (eval_on f sids) tss')) as [WR SR].
    { rewrite Forall_forall. intros m Hm. apply in_map_iff in Hm as (x & <- & _). apply eval_on_wf, Hsids. }
    apply matrix_ext; [exact WR | apply eval_on_wf, Hsids |]. intro s. rewrite SR.
    destruct (fold_pieces st s tss' [] F' Ssorted I) as [I1 I2]; [intros ? ? ? _ _ []|]. cbn zeta in *.
    apply sorted_fst_unique; [exact I1 | apply eval_on_stream_incr; assumption |].
    intros [t v]. rewrite I2, eval_on_stream_in by exact Hsids. split.
    - intros [[]|(ts' & Hts' & Hp)]. apply eval_on_stream_in in Hp as (Hs & Ht & Hf); [|exact Hsids].
      repeat split; auto. apply U. exists ts'. split; [apply Smem, Hts' | exact Ht].
    - intros (Hs & Ht & Hf). apply U in Ht as (ts' & Hts' & Ht). right. exists ts'.
      split; [apply Smem, Hts'|]. apply eval_on_stream_in; auto.
  Qed.
End Pieces.

Lemma incr_map_seq a st : 0 < st -> forall n s, incr (map (fun k => a + Z.of_nat k * st) (seq s n)).
Proof.
  intros Hst. induction n as [|n IH]; intro s; [exact I|]. cbn [seq map incr]. split; [|apply IH].
  intros y Hy. apply in_map_iff in Hy as (k & <- & Hk). apply in_seq in Hk. nia.
Qed.

Lemma steps_incr a b st : 0 < st -> incr (steps a b st).
Proof. intro H. unfold steps. destruct (b <? a); [exact I | apply incr_map_seq; exact H]. Qed.

Lemma steps_in a b st t : 0 < st -> In t (steps a b st) <-> a <= t <= b /\ (st | t - a).
Proof.
  intro Hst. unfold steps. destruct (b <? a) eqn:E.
  - split; [intros [] | intros [H _]; lia].
  - assert (Hab : a <= b) by lia. assert (Hq : 0 <= (b - a) / st) by (apply Z.div_pos; lia).
    pose proof (Z.mul_div_le (b - a) st Hst) as Hm.
    rewrite in_map_iff. split.
    + intros (k & <- & Hk). apply in_seq in Hk. split; [nia|]. exists (Z.of_nat k). lia.
    + intros [[H1 H2] [q Hq']]. assert (0 <= q) by nia.
      assert (q <= (b - a) / st) by (apply Z.div_le_lower_bound; lia).
      exists (Z.to_nat q). split; [lia|]. apply in_seq. lia.
Qed.

Lemma steps_iv a b st : 0 < st -> (st | a) -> forall t, In t (steps a b st) <-> a <= t <= b /\ (st | t).
Proof.
  intros Hst Ha t. rewrite steps_in by exact Hst. split; intros [H1 H2]; (split; [exact H1|]).
  - replace t with ((t - a) + a) by lia. apply Z.divide_add_r; assumption.
  - apply Z.divide_sub_r; assumption.
Qed.

Lemma steps_is_iv a b st : 0 < st -> (st | a) -> is_iv st a b (steps a b st).
Proof. intros H1 H2. split; [apply steps_incr; exact H1 | apply steps_iv; assumption]. Qed.

Definition ts_ok (st rs re : Z) (ts : list Z) : Prop :=
  exists lo hi, rs <= lo /\ hi <= re /\ is_iv st lo hi ts.

Lemma steps_ts_ok st rs re a b : 0 < st -> (st | a) -> rs <= a -> b <= re -> ts_ok st rs re (steps a b st).
Proof. intros Hst Ha H1 H2. exists a, b. split; [exact H1|]. split; [exact H2 | apply steps_is_iv; assumption]. Qed.

Lemma isTS_spec start re mstep t :
  isTimestampAtStep start re mstep t = true <->
  start <= t <= re /\ (mstep <= 0 \/ Z.rem (t - start) mstep = 0).
Proof.
  unfold isTimestampAtStep. destruct ((t <? start) || (t >? re)) eqn:E.
  - split; [discriminate|]. intros [H _]. apply orb_true_iff in E as [E|E]; lia.
  - apply orb_false_iff in E as [E1 E2]. rewrite orb_true_iff. split.
    + intros [H|H]; (split; [lia|]); [left; lia | right; lia].
    + intros [_ [H|H]]; [left; lia | right; lia].
Qed.

(* The two ways partition is called for a request of step [st] on the extents of an entry of step
   [st']: with mstep = 0 on the request's own entry (st' = st, [matching = false] in handle_hit),
   or with mstep = st, the matching-step mode, on an entry of a lower step st' | st found through
   the alternative keys ([matching = true]). *)
Definition mode_ok (st st' mstep : Z) : Prop := (mstep = 0 /\ st' = st) \/ (mstep = st /\ (st' | st)).

Lemma filtered_iv st st' mstep start re es ee :
  0 < st -> 0 < st' -> (st' | es) -> (st | start) -> mode_ok st st' mstep ->
  let ts := filter (isTimestampAtStep start re mstep) (steps es ee st') in
  incr ts /\ forall t, In t ts <-> Z.max start es <= t <= Z.min ee re /\ (st | t).
Proof.
  intros Hst Hst' Hes Hstart Hm. cbn zeta. split; [apply incr_filter; apply steps_incr; exact Hst'|].
  intro t. rewrite filter_In, (steps_iv es ee st' Hst' Hes t), isTS_spec.
  destruct Hm as [[-> ->]|[-> Hdiv]].
  - split; [intros [[A B] [C _]]; split; [lia|exact B] | intros [A B]; repeat split; try lia; auto].
  - split.
    + intros [[A B] [C [D|D]]]; [lia|]. split; [lia|].
      apply Z.rem_divide in D; [|lia]. replace t with ((t - start) + start) by lia. apply Z.divide_add_r; assumption.
    + intros [A B]. repeat split; try lia.
      * eapply Z.divide_trans; eauto.
      * right. apply Z.rem_divide; [lia|]. apply Z.divide_sub_r; assumption.
Qed.

Section Partition.
  Variable f : downstream.
  Variable sids : list Z.

  (* a cached extent of an entry with step st' is exact *)
  Definition ext_ok (st' : Z) (e : extent) : Prop :=
    let '(es, ee, em) := e in
    (st' | es) /\ (st' | ee) /\ 0 <= es /\ em = eval_on f sids (steps es ee st').

  Definition covered (rq : list (Z * Z)) (tss : list (list Z)) (t : Z) : Prop :=
    (exists ab, In ab rq /\ fst ab <= t <= snd ab) \/ (exists ts, In ts tss /\ In t ts).

  Definition req_ok (st st' rs re : Z) (ab : Z * Z) : Prop :=
    (st | fst ab) /\ (st' | snd ab) /\ rs <= fst ab /\ snd ab <= re.

  Lemma covered_mono rq rq' tss tss' t :
    (forall x, In x rq -> In x rq') -> (forall x, In x tss -> In x tss') -> covered rq tss t -> covered rq' tss' t.
  Proof. intros H1 H2 [(ab & A & B)|(ts & A & B)]; [left; exists ab; auto | right; exists ts; auto]. Qed.

  (* the realigned start is a grid point; were it before [start], another grid point, it would
     be a whole step before it, and then more than the remainder below [ee] *)
  Lemma nstart_facts st rs start ee : 0 < st -> (st | rs) -> (st | start) -> rs <= start -> start <= ee ->
    let n := ee - Z.rem (ee - rs) st in start <= n <= ee /\ (st | n).
  Proof.
    intros Hst Hrs Hs H1 H2. cbn zeta.
    pose proof (Z.quot_rem' (ee - rs) st) as Q.
    pose proof (Z.rem_bound_pos (ee - rs) st ltac:(lia) Hst) as R.
    assert (Hn : (st | ee - Z.rem (ee - rs) st)).
    { replace (ee - Z.rem (ee - rs) st) with (rs + st * Z.quot (ee - rs) st) by lia.
      apply Z.divide_add_r; [exact Hrs | apply Z.divide_factor_l]. }
    split; [|exact Hn]. split; [|lia].
    destruct (Z_le_gt_dec start (ee - Z.rem (ee - rs) st)) as [L|G]; [exact L|].
    pose proof (Z.divide_pos_le st (start - (ee - Z.rem (ee - rs) st)) ltac:(lia) (Z.divide_sub_r _ _ _ Hs Hn)).
    lia.
  Qed.

  (* [fin] is where the loop stopped, i.e. where the request for the rest of the range would start;
     [tss] are the timestamps of the cached pieces. The grid points of [start, fin] are covered,
     except that before any extent has been used (rp = []) the loop has not moved (fin = start)
     and [start] itself is not covered yet: partition then asks for (fin, re), or for (rs, re)
     when the request is the single point rs = re. *)
  Lemma part_loop_spec st st' mstep rs re :
    0 < st -> 0 < st' -> mode_ok st st' mstep -> (st | rs) -> (st | re) ->
    forall exts start rq rp fin,
    Forall (ext_ok st') exts -> (st | start) -> rs <= start ->
    part_loop rs re mstep start exts = (rq, rp, fin) ->
    exists tss, rp = map (eval_on f sids) tss /\ Forall (ts_ok st rs re) tss
      /\ Forall (req_ok st st' rs re) rq /\ start <= fin /\ (st | fin) /\ (rp = [] -> fin = start)
      /\ forall t, (st | t) -> start <= t <= fin -> t <= re -> (rp = [] -> t < fin) -> covered rq tss t.
  Proof.
    intros Hst Hst' Hm Hrs Hre. induction exts as [|[[es ee] em] rest IH]; intros start rq rp fin F Gs Ls E.
    - cbn in E. inversion E; subst. exists [].
      split; [reflexivity|]. split; [constructor|]. split; [constructor|]. split; [lia|]. split; [exact Gs|].
      split; [reflexivity|]. intros t Ht H1 H2 H3. specialize (H3 eq_refl). lia.
    - inversion F as [|? ? Hok F']; subst. cbn [part_loop] in E.
      destruct ((ee <? start) || (es >? re)) eqn:C1; [eapply IH; eauto|].
      destruct (negb (rs =? re) && (re - rs >? min_cache_extent) && (ee - es <? min_cache_extent)); [eapply IH; eauto|].
      apply orb_false_iff in C1 as [C1 C2].
      destruct Hok as (Hes & Hee & Hes0 & Hem).
      set (nstart := if mstep >? 0 then ee - Z.rem (ee - rs) mstep else ee) in *.
      assert (HN : start <= nstart <= ee /\ (st | nstart)).
      { unfold nstart. destruct Hm as [[-> ->]|[-> Hdiv]].
        - cbn. split; [lia | exact Hee].
        - assert (X : (st >? 0) = true) by lia. rewrite X. apply nstart_facts; auto; lia. }
      destruct HN as [[N1 N2] N3].
      destruct (part_loop rs re mstep nstart rest) as [[rq' rp'] fin'] eqn:R.
      inversion E as [[E1 E2 E3]]. subst rq rp fin. clear E.
      destruct (IH nstart rq' rp' fin' F' N3 ltac:(lia) R) as (tss' & Erp & Fts & Frq & L1 & G1 & Z1 & Cov).
      subst em.
      pose proof (filtered_iv st st' mstep start re es ee Hst Hst' Hes Gs Hm) as [FI FM].
      set (ts0 := filter (isTimestampAtStep start re mstep) (steps es ee st')) in *.
      exists (ts0 :: tss'). split; [cbn [map]; f_equal; [apply extract_eval_on | exact Erp]|].
      split; [constructor; [|exact Fts]|].
      { exists (Z.max start es), (Z.min ee re). split; [lia|]. split; [lia|]. split; assumption. }
      split.
      { apply Forall_app. split; [|exact Frq]. destruct (start <? es) eqn:Q; [|constructor].
        constructor; [|constructor]. unfold req_ok. cbn [fst snd].
        repeat split; try lia; try assumption. }
      split; [lia|]. split; [exact G1|]. split; [discriminate|].
      intros t Ht [T1 T2] T3 _.
      destruct (Z_lt_le_dec t es) as [Q|Q].
      + left. exists (start, es). split; [|cbn; lia]. apply in_or_app. left.
        assert (X : (start <? es) = true) by lia. rewrite X. left. reflexivity.
      + destruct (Z_le_gt_dec t ee) as [Q2|Q2].
        * right. exists ts0. split; [left; reflexivity|]. apply FM. split; [lia | exact Ht].
        * assert (K : covered rq' tss' t).
          { apply Cov; [exact Ht | lia | exact T3 |]. intros Hnil. specialize (Z1 Hnil). lia. }
          eapply covered_mono; [| |exact K]; [intros x Hx; apply in_or_app; right; exact Hx | intros x Hx; right; exact Hx].
  Qed.
End Partition.

Section Hit.
  Variable f : downstream.
  Variable sids : list Z.
  Hypothesis Hsids : incr sids.

  Lemma partition_spec st st' mstep rs re exts reqs cached :
    0 < st -> 0 < st' -> mode_ok st st' mstep -> (st | rs) -> (st | re) -> rs <= re ->
    Forall (ext_ok f sids st') exts ->
    partition rs re mstep exts = (reqs, cached) ->
    exists tss, cached = map (eval_on f sids) tss /\ Forall (ts_ok st rs re) tss
      /\ Forall (req_ok st st' rs re) reqs
      /\ forall t, (st | t) -> rs <= t <= re -> covered reqs tss t.
  Proof.
    intros Hst Hst' Hm Hrs Hre Hle F E. unfold partition in E.
    destruct (part_loop rs re mstep rs exts) as [[rq rp] fin] eqn:R.
    destruct (part_loop_spec f sids st st' mstep rs re Hst Hst' Hm Hrs Hre exts rs rq rp fin F Hrs ltac:(lia) R)
      as (tss & Erp & Fts & Frq & L1 & G1 & Z1 & Cov).
    assert (Hre' : (st' | re)) by (destruct Hm as [[_ ->]|[_ D]]; [exact Hre | eapply Z.divide_trans; eauto]).
    inversion E as [[E1 E2]]. clear E. subst cached. exists tss. split; [exact Erp|]. split; [exact Fts|].
    set (rq1 := if fin <? re then rq ++ [(fin, re)] else rq) in *.
    assert (F1 : Forall (req_ok st st' rs re) rq1).
    { unfold rq1. destruct (fin <? re) eqn:Q; [|exact Frq]. apply Forall_app. split; [exact Frq|].
      constructor; [|constructor]. unfold req_ok. cbn. repeat split; auto; lia. }
    split.
    { destruct ((rs =? re) && Nat.eqb (length rp) 0); [|exact F1]. apply Forall_app. split; [exact F1|].
      constructor; [|constructor]. unfold req_ok. cbn. repeat split; auto; lia. }
    intros t Ht [T1 T2].
    assert (Sub1 : forall x, In x rq -> In x rq1) by (intros x Hx; unfold rq1; destruct (fin <? re); [apply in_or_app; left|]; exact Hx).
    assert (Sub2 : forall x, In x rq1 -> In x (if (rs =? re) && Nat.eqb (length rp) 0 then rq1 ++ [(rs, re)] else rq1))
      by (intros x Hx; destruct ((rs =? re) && Nat.eqb (length rp) 0); [apply in_or_app; left|]; exact Hx).
    destruct (Z_lt_le_dec fin t) as [Q|Q].
    - (* after the last extent: the tail request *)
      left. exists (fin, re). split; [|cbn; lia]. apply Sub2. unfold rq1.
      assert (X : (fin <? re) = true) by lia. rewrite X. apply in_or_app. right. left. reflexivity.
    - destruct rp as [|c rp'] eqn:Erp'.
      + specialize (Z1 eq_refl). subst fin.
        assert (t = rs) by lia. subst t.
        left. destruct (Z.eq_dec rs re) as [->|Ne].
        * exists (re, re). split; [|cbn; lia]. rewrite Z.eqb_refl. cbn. apply in_or_app. right. left. reflexivity.
        * exists (rs, re). split; [|cbn; lia]. apply Sub2. unfold rq1.
          assert (X : (rs <? re) = true) by lia. rewrite X. apply in_or_app. right. left. reflexivity.
      + assert (K : covered rq tss t) by (apply Cov; [exact Ht | lia | lia | discriminate]).
        eapply covered_mono; [| |exact K]; [intros x Hx; apply Sub2, Sub1; exact Hx | auto].
  Qed.

  Lemma merge_cover st rs re tss : 0 < st -> (st | rs) -> 0 <= rs ->
    Forall (ts_ok st rs re) tss ->
    (forall t, (st | t) -> rs <= t <= re -> exists ts, In ts tss /\ In t ts) ->
    merge_response (map (eval_on f sids) tss) = eval f sids rs re st.
  Proof.
    intros Hst Hrs Hrs0 F Cov. rewrite eval_eval_on. rewrite Forall_forall in F.
    apply (merge_pieces_exact f sids Hsids st); [exact Hst | | apply steps_incr, Hst |].
    - apply Forall_forall. intros ts Hts. destruct (F ts Hts) as (lo & hi & A & _ & C).
      exists lo, hi. split; [lia | exact C].
    - intro t. rewrite (steps_iv rs re st Hst Hrs t). split.
      + intros [T1 T2]. apply Cov; assumption.
      + intros (ts & Hts & Ht). destruct (F ts Hts) as (lo & hi & A & B & _ & C).
        apply C in Ht. split; [lia | tauto].
  Qed.

  Lemma hit_response st st' rs re reqs tss :
    0 < st -> (st | rs) -> 0 <= rs ->
    Forall (ts_ok st rs re) tss -> Forall (req_ok st st' rs re) reqs ->
    (forall t, (st | t) -> rs <= t <= re -> covered reqs tss t) ->
    merge_response (map (eval_on f sids) tss ++ map (fun ab => eval f sids (fst ab) (snd ab) st) reqs)
    = eval f sids rs re st.
  Proof.
    intros Hst Hrs Hrs0 Fts Frq Cov. rewrite Forall_forall in Frq.
    replace (map (fun ab => eval f sids (fst ab) (snd ab) st) reqs)
      with (map (eval_on f sids) (map (fun ab => steps (fst ab) (snd ab) st) reqs))
      by (rewrite map_map; reflexivity).
    rewrite <- map_app. apply merge_cover; [exact Hst | exact Hrs | exact Hrs0 | |].
    - apply Forall_app. split; [exact Fts|]. apply Forall_forall. intros ts Hts.
      apply in_map_iff in Hts as (ab & <- & Hab). destruct (Frq ab Hab) as (A & _ & C & D).
      apply steps_ts_ok; assumption.
    - intros t Ht Hb. destruct (Cov t Ht Hb) as [(ab & A & B)|(ts & A & B)].
      + exists (steps (fst ab) (snd ab) st). split; [apply in_or_app; right; apply in_map_iff; exists ab; auto|].
        apply steps_iv; [exact Hst | apply (Frq ab A) | auto].
      + exists ts. split; [apply in_or_app; left; exact A | exact B].
  Qed.

  Lemma ext_lt_asym x y : ext_lt x y = true -> ext_lt y x = false.
  Proof.
    destruct x as [[xs xe] xm], y as [[ys ye] ym]. cbn.
    destruct (xs =? ys) eqn:E1, (ys =? xs) eqn:E2; lia.
  Qed.

  Lemma ext_le_trans x y z : ext_lt y x = false -> ext_lt z y = false -> ext_lt z x = false.
  Proof.
    destruct x as [[xs xe] xm], y as [[ys ye] ym], z as [[zs ze] zm]. cbn.
    destruct (ys =? xs) eqn:E1, (zs =? ys) eqn:E2, (zs =? xs) eqn:E3; lia.
  Qed.

  Definition estart (e : extent) : Z := fst (fst e).

  Lemma ext_lt_false_start x y : ext_lt y x = false -> estart x <= estart y.
  Proof.
    destruct x as [[xs xe] xm], y as [[ys ye] ym]. cbn. destruct (ys =? xs) eqn:E; lia.
  Qed.

  Lemma merge_two_extents st as_ ae es ee :
    0 < st -> (st | as_) -> (st | ae) -> (st | es) -> 0 <= as_ ->
    as_ <= es -> es <= ae + st -> ae < ee ->
    merge_response [eval_on f sids (steps as_ ae st); eval_on f sids (steps es ee st)]
    = eval_on f sids (steps as_ ee st).
  Proof.
    intros Hst G1 G2 G3 N1 O1 O2 O3. rewrite <- eval_eval_on.
    apply (merge_cover st as_ ee [steps as_ ae st; steps es ee st]); [exact Hst | exact G1 | exact N1 | |].
    - constructor; [|constructor; [|constructor]]; apply steps_ts_ok; auto; lia.
    - intros t T2 T1. destruct (Z_le_gt_dec t ae) as [Q|Q].
      + exists (steps as_ ae st). split; [left; reflexivity|]. apply steps_iv; auto. split; [lia | exact T2].
      + exists (steps es ee st). split; [right; left; reflexivity|]. apply steps_iv; auto. split; [|exact T2].
        (* t is a grid point after ae, hence at least a step after it *)
        pose proof (Z.divide_pos_le st (t - ae) ltac:(lia) (Z.divide_sub_r _ _ _ T2 G2)). lia.
  Qed.

  Lemma merge_exts_ok st : 0 < st -> forall l acc,
    ext_ok f sids st acc -> Forall (ext_ok f sids st) l ->
    (forall y, In y l -> estart acc <= estart y) -> StronglySorted (sle ext_lt) l ->
    Forall (ext_ok f sids st) (merge_exts st acc l).
  Proof.
    intros Hst. induction l as [|e l IH]; intros acc Ha F Hs S.
    - cbn. constructor; [exact Ha | constructor].
    - inversion F as [|? ? He F']; subst. inversion S as [|? ? S2 S1]; subst. rewrite Forall_forall in S1.
      destruct acc as [[as_ ae] am], e as [[es ee] em]. cbn [merge_exts].
      assert (O1 : as_ <= es) by (apply (Hs (es, ee, em)); left; reflexivity).
      destruct (ae + st <? es) eqn:C1.
      + constructor; [exact Ha|]. apply IH; auto. intros y Hy. apply ext_lt_false_start. apply S1. exact Hy.
      + destruct (ae >=? ee) eqn:C2.
        * apply IH; auto. intros y Hy. apply Hs. right. exact Hy.
        * apply IH; auto; [|intros y Hy; apply (Hs y); right; exact Hy].
          destruct Ha as (A1 & A2 & A3 & A4), He as (B1 & B2 & B3 & B4). subst am em.
          unfold ext_ok. repeat split; auto. apply merge_two_extents; auto; lia.
  Qed.

  (* T fact: in handleHit's loop the fetched response is appended to the answer before the
     shouldCacheResponse test *)
  Lemma answer_first : answer_appended_before_store_test = true.
  Proof. reflexivity. Qed.

  Lemma handle_hit_spec (stor : Z -> Z -> bool) st st' rs re exts (matching : bool) resp wb :
    0 < st -> 0 < st' -> mode_ok st st' (if matching then st else 0) -> (st | rs) -> (st | re) -> 0 <= rs -> rs <= re ->
    Forall (ext_ok f sids st') exts ->
    handle_hit f sids stor rs re st exts matching = (resp, wb) ->
    resp = eval f sids rs re st /\
    (matching = false -> forall e', wb = Some e' -> Forall (ext_ok f sids st) e').
  Proof.
    intros Hst Hst' Hm Hrs Hre Hrs0 Hle F E. unfold handle_hit in E.
    destruct (partition rs re (if matching then st else 0) exts) as [reqs cached] eqn:P.
    destruct (partition_spec st st' _ rs re exts reqs cached Hst Hst' Hm Hrs Hre Hle F P) as (tss & Ec & Fts & Frq & Cov).
    subst cached.
    pose proof (hit_response st st' rs re reqs tss Hst Hrs Hrs0 Fts Frq Cov) as HR.
    destruct reqs as [|r0 reqs'] eqn:Ereqs.
    - inversion E; subst. cbn [map] in HR. rewrite app_nil_r in HR. split; [exact HR | intros _ e' K; discriminate].
    - rewrite <- Ereqs in *.
      set (rr := map (fun ab => (fst ab, snd ab, eval f sids (fst ab) (snd ab) st)) reqs) in *.
      set (storable := filter (fun x : extent => stor (fst (fst x)) (snd (fst x))) rr) in *.
      rewrite answer_first in E.
      assert (Emap : map snd rr = map (fun ab => eval f sids (fst ab) (snd ab) st) reqs)
        by (unfold rr; rewrite map_map; reflexivity).
      rewrite Emap in E.
      assert (Resp : resp = eval f sids rs re st).
      { destruct (sort_by ext_lt (exts ++ storable)); inversion E; subst; exact HR. }
      split; [exact Resp|]. intros -> e' K.
      destruct Hm as [[_ ->]|[Hbad _]]; [|lia].
      destruct (sort_by_spec ext_lt ext_lt_asym ext_le_trans (exts ++ storable)) as [Ss Sm].
      subst wb.
      destruct (sort_by ext_lt (exts ++ storable)) as [|e0 es] eqn:Es; inversion E as [[E1 E2]]; subst e'.
      assert (Fall : Forall (ext_ok f sids st) (e0 :: es)).
      { rewrite Forall_forall. intros x Hx. apply Sm in Hx. apply in_app_or in Hx as [Hx|Hx].
        - rewrite Forall_forall in F. apply F. exact Hx.
        - unfold storable in Hx. apply filter_In in Hx as [Hx _].
          unfold rr in Hx. apply in_map_iff in Hx as (ab & <- & Hab). rewrite Forall_forall in Frq.
          destruct (Frq ab Hab) as (A & B & C & D). unfold ext_ok. repeat split; auto. lia. }
      inversion Fall as [|? ? H0 Frest]; subst. inversion Ss as [|? ? S2 S1]; subst. rewrite Forall_forall in S1.
      apply merge_exts_ok; auto. intros y Hy. apply ext_lt_false_start. apply S1. exact Hy.
  Qed.
End Hit.

Lemma ckey_eqb_eq a b : ckey_eqb a b = true <-> a = b.
Proof. exact (pair_eqb_spec Z.eqb Z.eqb Z.eqb_eq Z.eqb_eq a b). Qed.

Lemma lookup_store_same k v c : lookup k (store k v c) = Some v.
Proof.
  assert (R : ckey_eqb k k = true) by (apply ckey_eqb_eq; reflexivity).
  induction c as [|[k' v'] c IH]; cbn; [rewrite R; reflexivity|].
  destruct (ckey_eqb k k') eqn:E; cbn; [rewrite R; reflexivity|].
  destruct (ckey_lt k k'); cbn; [rewrite R; reflexivity | rewrite E; exact IH].
Qed.

Lemma lookup_store_other k k' v c : ckey_eqb k' k = false -> lookup k' (store k v c) = lookup k' c.
Proof.
  intro N. induction c as [|[k0 v0] c IH]; cbn; [rewrite N; reflexivity|].
  destruct (ckey_eqb k k0) eqn:E; cbn.
  - apply ckey_eqb_eq in E. subst k0. rewrite N. reflexivity.
  - destruct (ckey_lt k k0); cbn; [rewrite N; reflexivity|]. destruct (ckey_eqb k' k0); [reflexivity | exact IH].
Qed.

Lemma first_found_in ks c exts : first_found ks c = Some exts -> exists k, In k ks /\ lookup k c = Some exts.
Proof.
  induction ks as [|k ks IH]; cbn; [discriminate|]. destruct (lookup k c) eqn:E.
  - intro H. inversion H; subst. exists k. auto.
  - intro H. destruct (IH H) as (k' & A & B). exists k'. auto.
Qed.

Section History.
  Variable f : downstream.
  Variable sids : list Z.
  Hypothesis Hsids : incr sids.
  Variable sto : Z -> Z -> Z -> bool.   (* which fetched responses may be stored: arbitrary *)

  Definition cache_ok (c : cache) : Prop :=
    forall k exts, lookup k c = Some exts -> 0 < fst k /\ Forall (ext_ok f sids (fst k)) exts.

  Lemma cache_ok_store k v c : cache_ok c -> 0 < fst k -> Forall (ext_ok f sids (fst k)) v -> cache_ok (store k v c).
  Proof.
    intros H Hk Hv k' exts L. destruct (ckey_eqb k' k) eqn:E.
    - apply ckey_eqb_eq in E. subst k'. rewrite lookup_store_same in L. inversion L; subst. auto.
    - rewrite lookup_store_other in L by exact E. apply H. exact L.
  Qed.

  Lemma do_cache_spec split c rs re st resp c' :
    0 < st -> (st | rs) -> (st | re) -> 0 <= rs -> rs <= re -> cache_ok c ->
    do_cache f sids sto split c rs re st = (resp, c') ->
    resp = eval f sids rs re st /\ cache_ok c'.
  Proof.
    intros Hst Hrs Hre Hrs0 Hle Hc E. unfold do_cache in E.
    set (w := Z.quot rs split) in *.
    destruct (lookup (st, w) c) as [exts|] eqn:L.
    - destruct (Hc _ _ L) as [_ Fe]. cbn [fst] in Fe.
      destruct (handle_hit f sids (sto re) rs re st exts false) as [r wb] eqn:HH.
      inversion E; subst. clear E.
      destruct (handle_hit_spec f sids Hsids (sto re) st st rs re exts false resp wb Hst Hst (or_introl (conj eq_refl eq_refl)) Hrs Hre Hrs0 Hle Fe HH) as [A B].
      split; [exact A|]. destruct wb as [e'|]; [|exact Hc].
      apply cache_ok_store; [exact Hc | exact Hst | apply B; reflexivity].
    - destruct (first_found (map (fun a => (a, w)) (alt_steps rs st)) c) as [exts|] eqn:FF.
      + destruct (handle_hit f sids (sto re) rs re st exts true) as [r wb] eqn:HH. cbn [fst] in E.
        inversion E; subst. clear E. split; [|exact Hc].
        apply first_found_in in FF as (k & Hk & Lk).
        apply in_map_iff in Hk as (a & <- & Ha).
        destruct (Hc _ _ Lk) as [Ha0 Fe]. cbn [fst] in *.
        unfold alt_steps in Ha. destruct (existsb (Z.eqb st) common_query_steps); [|contradiction].
        apply filter_In in Ha as [_ Ha]. apply andb_true_iff in Ha as [Ha Ha3]. apply andb_true_iff in Ha as [Ha1 Ha2].
        assert (Hdiv : (a | st)) by (apply Z.rem_divide; lia).
        destruct (handle_hit_spec f sids Hsids (sto re) st a rs re exts true resp wb Hst Ha0 (or_intror (conj eq_refl Hdiv)) Hrs Hre Hrs0 Hle Fe HH) as [A _].
        exact A.
      + inversion E; subst. clear E. split; [reflexivity|].
        destruct (sto re rs re); [|exact Hc].
        apply cache_ok_store; [exact Hc | exact Hst|]. constructor; [|constructor].
        unfold ext_ok. cbn [fst]. repeat split; auto.
  Qed.

  Definition sub_ok (st : Z) (ab : Z * Z) : Prop :=
    (st | fst ab) /\ (st | snd ab) /\ 0 <= fst ab /\ fst ab <= snd ab.

  Lemma do_subs_spec split st : 0 < st -> forall subs c rs c',
    Forall (sub_ok st) subs -> cache_ok c ->
    do_subs f sids sto split c subs st = (rs, c') ->
    rs = map (fun ab => eval f sids (fst ab) (snd ab) st) subs /\ cache_ok c'.
  Proof.
    intros Hst. induction subs as [|[a b] subs IH]; intros c rs c' F Hc E.
    - cbn in E. inversion E; subst. auto.
    - inversion F as [|? ? Hab F']; subst. cbn [do_subs] in E.
      destruct (do_cache f sids sto split c a b st) as [r c1] eqn:D.
      destruct (do_subs f sids sto split c1 subs st) as [rs1 c2] eqn:D2.
      inversion E; subst. clear E.
      destruct Hab as (A1 & A2 & A3 & A4). cbn [fst snd] in *.
      destruct (do_cache_spec split c a b st r c1 Hst A1 A2 A3 A4 Hc D) as [-> Hc1].
      destruct (IH c1 rs1 c' F' Hc1 D2) as [-> Hc2]. auto.
  Qed.

  Lemma split_loop_subs_ok step interval end_ : 0 < step -> 0 < Z.quot interval ns_per_ms -> (step | end_) ->
    forall fuel start l, (step | start) -> 0 <= start ->
    split_loop fuel start end_ step interval = Some l -> Forall (sub_ok step) l.
  Proof.
    intros Hst Hms Hend. induction fuel as [|fu IH]; intros start l Gs Ns E; [discriminate|].
    cbn [split_loop] in E. destruct (start <? end_) eqn:Q; [|inversion E; constructor].
    destruct (nib_spec start step interval Hst Hms) as ((Hle & _) & _ & Hdiv).
    set (e := nextIntervalBoundary start step interval) in *.
    destruct (split_loop fu (e + step) end_ step interval) as [r|] eqn:R; [|discriminate].
    inversion E; subst. clear E.
    assert (Ge : (step | e)).
    { replace e with ((e - start) + start) by lia. apply Z.divide_add_r; assumption. }
    constructor.
    - unfold sub_ok. cbn [fst snd]. destruct (e + step >=? end_) eqn:G; repeat split; auto; lia.
    - apply (IH (e + step) r); [apply Z.divide_add_r; [exact Ge | apply Z.divide_refl] | lia | exact R].
  Qed.

  Lemma step_align_grid s0 e0 st : 0 < st -> 0 <= s0 -> s0 <= e0 ->
    let s := Z.quot s0 st * st in let e := Z.quot e0 st * st in
    (st | s) /\ (st | e) /\ 0 <= s /\ s <= e.
  Proof.
    intros Hst Hs0 Hse. cbv zeta.
    split; [exists (Z.quot s0 st); reflexivity|]. split; [exists (Z.quot e0 st); reflexivity|].
    split; [apply Z.mul_nonneg_nonneg; [apply Z.quot_pos|]; lia|].
    apply Z.mul_le_mono_nonneg_r; [lia | apply Z.quot_le_mono; lia].
  Qed.

  Lemma do_query_spec split use_split c s0 e0 st r c' :
    0 < split -> 0 < st -> 0 <= s0 -> s0 <= e0 -> cache_ok c ->
    do_query f sids sto split use_split c (s0, e0, st) = Some (r, c') ->
    r = direct f sids (s0, e0, st) /\ cache_ok c'.
  Proof.
    intros Hsp Hst Hs0 Hse Hc E. unfold do_query, direct in *. unfold step_align in *.
    destruct (step_align_grid s0 e0 st Hst Hs0 Hse) as (Gs & Ge & Ns & Hle).
    set (s := Z.quot s0 st * st) in *. set (e := Z.quot e0 st * st) in *.
    destruct use_split.
    - assert (Hms : 0 < Z.quot (split * ns_per_ms) ns_per_ms)
        by (unfold ns_per_ms; rewrite Z.quot_mul by lia; lia).
      destruct (split_query_correct s e st _ Hst Hms Hle) as (l & Hl & Hcat & _).
      rewrite Hl in E.
      destruct (do_subs f sids sto split c l st) as [rs cc] eqn:D.
      inversion E; subst. clear E.
      assert (Fsub : Forall (sub_ok st) l).
      { unfold split_query in Hl. destruct (s =? e) eqn:Q.
        - inversion Hl; subst. constructor; [|constructor]. unfold sub_ok. cbn. repeat split; auto; lia.
        - exact (split_loop_subs_ok st (split * ns_per_ms) e Hst Hms Ge _ s l Gs Ns Hl). }
      destruct (do_subs_spec split st Hst l c rs c' Fsub Hc D) as [-> Hc']. split; [|exact Hc'].
      replace (map (fun ab => eval f sids (fst ab) (snd ab) st) l)
        with (map (eval_on f sids) (map (fun p => steps (fst p) (snd p) st) l)) by (rewrite map_map; reflexivity).
      rewrite eval_eval_on.
      apply (merge_pieces_exact f sids Hsids st); [exact Hst | | apply steps_incr; exact Hst |].
      + rewrite Forall_forall in *. intros ts Hts. apply in_map_iff in Hts as (ab & <- & Hab).
        destruct (Fsub ab Hab) as (A & B & C & D'). exists (fst ab), (snd ab). split; [exact C|].
        apply steps_is_iv; assumption.
      + intro t. rewrite <- Hcat. rewrite in_concat. split; intros (x & A & B); exists x; auto.
    - destruct (do_cache f sids sto split c s e st) as [r1 c1] eqn:D. inversion E; subst. clear E.
      eapply do_cache_spec; eauto.
  Qed.

  Definition query_ok (q : Z * Z * Z) : Prop := let '(s, e, st) := q in 0 < st /\ 0 <= s /\ s <= e.

  Lemma do_query_total split use_split c s0 e0 st :
    0 < split -> 0 < st -> 0 <= s0 -> s0 <= e0 ->
    do_query f sids sto split use_split c (s0, e0, st) <> None.
  Proof.
    intros Hsp Hst Hs0 Hse. unfold do_query, step_align.
    destruct (step_align_grid s0 e0 st Hst Hs0 Hse) as (_ & _ & _ & Hle).
    set (s := Z.quot s0 st * st) in *. set (e := Z.quot e0 st * st) in *.
    destruct use_split; [|destruct (do_cache f sids sto split c s e st); discriminate].
    assert (Hms : 0 < Z.quot (split * ns_per_ms) ns_per_ms)
      by (unfold ns_per_ms; rewrite Z.quot_mul by lia; lia).
    destruct (split_query_correct s e st _ Hst Hms Hle) as (l & Hl & _). rewrite Hl.
    destruct (do_subs f sids sto split c l st). discriminate.
  Qed.

  Theorem history_exact split use_split : 0 < split -> forall qs c,
    Forall query_ok qs -> cache_ok c ->
    exists rs c', history f sids sto split use_split c qs = Some (rs, c')
      /\ rs = map (direct f sids) qs /\ cache_ok c'.
  Proof.
    intros Hsp. induction qs as [|[[s0 e0] st] qs IH]; intros c F Hc.
    - exists [], c. cbn. auto.
    - inversion F as [|? ? Hq F']; subst. cbn in Hq. destruct Hq as (Hst & Hs0 & Hse). cbn [history].
      destruct (do_query f sids sto split use_split c (s0, e0, st)) as [[r c1]|] eqn:D;
        [|exfalso; exact (do_query_total split use_split c s0 e0 st Hsp Hst Hs0 Hse D)].
      destruct (do_query_spec split use_split c s0 e0 st r c1 Hsp Hst Hs0 Hse Hc D) as [-> Hc1].
      destruct (IH c1 F' Hc1) as (rs & c' & E & -> & Hc'). rewrite E.
      exists (direct f sids (s0, e0, st) :: map (direct f sids) qs), c'. auto.
  Qed.

  Lemma cache_ok_empty : cache_ok [].
  Proof. intros k exts L. cbn in L. discriminate. Qed.
End History.

Lemma matrix_eqb_refl m : matrix_eqb m m = true.
Proof.
  apply list_eqb_refl. intros [s l]. cbn. rewrite Z.eqb_refl. cbn.
  apply list_eqb_refl. intros [t v]. unfold zz_eqb'. cbn. rewrite !Z.eqb_refl. reflexivity.
Qed.

Theorem history_pred d ns atm split use_split qs :
  incr (map fst d) -> 0 < split -> Forall query_ok qs ->
  exists rs c, history (f_of d) (map fst d) (sto_of ns atm) split use_split [] qs = Some (rs, c)
    /\ pred_ok (CHist split use_split d ns atm qs rs c) = true.
Proof.
  intros Hs Hsp F.
  destruct (history_exact (f_of d) (map fst d) Hs (sto_of ns atm) split use_split Hsp qs [] F (cache_ok_empty _ _)) as (rs & c & E & -> & _).
  exists (map (direct (f_of d) (map fst d)) qs), c. split; [exact E|].
  cbn [pred_ok]. apply list_eqb_refl. apply matrix_eqb_refl.
Qed.

(* Series [s] of the code, given as (s, presence of float samples, presence of native-histogram
   samples), is the pair of model series 2s (floats) and 2s+1 (histograms): a model stream holds
   one kind of samples. *)
Definition paired_kinds (l : list (Z * list (Z * Z) * list (Z * Z))) : list series_desc :=
  flat_map (fun x => [(2 * fst (fst x), snd (fst x)); (2 * fst (fst x) + 1, snd x)]) l.

Opaque Z.mul.
Lemma paired_kinds_incr l : incr (map (fun x => fst (fst x)) l) -> incr (map fst (paired_kinds l)).
Proof.
  unfold paired_kinds.
  induction l as [|[[s a] b] l IH]; intro H; [exact I|]. cbn in H. destruct H as [H1 H2].
  cbn [flat_map app map fst snd incr]. specialize (IH H2).
  assert (K : forall y, In y (map fst (paired_kinds l)) -> 2 * s + 1 < y).
  { intros y Hy. apply in_map_iff in Hy as ([y' iv] & <- & Hy). apply in_flat_map in Hy as ([[s' a'] b'] & Hs' & Hy).
    assert (s < s') by (apply H1; apply in_map_iff; exists (s', a', b'); auto).
    cbn [In fst snd] in Hy. destruct Hy as [E|[E|[]]]; inversion E; subst; cbn [fst]; lia. }
  split; [|split; [exact K | exact IH]].
  intros y [<-|Hy]; [lia | specialize (K y Hy); lia].
Qed.
Transparent Z.mul.

(* The history theorem for such paired descriptions. One slicing function of the model stands for
   SliceSamples and SliceHistogram because both cut with `> minTs`: the first conjunct is that
   fact, read from the source. *)
Theorem history_kinds l ns atm split use_split qs :
  incr (map (fun x => fst (fst x)) l) -> 0 < split -> Forall query_ok qs ->
  slice_keeps_equal = false /\
  exists rs c,
    history (f_of (paired_kinds l)) (map fst (paired_kinds l)) (sto_of ns atm) split use_split [] qs = Some (rs, c)
    /\ pred_ok (CHist split use_split (paired_kinds l) ns atm qs rs c) = true.
Proof.
  intros H Hsp F. split; [apply slice_strict|]. apply history_pred; auto. apply paired_kinds_incr. exact H.
Qed.

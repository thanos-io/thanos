(* C07 — every label name and value that a Series response shows is in the LabelNames /
   LabelValues answer: for one TSDB store through [series_label_cases] (where a label of a
   presented series comes from: external labels, else stored, never a dropped one), for the
   proxy and the bucket store by reduction to it; and the answers depend on the current
   external labels only. What a store presents: Proofs/C08_Labels.v ([present_spec]). *)
From Coq Require Import ZArith NArith List Bool Lia.
Import ListNotations.
From Verif Require Import Lib.Corr Lib.ListFacts Lib.Proxy_Order Model.C05 Model.C08 Proofs.C08_Labels Gen.C07 Model.C07.
Open Scope Z_scope.

Lemma in_sinsert x y l : In x (sinsert y l) <-> x = y \/ In x l.
Proof.
  induction l as [|z r IH]; cbn [sinsert]; [cbn; intuition congruence|].
  destruct (str_cmp y z); cbn [In]; try rewrite IH; intuition congruence.
Qed.
Lemma in_ssort x l : In x (ssort l) <-> In x l.
Proof.
  induction l as [|y r IH]; cbn; [tauto|]. fold (ssort r). rewrite in_sinsert, IH. intuition congruence.
Qed.
Lemma in_sdedup x l : In x (sdedup l) <-> In x l.
Proof.
  induction l as [|y r IH]; [tauto|]. cbn [sdedup]. destruct r as [|z r'].
  - tauto.
  - destruct (str_eqb y z) eqn:E.
    + apply str_eqb_eq in E. subst z. rewrite IH. cbn [In]. tauto.
    + cbn [In] in *. rewrite IH. tauto.
Qed.
Lemma in_sset x l : In x (sset l) <-> In x l.
Proof. unfold sset. rewrite in_sdedup, in_ssort. tauto. Qed.

Lemma in_merge2 x : forall a b, In x (merge2 a b) <-> In x a \/ In x b.
Proof.
  induction a as [|y a IHa]; intros b.
  - destruct b; cbn; tauto.
  - induction b as [|z b IHb].
    + cbn. tauto.
    + cbn [merge2]. destruct (str_cmp y z) eqn:E.
      * apply (cmp_eq _ str_ord) in E. subst z. cbn [In]. rewrite IHa. cbn [In]. tauto.
      * cbn [In]. rewrite IHa. cbn [In]. tauto.
      * cbn [In]. cbn [merge2] in IHb. rewrite IHb. cbn [In]. tauto.
Qed.

Lemma in_fold_merge2 x : forall r acc, In x (fold_left merge2 r acc) <-> In x acc \/ exists l, In l r /\ In x l.
Proof.
  induction r as [|l r IH]; intros acc; cbn [fold_left].
  - split; [tauto|]. intros [H|[l [[] _]]]. exact H.
  - rewrite IH, in_merge2. split.
    + intros [[H|H]|[l' [H1 H2]]]; [left; exact H | right; exists l; split; [left; reflexivity|exact H] | right; exists l'; split; [right; exact H1|exact H2]].
    + intros [H|[l' [[->|H1] H2]]]; [left; left; exact H | left; right; exact H2 | right; exists l'; tauto].
Qed.

Lemma in_merge_slices x ls : In x (merge_slices ls) <-> exists l, In l ls /\ In x l.
Proof.
  destruct ls as [|a [|b [|c [|d r]]]]; cbn [merge_slices].
  - split; [intros [] | intros [l [[] _]]].
  - split; [intros H; exists a; split; [left; reflexivity|exact H] | intros [l [[<-|[]] H]]; exact H].
  - rewrite in_merge2. split.
    + intros [H|H]; [exists a | exists b]; cbn; intuition.
    + intros [l [[<-|[<-|[]]] H]]; tauto.
  - rewrite !in_merge2. split.
    + intros [H|[H|H]]; [exists a | exists b | exists c]; cbn; intuition.
    + intros [l [[<-|[<-|[<-|[]]]] H]]; tauto.
  - rewrite in_fold_merge2, in_merge2. split.
    + intros [[H|H]|[l [H1 H2]]]; [exists a; cbn; intuition | exists b; cbn; intuition | exists l; cbn [In] in *; intuition].
    + intros [l [[<-|[<-|H1]] H2]]; [tauto | tauto | right; exists l; tauto].
Qed.

Lemma in_linsert x y l : In x (linsert y l) -> x = y \/ In x l.
Proof.
  induction l as [|z r IH]; cbn [linsert]; [cbn; intuition congruence|].
  destruct (lbl_cmp y z); cbn [In]; intros H.
  - tauto.
  - intuition congruence.
  - destruct H as [H|H]; [tauto|]. destruct (IH H); tauto.
Qed.
Lemma in_lsort_set x l : In x (lsort_set l) -> In x l.
Proof.
  induction l as [|y r IH]; cbn; [tauto|]. fold (lsort_set r). intros H. apply in_linsert in H as [H|H]; [left; congruence | right; apply IH; exact H].
Qed.

Lemma series_label_cases ext drop ms stored ls l n v :
  valid_ext ext ->
  tsdb_series_labels ext drop ms stored = Some ls -> In l ls -> lfind l n = Some v ->
  exists kept sl, matches_external_labels mname mmatch ms ext = Some kept /\ kept <> []
    /\ In sl (sel_stored kept stored) /\ in_drop drop n = false
    /\ (lfind ext n = Some v \/ (lfind ext n = None /\ lfind sl n = Some v)).
Proof.
  intros Hv Hs Hl Hf. unfold tsdb_series_labels in Hs.
  destruct (matches_external_labels mname mmatch ms ext) as [kept|] eqn:E.
  - destruct kept as [|k0 kr] eqn:Ek; [discriminate|]. inversion Hs; subst ls. clear Hs.
    apply in_map_iff in Hl as [sl [El Hsl]]. subst l. exists (k0 :: kr), sl.
    split; [reflexivity|]. split; [discriminate|]. split; [exact Hsl|].
    rewrite present_spec in Hf by exact Hv. destruct (in_drop drop n); [discriminate|]. split; [reflexivity|].
    destruct (lfind ext n) as [v'|]; [left; exact Hf | right; split; [reflexivity|exact Hf]].
  - inversion Hs; subst ls. destruct Hl.
Qed.

(* stored series have at least one label (a TSDB series always has) *)
Definition stored_ok (stored : list labels) : Prop := forall sl, In sl stored -> sl <> [].

Theorem names_cover_store ext drop ms stored ls l n v :
  valid_ext ext -> stored_ok stored ->
  tsdb_series_labels ext drop ms stored = Some ls -> In l ls -> lfind l n = Some v ->
  In n (tsdb_label_names ext drop ms stored).
Proof.
  intros Hv Hok Hs Hl Hf.
  destruct (series_label_cases _ _ _ _ _ _ _ _ Hv Hs Hl Hf) as (kept & sl & Ek & Hne & Hsl & Hd & Hc).
  unfold tsdb_label_names. rewrite Ek.
  set (res := sset (concat (map (map fst) (sel_stored kept stored)))).
  assert (Hres : forall x, In x (map fst sl) -> In x res).
  { intros x Hx. unfold res. apply in_sset. apply in_concat. exists (map fst sl). split; [|exact Hx].
    apply in_map. exact Hsl. }
  assert (Hsl_ne : sl <> []) by (apply Hok; unfold sel_stored in Hsl; apply filter_In in Hsl; tauto).
  destruct res as [|r0 rr] eqn:Er.
  - exfalso. destruct sl as [|[k w] sr]; [apply Hsl_ne; reflexivity|]. apply (Hres k). left. reflexivity.
  - apply in_ssort. apply in_or_app. destruct Hc as [Hc|[_ Hc]].
    + right. apply lfind_some_in in Hc. apply in_map_iff. exists (n, v). split; [reflexivity|].
      apply filter_In. split; [exact Hc|]. cbn [fst]. rewrite in_drop_flip, Hd. reflexivity.
    + left. apply Hres. apply lfind_some_in in Hc. apply in_map_iff. exists (n, v). split; [reflexivity|exact Hc].
Qed.

Theorem values_cover_store ext drop ms label stored ls l v :
  valid_ext ext ->
  tsdb_series_labels ext drop ms stored = Some ls -> In l ls -> lfind l label = Some v ->
  In v (tsdb_label_values ext drop ms label stored).
Proof.
  intros Hv Hs Hl Hf.
  destruct (series_label_cases _ _ _ _ _ _ _ _ Hv Hs Hl Hf) as (kept & sl & Ek & Hne & Hsl & Hd & Hc).
  unfold tsdb_label_values. rewrite in_drop_flip, Hd, Ek. unfold lget.
  destruct Hc as [Hc|[Hn Hc]].
  - rewrite Hc. destruct Hv as [_ Hnev]. pose proof (Hnev _ (lfind_some_in _ _ _ Hc)) as Hne'. cbn [snd] in Hne'.
    rewrite Hne'. cbn [negb]. destruct kept as [|k0 kr]; [left; reflexivity|].
    destruct (sel_stored (k0 :: kr) stored); [contradiction | left; reflexivity].
  - rewrite Hn. cbn [is_empty_str negb]. apply in_sset. apply in_concat.
    exists [v]. split; [|left; reflexivity]. apply in_map_iff. exists sl. rewrite Hc. split; [reflexivity|exact Hsl].
Qed.

Lemma proxy_series_from_store exts drop ms stored ls l :
  proxy_series_labels exts drop ms stored = Some ls -> In l ls ->
  exists e ls', In e (queried ms exts) /\ tsdb_series_labels e drop ms stored = Some ls' /\ In l ls'.
Proof.
  unfold proxy_series_labels. destruct ms as [|m0 mr]; [discriminate|]. set (ms := m0 :: mr).
  intros [= <-] Hl. apply in_lsort_set, in_concat in Hl as [x [Hx Hl]].
  apply in_map_iff in Hx as [e [<- He]]. exists e.
  destruct (tsdb_series_labels e drop ms stored) as [ls'|]; [|contradiction]. now exists ls'.
Qed.

Theorem names_cover_proxy exts drop ms stored ls l n v :
  (forall e, In e exts -> valid_ext e) -> stored_ok stored ->
  proxy_series_labels exts drop ms stored = Some ls -> In l ls -> lfind l n = Some v ->
  In n (proxy_label_names exts drop ms stored).
Proof.
  intros Hv Hok Hs Hl Hf. destruct (proxy_series_from_store _ _ _ _ _ _ Hs Hl) as (e & ls' & He & Hs' & Hl').
  unfold proxy_label_names. apply in_merge_slices. exists (tsdb_label_names e drop ms stored).
  split; [apply (in_map (fun e0 => tsdb_label_names e0 drop ms stored)); exact He|]. eapply names_cover_store; eauto. exact (Hv _ (proj1 (proj1 (filter_In _ _ _) He))).
Qed.

Theorem values_cover_proxy exts drop ms label stored ls l v :
  (forall e, In e exts -> valid_ext e) ->
  proxy_series_labels exts drop ms stored = Some ls -> In l ls -> lfind l label = Some v ->
  In v (proxy_label_values exts drop ms label stored).
Proof.
  intros Hv Hs Hl Hf. destruct (proxy_series_from_store _ _ _ _ _ _ Hs Hl) as (e & ls' & He & Hs' & Hl').
  unfold proxy_label_values. apply in_merge_slices. exists (tsdb_label_values e drop ms label stored).
  split; [apply (in_map (fun e0 => tsdb_label_values e0 drop ms label stored)); exact He|]. eapply values_cover_store; eauto. exact (Hv _ (proj1 (proj1 (filter_In _ _ _) He))).
Qed.

(* stored labels have non-empty values (a TSDB invariant) *)
Definition stored_vals_ok (stored : list labels) : Prop :=
  forall sl n v, In sl stored -> lfind sl n = Some v -> is_empty_str v = false.

Lemma bucket_label_cases blocks drop ms l n v :
  (forall b, In b blocks -> valid_ext (fst b)) ->
  In l (bucket_series_labels blocks drop ms) -> lfind l n = Some v ->
  exists ext stored kept sl, In (ext, stored) blocks /\ ext_loop mname mmatch ms ext = Some kept /\ kept <> []
    /\ In sl stored /\ selected kept sl = true /\ l = present_bucket ext drop sl /\ in_drop drop n = false
    /\ (lfind ext n = Some v \/ (lfind ext n = None /\ lfind sl n = Some v)).
Proof.
  intros Hv H Hf. unfold bucket_series_labels in H. apply in_concat in H as [x [Hx Hl]].
  apply in_map_iff in Hx as [[ext stored] [E Hb]]. subst x. unfold block_series_labels in Hl. cbn [fst snd] in Hl.
  destruct (ext_loop mname mmatch ms ext) as [kept|] eqn:Ek; [|destruct Hl].
  destruct kept as [|k0 kr] eqn:Ekk; [destruct Hl|]. rewrite <- Ekk in *.
  assert (Hne : kept <> []) by (rewrite Ekk; discriminate).
  apply in_map_iff in Hl as [sl [El Hs]]. apply filter_In in Hs as [Hs Hsel].
  exists ext, stored, kept, sl. split; [exact Hb|]. split; [exact Ek|]. split; [exact Hne|]. split; [exact Hs|].
  split; [exact Hsel|]. split; [symmetry; exact El|].
  pose proof (Hv _ Hb) as Hve. cbn [fst] in Hve. subst l. rewrite present_bucket_spec in Hf by exact Hve.
  destruct (in_drop drop n); [discriminate|]. split; [reflexivity|].
  destruct (lfind ext n); [left; exact Hf | right; split; [reflexivity|exact Hf]].
Qed.

Theorem names_cover_bucket blocks drop ms l n v :
  (forall b, In b blocks -> valid_ext (fst b)) ->
  In l (bucket_series_labels blocks drop ms) -> lfind l n = Some v ->
  In n (bucket_label_names blocks drop ms).
Proof.
  intros Hv H Hf.
  destruct (bucket_label_cases _ _ _ _ _ _ Hv H Hf) as (ext & stored & kept & sl & Hb & Ek & Hne & Hs & Hsel & El & Hd & Hc).
  unfold bucket_label_names. apply in_merge_slices. exists (block_names drop ms (ext, stored)).
  split; [apply (in_map (block_names drop ms)); exact Hb|].
  unfold block_names. cbn [fst snd]. rewrite Ek. destruct kept as [|k0 kr]; [exfalso; apply Hne; reflexivity|].
  apply in_sset. apply in_concat. exists (map fst l). split.
  - apply in_map_iff. exists sl. split; [rewrite El; reflexivity|]. apply filter_In. split; [exact Hs | exact Hsel].
  - apply lfind_some_in in Hf. apply in_map_iff. exists (n, v). split; [reflexivity | exact Hf].
Qed.

Theorem values_cover_bucket hne blocks drop ms label l v :
  (forall b, In b blocks -> valid_ext (fst b)) ->
  (forall b, In b blocks -> stored_vals_ok (snd b)) ->
  In l (bucket_series_labels blocks drop ms) -> lfind l label = Some v ->
  In v (bucket_label_values hne blocks drop ms label).
Proof.
  intros Hv Hsv H Hf.
  destruct (bucket_label_cases _ _ _ _ _ _ Hv H Hf) as (ext & stored & kept & sl & Hb & Ek & Hne & Hs & Hsel & El & Hd & Hc).
  pose proof (Hv _ Hb) as Hve. cbn [fst] in Hve.
  unfold bucket_label_values. rewrite in_drop_flip, Hd. apply in_merge_slices.
  exists (block_values hne ms label (ext, stored)). split; [apply (in_map (block_values hne ms label)); exact Hb|].
  unfold block_values. cbn [fst snd]. rewrite Ek. destruct kept as [|k0 kr] eqn:Ekk; [exfalso; apply Hne; reflexivity|]. rewrite <- Ekk in *.
  (* the value the block shows for this series under [label]: the external one, else the stored one *)
  assert (Hval : lget (extend sl ext) label = v /\ is_empty_str v = false
                 /\ (lhas ext label = false -> is_empty_str (lget sl label) = false)).
  { unfold lget, lhas. rewrite lfind_extend by exact Hve. destruct Hc as [Hc|[Hn Hc]].
    - rewrite Hc. split; [reflexivity|]. split; [|discriminate].
      destruct Hve as [_ Hnev]. exact (Hnev _ (lfind_some_in _ _ _ Hc)).
    - rewrite Hn, Hc. split; [reflexivity|]. pose proof (Hsv _ Hb sl label v Hs Hc) as E. split; [exact E | intros _; exact E]. }
  destruct Hval as (V1 & V2 & V3).
  apply in_sset. apply in_concat. exists [v]. split; [|left; reflexivity].
  apply in_map_iff. exists sl. split; [rewrite V1, V2; reflexivity|].
  apply filter_In. split; [exact Hs|]. rewrite Hsel. cbn [andb].
  destruct (negb hne && negb (lhas ext label)) eqn:Ex; [|reflexivity]. cbn [negb orb].
  apply andb_true_iff in Ex as [_ Ex]. apply negb_true_iff in Ex. rewrite (V3 Ex). reflexivity.
Qed.

(* the proxy in front of a bucket store: when it returns series, the store was queried *)
Lemma bucket_proxy_queried blocks drop ms hne label ls l :
  o_series (model_bucket_proxy blocks drop ms hne label) = Some ls -> In l ls ->
  In l (bucket_series_labels blocks drop ms)
  /\ model_bucket_proxy blocks drop ms hne label
     = MkObs (Some ls) (bucket_label_names blocks drop ms) (bucket_label_values hne blocks drop ms label).
Proof.
  unfold model_bucket_proxy. destruct (bucket_queried blocks ms), ms; cbn [o_series]; try discriminate.
  - intros [= <-] Hl. split; [exact (in_lsort_set _ _ Hl) | reflexivity].
  - intros [= <-] [].
Qed.

Theorem names_cover_bucket_proxy blocks drop ms hne label ls l n v :
  (forall b, In b blocks -> valid_ext (fst b)) ->
  o_series (model_bucket_proxy blocks drop ms hne label) = Some ls -> In l ls -> lfind l n = Some v ->
  In n (o_names (model_bucket_proxy blocks drop ms hne label)).
Proof.
  intros Hv Hs Hl Hf. destruct (bucket_proxy_queried _ _ _ _ _ _ _ Hs Hl) as [Hl' ->].
  exact (names_cover_bucket _ _ _ _ _ _ Hv Hl' Hf).
Qed.

Theorem values_cover_bucket_proxy blocks drop ms hne label ls l v :
  (forall b, In b blocks -> valid_ext (fst b)) ->
  (forall b, In b blocks -> stored_vals_ok (snd b)) ->
  o_series (model_bucket_proxy blocks drop ms hne label) = Some ls -> In l ls -> lfind l label = Some v ->
  In v (o_values (model_bucket_proxy blocks drop ms hne label)).
Proof.
  intros Hv Hsv Hs Hl Hf. destruct (bucket_proxy_queried _ _ _ _ _ _ _ Hs Hl) as [Hl' ->].
  exact (values_cover_bucket _ _ _ _ _ _ _ Hv Hsv Hl' Hf).
Qed.

(* the responses are functions of the CURRENT external labels, whatever the store announced before *)
Lemma reads_current : labelnames_reads_current_ext = true /\ labelvalues_reads_current_ext = true.
Proof. split; reflexivity. Qed.

Lemma model_store_h_current stored drop ms label (h : labels * labels) :
  model_store_h stored drop ms label h = model_store stored drop ms label (snd h).
Proof.
  unfold model_store_h, model_store, ext_for_names, ext_for_values. destruct reads_current as [-> ->]. reflexivity.
Qed.

Lemma queried_h_current ms (hs : list (labels * labels)) : map snd (queried_h ms hs) = queried ms (map snd hs).
Proof.
  unfold queried_h, queried. symmetry. apply (filter_map_comm (fun e => label_sets_match mname mmatch ms [e])).
Qed.

Lemma model_proxy_h_current stored (hs : list (labels * labels)) drop ms label :
  model_proxy_h stored hs drop ms label = model_proxy stored (map snd hs) drop ms label.
Proof.
  unfold model_proxy_h, model_proxy, proxy_label_names, proxy_label_values, ext_for_names, ext_for_values.
  destruct reads_current as [-> ->]. rewrite <- queried_h_current, !map_map. reflexivity.
Qed.

Theorem history_irrelevant stored drop ms label (inits exts : list labels) :
  length inits = length exts ->
  map (model_store_h stored drop ms label) (combine inits exts) = map (model_store stored drop ms label) exts
  /\ model_proxy_h stored (combine inits exts) drop ms label = model_proxy stored exts drop ms label.
Proof.
  intros Hl. assert (Hs : map snd (combine inits exts) = exts).
  { revert exts Hl. induction inits as [|i r IH]; intros [|e er] Hl; cbn in *; try reflexivity; try discriminate.
    f_equal. apply IH. lia. }
  split.
  - rewrite <- Hs at 2. rewrite map_map. apply map_ext. intros h. apply model_store_h_current.
  - rewrite model_proxy_h_current, Hs. reflexivity.
Qed.

(* C35 — no wedge: with the fixed overlap checker, a sync without fault and with
   external labels returns nil after any crash history, provided no two local
   blocks overlap in time (an overlap is the one legitimate reason to refuse a
   compacted block). *)
From Coq Require Import ZArith NArith List Bool Lia Arith.
Import ListNotations.
From Verif Require Import Lib.Corr Lib.Crash_Store Lib.Crash_Block Lib.Crash_BlockFacts Lib.Crash_BlockProgs.
From Verif Require Import Gen.C35 Model.C35 Proofs.C35.

Opaque upload_phases.

Definition rng (i : linfo) : Z * Z := (l_mint i, l_maxt i).

Definition ranges_of (L : locals) (ds : list N) : list (Z * Z) :=
  flat_map (fun d => match linfo_of L d with Some i => [rng i] | None => [] end) ds.

Definition ranges_disjoint (L : locals) : Prop :=
  forall d d' i i', d <> d' -> linfo_of L d = Some i -> linfo_of L d' = Some i' ->
    ranges_meet (rng i) (rng i') = false.

Lemma ranges_meet_sym a c : ranges_meet a c = ranges_meet c a.
Proof. unfold ranges_meet. apply andb_comm. Qed.

Lemma linfo_of_In L d i : linfo_of L d = Some i -> In (d, i) L.
Proof.
  induction L as [|[k v] r IH]; simpl; [discriminate|].
  destruct (N.eqb d k) eqn:E; [|intros H; right; apply IH; exact H].
  intros H. inversion H; subst. apply N.eqb_eq in E. subst. left; reflexivity.
Qed.

Lemma ranges_disjoint_b_spec L : ranges_disjoint_b L = true -> ranges_disjoint L.
Proof.
  induction L as [|[k v] r IH]; intros Hb d d' i i' Hne H1 H2; simpl in *; [discriminate|].
  apply andb_true_iff in Hb as [Hh Hr]. rewrite forallb_forall in Hh.
  destruct (N.eqb d k) eqn:E1, (N.eqb d' k) eqn:E2.
  - apply N.eqb_eq in E1, E2. congruence.
  - inversion H1; subst. apply linfo_of_In in H2. specialize (Hh _ H2). simpl in Hh.
    apply negb_true_iff in Hh. exact Hh.
  - inversion H2; subst. apply linfo_of_In in H1. specialize (Hh _ H1). simpl in Hh.
    apply negb_true_iff in Hh. rewrite ranges_meet_sym. exact Hh.
  - eapply IH; eauto.
Qed.

Lemma ranges_of_app L a c : ranges_of L (a ++ c) = ranges_of L a ++ ranges_of L c.
Proof. apply flat_map_app. Qed.

Lemma in_ranges_of L ds x : In x (ranges_of L ds) -> exists d i, In d ds /\ linfo_of L d = Some i /\ x = rng i.
Proof.
  unfold ranges_of. intros H. apply in_flat_map in H as [d [Hd Hx]].
  destruct (linfo_of L d) as [i|] eqn:E; [|contradiction]. destruct Hx as [Hx|[]].
  exists d, i. auto.
Qed.

Lemma overlaps_false L ds : ranges_disjoint L -> NoDup ds -> overlaps (ranges_of L ds) = false.
Proof.
  intros Hd. induction ds as [|d r IH]; intros Hnd; [reflexivity|].
  inversion Hnd as [|? ? Hni Hnd']; subst.
  change (ranges_of L (d :: r)) with ((match linfo_of L d with Some i => [rng i] | None => [] end) ++ ranges_of L r).
  destruct (linfo_of L d) as [i|] eqn:E; simpl; [|apply IH; exact Hnd'].
  rewrite (IH Hnd'), orb_false_r.
  destruct (existsb (ranges_meet (rng i)) (ranges_of L r)) eqn:Ex; [|reflexivity].
  apply existsb_exists in Ex as [x [Hx Hm]]. apply in_ranges_of in Hx as [d' [i' [Hd' [E' Hx]]]]. subst x.
  rewrite (Hd d d' i i') in Hm; [discriminate| |exact E|exact E']. intros Heq. subst. contradiction.
Qed.

Lemma dedupN_In l : forall x, In x (dedupN l) <-> In x l.
Proof.
  unfold dedupN. induction l as [|y r IH]; intros x; simpl; [tauto|].
  destruct (memN y (fold_right _ [] r)) eqn:E.
  - rewrite IH. apply memN_In in E. apply IH in E. split; [auto|]. intros [H|H]; [subst; exact E|exact H].
  - simpl. rewrite IH. tauto.
Qed.

Lemma dedupN_NoDup l : NoDup (dedupN l).
Proof.
  unfold dedupN. induction l as [|y r IH]; simpl; [constructor|].
  destruct (memN y (fold_right _ [] r)) eqn:E; [exact IH|].
  constructor; [|exact IH]. intros H. apply memN_In in H. congruence.
Qed.

Definition dirs_known (L : locals) (b : bucket) : Prop :=
  forall d f, bget b (d, f) <> None -> linfo_of L d <> None.

Lemma block_dirs_known L b d : dirs_known L b -> In d (block_dirs b) -> linfo_of L d <> None.
Proof.
  intros Hk Hin. unfold block_dirs in Hin. apply (proj1 (dedupN_In _ _)) in Hin.
  apply in_map_iff in Hin as [[[d' f] o] [E Hin]]. simpl in E. subst d'.
  apply (Hk d f). apply (in_map fst) in Hin. simpl in Hin.
  apply (keys_get key obj key_eqb key_ltb key_eqb_spec) in Hin as [v Hv]. unfold bget. congruence.
Qed.

Lemma get_apply_ops_cases (b : bucket) l k :
  bget (bapply_ops b l) k <> None -> bget b k <> None \/ exists o, In o l /\ op_key key obj o = k.
Proof.
  intros H. destruct (existsb (fun o => key_eqb k (op_key key obj o)) l) eqn:E.
  - right. apply existsb_exists in E as [o [Ho Hk]]. apply key_eqb_spec in Hk. exists o. auto.
  - left. unfold bget, bapply_ops in *. rewrite (get_apply_ops_other key obj key_eqb key_ltb key_eqb_spec) in H; [exact H|].
    intros o Ho Heq. assert (existsb (fun o => key_eqb k (op_key key obj o)) l = true); [|congruence].
    apply existsb_exists. exists o. split; [exact Ho|]. apply key_eqb_spec. exact Heq.
Qed.

Lemma dirs_known_apply L b l :
  dirs_known L b -> (forall o, In o l -> linfo_of L (fst (op_key key obj o)) <> None) ->
  dirs_known L (bapply_ops b l).
Proof.
  intros Hk Hl d f Hg. apply get_apply_ops_cases in Hg as [Hg|[o [Ho Hkey]]].
  - eapply Hk; eauto.
  - specialize (Hl o Ho). rewrite Hkey in Hl. exact Hl.
Qed.

Definition metas_parse (b : bucket) : Prop :=
  forall d o, bget b (d, FMeta) = Some o -> exists c f l, o = MetaO c f l.

Lemma binv_metas_parse U b : binv U b -> metas_parse b.
Proof.
  intros [_ Hco] d o H. destruct (Hco _ _ H) as [bl [cid [lbl [_ [Ho _]]]]]. subst. eauto.
Qed.

(* the block directories whose time range the checker keeps: those with a meta.json
   that carries the shipper's labels *)
Definition kept (b : bucket) (lbl : N) (d : N) : bool :=
  match bget b (d, FMeta) with Some (MetaO _ _ l) => N.eqb l lbl | _ => false end.

Lemma checker_gets_nofault L lbl b : forall dirs n acc,
  (forall d, In d dirs -> linfo_of L d <> None) -> metas_parse b ->
  exists n', checker_gets NoFault L (Some lbl) b n dirs acc
             = CkOk n' (acc ++ ranges_of L (filter (kept b lbl) dirs)).
Proof.
  induction dirs as [|d r IH]; intros n acc Hk Hp; simpl.
  - exists n. rewrite app_nil_r. reflexivity.
  - assert (Hkr : forall d', In d' r -> linfo_of L d' <> None) by (intros d' Hd'; apply Hk; right; exact Hd').
    destruct (linfo_of L d) as [i|] eqn:Hi; [|destruct (Hk d (or_introl eq_refl) Hi)].
    unfold kept at 1. destruct (bget b (d, FMeta)) as [o|] eqn:Hg; [|exact (IH (S n) acc Hkr Hp)].
    destruct (Hp d o Hg) as [cid [f [l ->]]]. destruct (N.eqb l lbl); [|exact (IH (S n) acc Hkr Hp)].
    destruct (IH (S n) (acc ++ [rng i]) Hkr Hp) as [n' E]. exists n'.
    unfold rng in *. rewrite E, <- app_assoc. unfold ranges_of. simpl. rewrite Hi. reflexivity.
Qed.

(* what the cached listing of the checker is *)
Definition ck_inv (L : locals) (b : bucket) (ck : option (list (Z * Z))) : Prop :=
  forall m, ck = Some m -> exists ds, NoDup ds /\ (forall d, In d ds -> bhas b (d, FMeta) = true) /\ m = ranges_of L ds.

Lemma ck_inv_mono L b l ck : forallb (is_up key obj) l = true -> ck_inv L b ck -> ck_inv L (bapply_ops b l) ck.
Proof.
  intros Hl H m Hm. destruct (H m Hm) as [ds [H1 [H2 H3]]]. exists ds. split; [exact H1|]. split; [|exact H3].
  intros d Hd. apply bhas_mono; [exact Hl|apply H2; exact Hd].
Qed.

Lemma gate_nofault L c b n ck id i lbl :
  c_fault c = NoFault -> c_lbl c = Some lbl -> ranges_disjoint L ->
  dirs_known L b -> metas_parse b -> ck_inv L b ck ->
  linfo_of L id = Some i -> bhas b (id, FMeta) = false ->
  exists n' ck', overlap_gate L c b n ck i = GGo n' ck' /\ ck_inv L b ck'.
Proof.
  intros Hf Hl Hd Hk Hp Hck Hi Hno. unfold overlap_gate.
  destruct (N.leb (l_level i) 1 || c_ooo c); [exists n, ck; split; [reflexivity|exact Hck]|].
  assert (Hres : exists n' ds, (match ck with
                     | Some m => CkOk n m
                     | None => match tick (c_fault c) n with
                               | OpOk => checker_gets (c_fault c) L (c_lbl c) b (S n) (block_dirs b) []
                               | _ => CkStop end end) = CkOk n' (ranges_of L ds)
                   /\ NoDup ds /\ (forall d, In d ds -> bhas b (d, FMeta) = true)).
  { destruct ck as [m|].
    - destruct (Hck m eq_refl) as [ds [H1 [H2 H3]]]. exists n, ds. subst m. auto.
    - rewrite Hf, Hl. simpl.
      destruct (checker_gets_nofault L lbl b (block_dirs b) (S n) []
                  (fun d Hd => block_dirs_known L b d Hk Hd) Hp) as [n' E].
      exists n', (filter (kept b lbl) (block_dirs b)). split; [exact E|].
      split; [apply NoDup_filter, dedupN_NoDup|].
      intros d Hd'. apply filter_In in Hd' as [_ Hd']. apply bhas_true. unfold kept in Hd'.
      destruct (bget b (d, FMeta)); [discriminate|discriminate]. }
  destruct Hres as [n' [ds [E [Hnd Hall]]]]. rewrite E.
  assert (Hov : overlaps ((l_mint i, l_maxt i) :: ranges_of L ds) = false).
  { assert (Hnot : ~ In id ds) by (intros Hin; rewrite (Hall id Hin) in Hno; discriminate).
    pose proof (overlaps_false L (id :: ds) Hd (NoDup_cons id Hnot Hnd)) as H.
    unfold ranges_of in H. simpl in H. rewrite Hi in H. exact H. }
  rewrite Hov. exists n', (Some (ranges_of L ds)). split; [reflexivity|].
  intros m Hm. inversion Hm; subst. exists ds. auto.
Qed.

Lemma sync_loop_nofault U L c has lbl :
  wf_univ U -> c_fault c = NoFault -> c_lbl c = Some lbl -> ranges_disjoint L ->
  forall blocks b n ops up cids ck ords res,
  binv U b -> dirs_known L b -> ck_inv L b ck ->
  sync_loop std_upload U L c has blocks b n ops up 0 cids ck ords = Some res -> r_ret res = true.
Proof.
  intros Hwf Hf Hl Hd. induction blocks as [|id r IH]; intros b n ops up cids ck ords res Hb Hk Hck H.
  - simpl in H. rewrite Hf in H. inversion H. reflexivity.
  - destruct (sync_loop_iter U L c has id r b n ops up 0 cids ck ords res H)
      as [i ops1 Hli S1 _ Hstop|i ops1 n' up' errs' cids' ck' ords' Hli S1 H' He _ Hck'].
    + (* neither fault nor missing labels, and the overlap check passes *)
      destruct Hstop as [[Hx|Hx]|[Hh Hg]]; [congruence|congruence|].
      destruct (gate_nofault L c b (S n) ck id i lbl Hf Hl Hd Hk (binv_metas_parse U b Hb) Hck Hli Hh)
        as [n1 [ck1 [Hg' _]]]. congruence.
    + destruct He as [[_ [Hx|Hx]]|[-> _]]; [congruence|congruence|].
      apply (IH _ _ _ _ _ _ _ _ (binv_run U b ops1 Hwf Hb (ship_guarded U L _ ops1 Hwf S1 b Hb))) in H'; [exact H'| |].
      * apply dirs_known_apply; [exact Hk|]. intros o Ho. apply (ship_ops_each U L _ _ o S1 Ho).
      * apply ck_inv_mono; [exact (ship_ups _ _ _ _ S1)|]. destruct Hck' as [->|[Hh [n1 Hg]]]; [exact Hck|].
        destruct (gate_nofault L c b (S n) ck id i lbl Hf Hl Hd Hk (binv_metas_parse U b Hb) Hck Hli Hh)
          as [n2 [ck2 [Hg' Hck2]]]. rewrite Hg in Hg'. inversion Hg'. exact Hck2.
Qed.

Lemma sync_nofault U L c mf b res lbl :
  wf_univ U -> c_fault c = NoFault -> c_lbl c = Some lbl -> c_corrupt c = [] -> ranges_disjoint L ->
  binv U b -> dirs_known L b -> sync U L c mf b = Some res -> r_ret res = true.
Proof.
  intros Hwf Hf Hl Hcc Hd Hb Hk H. unfold sync in H. rewrite upload_phases_std in H. rewrite Hcc in H. simpl in H.
  eapply (sync_loop_nofault U L c _ lbl Hwf Hf Hl Hd); [exact Hb|exact Hk| |exact H].
  intros m Hm. discriminate.
Qed.

Definition good2 (U : univ) (L : locals) (st : state) : Prop := good U st /\ dirs_known L (fst st).

Lemma good2_empty U L : good2 U L ([], None).
Proof. split; [apply good_empty|]. intros d f H. exfalso. apply H. reflexivity. Qed.

Lemma sync_keeps_good2 U L c st res :
  wf_univ U -> good2 U L st -> sync U L c (snd st) (fst st) = Some res -> good2 U L (sync_state st res).
Proof.
  intros Hwf [Hg Hk] Hs. split.
  - eapply sync_complete; eauto.
  - destruct (sync_sound U L c (snd st) (fst st) res Hs) as [Hship _].
    simpl. apply dirs_known_apply; [exact Hk|]. intros o Ho. apply (ship_ops_each U L _ _ o Hship Ho).
Qed.

Lemma after_syncs_good2 U L : forall cs st st',
  wf_univ U -> good2 U L st -> after_syncs U L st cs = Some st' -> good2 U L st'.
Proof.
  induction cs as [|c r IH]; intros st st' Hwf Hg H; simpl in H.
  - inversion H; subst. exact Hg.
  - destruct (sync U L c (snd st) (fst st)) as [res|] eqn:Hs; [|discriminate].
    eapply IH; [exact Hwf| |exact H]. eapply sync_keeps_good2; eauto.
Qed.

(* after ANY crash history, an undisturbed sync with external labels returns nil (and so,
   by C35_crash_then_sync, has published every eligible block) *)
Lemma sync_can_succeed_after_crash U L cs c st res lbl :
  wf_univ_b U = true -> ranges_disjoint_b L = true ->
  after_syncs U L ([], None) cs = Some st ->
  c_fault c = NoFault -> c_lbl c = Some lbl -> c_corrupt c = [] ->
  sync U L c (snd st) (fst st) = Some res -> r_ret res = true.
Proof.
  intros Hwf Hd Ha Hf Hl Hcc Hs. apply wf_univ_b_spec in Hwf. apply ranges_disjoint_b_spec in Hd.
  destruct (after_syncs_good2 U L cs _ _ Hwf (good2_empty U L) Ha) as [[Hb _] Hk].
  eapply sync_nofault; eauto.
Qed.

Lemma wedge_steps_ok U L : forall steps st,
  wf_univ U -> ranges_disjoint L -> good2 U L st ->
  corr_steps U L st steps = true -> wedge_steps L (fst st) steps = true.
Proof.
  induction steps as [|s r IH]; intros st Hwf Hd Hg Hc; simpl in *; [reflexivity|].
  destruct s as [[[[c ret] ops] snaps] mf].
  destruct (corr_step U L st _) as [st'|] eqn:Hs; [|discriminate].
  apply corr_step_inv in Hs as [res [Hsy [-> [-> [_ [-> _]]]]]].
  rewrite blast_states. apply andb_true_iff. split.
  - unfold wedge_ok. destruct (c_fault c) eqn:Hf; simpl; try reflexivity.
    destruct (r_ret res) eqn:Hret; simpl; [reflexivity|].
    destruct (c_corrupt c) as [|x xs] eqn:Hcc; [|reflexivity]. simpl.
    destruct (c_lbl c) as [lbl|] eqn:Hl; [|reflexivity].
    destruct Hg as [[Hb _] Hk].
    rewrite (sync_nofault U L c (snd st) (fst st) res lbl Hwf Hf Hl Hcc Hd Hb Hk Hsy) in Hret. discriminate.
  - apply (IH (sync_state st res)); try assumption.
    apply (sync_keeps_good2 U L c st res Hwf Hg Hsy).
Qed.

Lemma not_wedged_case c :
  corr_ok c = true -> match c with CSync _ L _ => ranges_disjoint_b L = true end -> wedge_all c = true.
Proof.
  destruct c as [U L steps]. simpl. intros H Hd. apply andb_true_iff in H as [Hwf Hc].
  apply (wedge_steps_ok U L steps ([], None) (wf_univ_b_spec U Hwf) (ranges_disjoint_b_spec L Hd) (good2_empty U L) Hc).
Qed.

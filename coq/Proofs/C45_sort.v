(* C45 — the result of dedupRules does not depend on how sort.Slice arranges
   rules that compare equal: any two arrangements that are sorted by
   Rule.Compare and are permutations of each other give the same list. So the
   stable insertion sort of the model stands for every correct sorting
   algorithm. (Rules are well formed: recording rules carry no duration/state.)

   The dedup loop keeps, of every class of equal rules, one that is least for
   the tie-break [tb]; on well-formed rules "equal and tied" is identity, so the
   kept rules, and with them the strictly increasing result, are determined by
   the set of rules alone. *)
From Coq Require Import NArith ZArith List Bool Lia Permutation Sorted.
Import ListNotations.
From Verif Require Lib.ListFacts.
From Verif Require Import Lib.Corr Lib.Misc_Cmp Gen.C45 Model.C45 Proofs.C45 Proofs.C45_dedup.

Definition rule_wf (r : rule) : Prop :=
  match r_kind r with Recording => r_dur r = 0%Z /\ r_state r = 0%Z | Alerting => True end.

(* the tie-break inside a class of equal rules, as one comparison for both
   kinds: Alert.Compare looks at the state first, RecordingRule.Compare only at
   the evaluation time *)
Definition eff_state (r : rule) : Z := if is_alert r then r_state r else 0%Z.

Definition tb : rule -> rule -> comparison :=
  lex_cmp (on_cmp eff_state (rev_cmp Z.compare)) eval_cmp.

Lemma tb_good : good_cmp tb.
Proof.
  pose proof (rev_cmp_good _ Z_compare_good) as R.
  apply lex_cmp_good; [apply on_cmp_good, R | apply (on_cmp_good r_eval _ R)].
Qed.

Lemma rule_cmp_eq_kind x y : rule_cmp x y = Eq -> r_kind x = r_kind y.
Proof. unfold rule_cmp. destruct (r_kind x), (r_kind y); try reflexivity; discriminate. Qed.

Lemma younger_tb cur r : r_kind cur = r_kind r -> younger cur r = is_gt (tb cur r).
Proof.
  unfold younger, tb, alert_cmp, lex_cmp, on_cmp, rev_cmp, eff_state, is_alert. intros ->.
  destruct (r_kind r); reflexivity.
Qed.

Lemma eq_rules x y : rule_wf x -> rule_wf y -> rule_cmp x y = Eq -> tb x y = Eq -> x = y.
Proof.
  intros Wx Wy Hc Ht. rewrite rule_cmp_is_lex in Hc. unfold rule_cmp_lex, tb in *.
  apply lex_cmp_eq in Hc as [Hk Hc], Ht as [Hs He].
  apply lex_cmp_eq in Hc as [Hn Hc]. apply lex_cmp_eq in Hc as [Hl Hc].
  apply lex_cmp_eq in Hc as [Hq Hd]. unfold on_cmp, rev_cmp, eval_cmp in *.
  apply str_cmp_eq in Hn, Hq. apply labels_cmp_eq in Hl. apply Z.compare_eq in Hd, Hs, He.
  unfold rule_wf, eff_dur, eff_state, is_alert in *.
  destruct x as [k1 n1 l1 q1 d1 s1 e1], y as [k2 n2 l2 q2 d2 s2 e2]. simpl in *.
  destruct k1, k2; try discriminate; subst; [reflexivity|].
  destruct Wx as [-> ->], Wy as [-> ->]. reflexivity.
Qed.

Lemma dedup_loop_minimal rest : forall cur,
  StronglySorted (cle rule_cmp) (cur :: rest) ->
  forall x, In x (dedup_loop cur rest) ->
  forall y, In y (cur :: rest) -> rule_cmp x y = Eq -> cle tb x y.
Proof.
  pose proof rule_cmp_good as G. pose proof tb_good as T.
  induction rest as [|r rest IH]; intros cur Hs x Hx y Hy Hc.
  - destruct Hx as [<-|[]], Hy as [<-|[]]. apply (cle_refl _ T).
  - simpl in Hx. destruct (is_eq (rule_cmp cur r)) eqn:E; simpl in Hx.
    + apply is_eq_true in E. rewrite younger_tb in Hx by (apply rule_cmp_eq_kind, E).
      destruct (is_gt (tb cur r)) eqn:Ey.
      * (* r replaces cur, and is below it *)
        apply is_gt_true in Ey.
        assert (M : forall y, In y (r :: rest) -> rule_cmp x y = Eq -> cle tb x y).
        { apply IH; [inversion Hs; assumption | exact Hx]. }
        destruct Hy as [<-|Hy]; [|apply M; assumption].
        apply (cle_trans _ T x r cur).
        -- apply M; [left; reflexivity | exact (gc_eq_trans _ G x cur r Hc E)].
        -- unfold cle. rewrite (gc_gt_lt _ T _ _ Ey). discriminate.
      * (* cur stays, and is not above r *)
        apply is_gt_false in Ey.
        assert (M : forall y, In y (cur :: rest) -> rule_cmp x y = Eq -> cle tb x y).
        { apply IH; [eapply sorted_drop_second; exact Hs | exact Hx]. }
        destruct Hy as [<-|[<-|Hy]]; [apply M; [left; reflexivity | exact Hc] | | apply M; [right; exact Hy | exact Hc]].
        apply (cle_trans _ T x cur r); [|exact Ey].
        apply M; [left; reflexivity|]. exact (gc_eq_trans _ G x r cur Hc (gc_eq_sym _ G _ _ E)).
    + (* cur is below everything that follows: the classes do not mix *)
      apply is_eq_false in E. pose proof (sorted_head_lt _ G _ _ _ Hs E) as Hlt.
      rewrite Forall_forall in Hlt.
      destruct Hx as [<-|Hx].
      * destruct Hy as [<-|Hy]; [apply (cle_refl _ T)|]. rewrite (Hlt y Hy) in Hc. discriminate.
      * destruct Hy as [<-|Hy]; [|apply (IH r); [inversion Hs| | |]; assumption].
        rewrite (gc_sym _ G cur x), (Hlt x (dedup_loop_In _ _ _ Hx)) in Hc. discriminate.
Qed.

Definition result_of (o L : list rule) : Prop :=
  StronglySorted (clt rule_cmp) o
  /\ incl o L
  /\ (forall x, In x o -> forall y, In y L -> rule_cmp x y = Eq -> cle tb x y)
  /\ (forall y, In y L -> exists x, In x o /\ rule_cmp y x = Eq).

(* a rule kept by one result is tied with its representative in the other *)
Lemma result_incl o1 o2 L : Forall rule_wf L -> result_of o1 L -> result_of o2 L -> incl o1 o2.
Proof.
  pose proof rule_cmp_good as G. pose proof tb_good as T.
  intros Hwf [_ [I1 [M1 _]]] [_ [I2 [M2 C2]]] x Hx. rewrite Forall_forall in Hwf.
  destruct (C2 x (I1 x Hx)) as [x' [Hx' Hc]].
  assert (E : x = x'); [|subst; exact Hx'].
  apply eq_rules; auto.
  pose proof (M1 x Hx x' (I2 x' Hx') Hc) as T1.
  pose proof (M2 x' Hx' x (I1 x Hx) (gc_eq_sym _ G _ _ Hc)) as T2.
  unfold cle in *. rewrite (gc_sym _ T x x') in T2. destruct (tb x x'); simpl in T2; congruence.
Qed.

Lemma strict_NoDup {A} (c : A -> A -> comparison) l :
  (forall x, c x x = Eq) -> StronglySorted (clt c) l -> NoDup l.
Proof.
  intro R. apply ListFacts.StronglySorted_NoDup. intros x H.
  unfold clt in H. rewrite R in H. discriminate.
Qed.

Lemma result_unique o1 o2 L : Forall rule_wf L -> result_of o1 L -> result_of o2 L -> o1 = o2.
Proof.
  intros Hwf R1 R2. pose proof rule_cmp_good as G.
  apply (ListFacts.StronglySorted_perm_eq (clt rule_cmp)); [| |apply R1|apply R2].
  - unfold clt. intros x y _ _ H1 H2. rewrite (gc_sym _ G x y), H1 in H2. discriminate.
  - apply NoDup_Permutation.
    + eapply strict_NoDup; [apply (gc_refl _ G) | apply R1].
    + eapply strict_NoDup; [apply (gc_refl _ G) | apply R2].
    + intro x. split; eapply result_incl; eassumption.
Qed.

Definition dedup_sorted (l : list rule) : list rule :=
  match l with [] => [] | r :: rest => dedup_loop r rest end.

Lemma dedup_sorted_result l :
  StronglySorted (cle rule_cmp) l -> result_of (dedup_sorted l) l.
Proof.
  intro Hs. destruct l as [|r rest]; simpl.
  - repeat split; try constructor; intros x [].
  - split; [apply dedup_loop_strict; exact Hs|]. split; [|split].
    + intros x Hx. apply dedup_loop_In. exact Hx.
    + intros x Hx. apply dedup_loop_minimal; assumption.
    + intros y Hy. apply dedup_loop_rep. exact Hy.
Qed.

Lemma dedup_sort_independent l1 l2 :
  Permutation l1 l2 -> Forall rule_wf l1 ->
  StronglySorted (cle rule_cmp) l1 -> StronglySorted (cle rule_cmp) l2 ->
  dedup_sorted l1 = dedup_sorted l2.
Proof.
  intros Hp Hwf H1 H2. apply (result_unique _ _ l1 Hwf); [apply dedup_sorted_result; exact H1|].
  destruct (dedup_sorted_result l2 H2) as [S [I [M C]]]. split; [exact S|]. split; [|split].
  - intros x Hx. eapply Permutation_in; [symmetry; exact Hp | apply I; exact Hx].
  - intros x Hx y Hy. apply M; [exact Hx | eapply Permutation_in; eauto].
  - intros y Hy. apply C. eapply Permutation_in; eauto.
Qed.

(* dedupRules of the model = dedup of ANY sorted arrangement of the stripped rules *)
Lemma dedup_rules_any_sort replica rs sorted :
  Forall rule_wf rs ->
  Permutation (map (strip replica) rs) sorted -> StronglySorted (cle rule_cmp) sorted ->
  dedup_rules replica rs = dedup_sorted sorted.
Proof.
  intros Hwf Hp Hs. unfold dedup_rules. change (dedup_sorted (isort rule_cmp (map (strip replica) rs)) = dedup_sorted sorted).
  apply dedup_sort_independent.
  - rewrite <- Hp. symmetry. apply isort_perm.
  - apply Forall_forall. intros x Hx. apply isort_In in Hx. apply in_map_iff in Hx as [r [E Hr]]. subst x.
    rewrite Forall_forall in Hwf. specialize (Hwf r Hr). unfold rule_wf, strip in *. simpl. exact Hwf.
  - apply isort_sorted. apply rule_cmp_good.
  - exact Hs.
Qed.

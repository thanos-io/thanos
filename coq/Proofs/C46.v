(* C46 — the alert queue of Model/C46.v: what one Push leaves ([push_q]), the
   invariant [Inv] of every reachable state with its ghost history of kept and
   popped alerts (capacity, FIFO, a set token or a popper under way while alerts
   are queued), the batch bound, and the statement order of Pop and Push in the
   source (Gen/C46.v). *)
From Coq Require Import NArith ZArith List Bool Lia String.
Import ListNotations.
From Verif Require Import Lib.Corr Gen.C46 Model.C46.
Open Scope Z_scope.

(* tie T: statement order of Pop and Push *)
Definition nth_s (n : nat) (l : list string) : string := nth n l ""%string.

Definition stmts_ok : bool :=
  (* Pop, exactly: token received first, outside the mutex; then the critical
     section with no statement (in particular no return) between taking the mutex
     and the re-signal when alerts remain *)
  list_eqb String.eqb Pop_stmts
    ["select[recv:termc|recv:q.morec]"; "call:q.mtx.Lock()"; "defer:q.mtx.Unlock()";
     "assign:as"; "assign:n"; "assign:q.queue"; "call:q.popped.Add(float64(n))";
     "if:len(q.queue) > 0{select[send:q.morec|default]}"; "return"]%string
  (* Push: everything after the early return runs under the mutex and the signal is the last statement *)
  && String.eqb (nth_s 0 Push_stmts) "if:len(alerts) == 0"
  && String.eqb (nth_s 1 Push_stmts) "call:q.mtx.Lock()"
  && String.eqb (nth_s 2 Push_stmts) "defer:q.mtx.Unlock()"
  && String.eqb (nth_s (List.length Push_stmts - 1) Push_stmts) "select[send:q.morec|default]".

Lemma stmts_fact : stmts_ok = true.
Proof. vm_compute. reflexivity. Qed.

Fixpoint index_of (x : string) (l : list string) : nat :=
  match l with
  | [] => O
  | y :: r => if String.eqb x y then O else S (index_of x r)
  end.

Lemma gtb_false a b : (a >? b) = false -> a <= b.
Proof. rewrite Z.gtb_ltb. intro H. apply Z.ltb_ge in H. exact H. Qed.

Lemma len_app {A} (a b : list A) : len (a ++ b) = len a + len b.
Proof. unfold len. rewrite app_length. lia. Qed.

Lemma len_dropn {A} d (l : list A) : 0 <= d -> len (dropn d l) = Z.max 0 (len l - d).
Proof. intro H. unfold len, dropn. rewrite skipn_length. lia. Qed.

Lemma dropn_split {A} d (l : list A) : l = firstn (Z.to_nat d) l ++ dropn d l.
Proof. unfold dropn. symmetry. apply firstn_skipn. Qed.

Lemma dropn_if {A} d (l : list A) : (if d >? 0 then dropn d l else l) = dropn d l.
Proof.
  destruct (d >? 0) eqn:E; [reflexivity|]. apply gtb_false in E.
  unfold dropn. replace (Z.to_nat d) with 0%nat by lia. reflexivity.
Qed.

Lemma dropn_lastn {A} c (l : list A) : 0 <= c -> dropn (len l - c) l = lastn (Z.to_nat c) l.
Proof. intro H. unfold dropn, lastn, len. rewrite Z2Nat.inj_sub, Nat2Z.id by exact H. reflexivity. Qed.

Lemma lastn_length {A} n (l : list A) : List.length (lastn n l) = Nat.min n (List.length l).
Proof. unfold lastn. rewrite skipn_length. lia. Qed.

Lemma lastn_all {A} n (l : list A) : (List.length l <= n)%nat -> lastn n l = l.
Proof. intro H. unfold lastn. replace (_ - n)%nat with 0%nat by lia. reflexivity. Qed.

Lemma lastn_min {A} n (l : list A) : lastn (Nat.min n (List.length l)) l = lastn n l.
Proof. unfold lastn. f_equal. lia. Qed.

(* the newest [n] of [a ++ b]: those of [b], and of [a] what [b] leaves room for *)
Lemma lastn_app {A} n (a b : list A) : lastn n (a ++ b) = lastn (n - List.length b) a ++ lastn n b.
Proof.
  unfold lastn. rewrite skipn_app, app_length. f_equal; [|f_equal; lia].
  destruct (Nat.le_gt_cases (List.length b) n); [f_equal; lia | rewrite !skipn_all2 by lia; reflexivity].
Qed.

Inductive Sub : list Z -> list Z -> Prop :=
| Sub_nil : Sub [] []
| Sub_skip x l1 l2 : Sub l1 l2 -> Sub l1 (x :: l2)
| Sub_take x l1 l2 : Sub l1 l2 -> Sub (x :: l1) (x :: l2).

Lemma Sub_refl l : Sub l l.
Proof. induction l; constructor; assumption. Qed.

Lemma Sub_nil_l l : Sub [] l.
Proof. induction l; constructor; assumption. Qed.

Lemma Sub_app a b c d : Sub a b -> Sub c d -> Sub (a ++ c) (b ++ d).
Proof.
  induction 1 as [|x l1 l2 H IH|x l1 l2 H IH]; intro Hcd; simpl.
  - exact Hcd.
  - apply Sub_skip. apply IH. exact Hcd.
  - apply Sub_take. apply IH. exact Hcd.
Qed.

Lemma Sub_app_r a b c : Sub a b -> Sub a (b ++ c).
Proof. intro H. rewrite <- (app_nil_r a). apply Sub_app; [exact H | apply Sub_nil_l]. Qed.

Lemma zlist_eqb_eq a b : zlist_eqb a b = true -> a = b.
Proof. apply list_eqb_spec. intros x y. apply Z.eqb_eq. Qed.

Section Inv.
  Variable cap batch : Z.
  Variable keep : Z -> bool.
  Hypothesis cap_nonneg : 0 <= cap.
  Hypothesis batch_nonneg : 0 <= batch.

  Definition kept1 (l : label) : list Z := match l with LPush a => filter keep a | _ => [] end.
  Definition popped1 (l : label) : list Z := match l with LCrit out => out | _ => [] end.

  (* state invariant with the ghost history: [k] kept pushes so far, [p] popped so far *)
  Definition Inv (s : st) (k p : list Z) : Prop :=
    len (q s) <= cap
    /\ (q s <> [] -> tok s = true \/ (0 < mid s)%nat)
    /\ exists pre, k = pre ++ q s /\ Sub p pre.

  Lemma push_noop s a : filter keep a = [] -> push cap keep s a = s.
  Proof. intro E. unfold push. destruct a; [reflexivity|]. rewrite E. reflexivity. Qed.

  Lemma push_tok s a : filter keep a <> [] -> tok (push cap keep s a) = true.
  Proof.
    intro E. unfold push. destruct a as [|a0 a]; [contradiction E; reflexivity|].
    destruct (filter keep (a0 :: a)); [contradiction E|]; reflexivity.
  Qed.

  (* what Push leaves is the newest [cap] of (queue ++ kept alerts): nothing is
     dropped unless the capacity forces it, and then the oldest go first *)
  Lemma push_q s a :
    len (q s) <= cap ->
    q (push cap keep s a)
    = lastn (Z.to_nat (Z.min cap (len (q s ++ filter keep a)))) (q s ++ filter keep a).
  Proof.
    intro Hq. unfold len at 1. rewrite Z2Nat.inj_min, Nat2Z.id, lastn_min.
    destruct (filter keep a) as [|b0 al0] eqn:Ef.
    - rewrite (push_noop s a Ef), app_nil_r, lastn_all; [reflexivity|]. unfold len in Hq. lia.
    - unfold push. destruct a as [|a0 a]; [discriminate|]. rewrite Ef. set (al := b0 :: al0).
      cbv zeta. rewrite !dropn_if. cbn [q].
      (* the batch keeps its newest [cap]; the old queue what that leaves room for *)
      rewrite (dropn_lastn cap al cap_nonneg).
      assert (Hal : len (lastn (Z.to_nat cap) al) <= cap) by (unfold len; rewrite lastn_length; lia).
      replace (len (q s) + len (lastn (Z.to_nat cap) al) - cap)
        with (len (q s) - (cap - len (lastn (Z.to_nat cap) al))) by ring.
      rewrite dropn_lastn, lastn_app by lia. f_equal. f_equal.
      unfold len. rewrite Z2Nat.inj_sub, Nat2Z.id, lastn_length by lia. lia.
  Qed.

  Lemma push_len s a : len (q s) <= cap -> len (q (push cap keep s a)) <= cap.
  Proof. intro Hq. rewrite push_q by exact Hq. unfold len. rewrite lastn_length. lia. Qed.

  Lemma push_inv s k p a :
    Inv s k p -> Inv (push cap keep s a) (k ++ filter keep a) p.
  Proof.
    intros [I1 [I2 [pre [Hk Hp]]]]. split; [|split].
    - apply push_len, I1.
    - destruct (filter keep a) eqn:Ef; [rewrite (push_noop s a Ef); exact I2|].
      intros _. left. apply push_tok. rewrite Ef. discriminate.
    - rewrite push_q by exact I1. unfold lastn.
      exists (pre ++ firstn (List.length (q s ++ filter keep a)
                             - Z.to_nat (Z.min cap (len (q s ++ filter keep a)))) (q s ++ filter keep a)).
      split; [|apply Sub_app_r; exact Hp]. rewrite Hk, <- !app_assoc, firstn_skipn. reflexivity.
  Qed.

  (* the critical section of Pop hands out the first [batch] alerts *)
  Lemma step_crit s out s' :
    step cap batch keep s (LCrit out) = Some s' ->
    exists m, mid s = S m /\ out = firstn (Z.to_nat batch) (q s)
      /\ s' = St (skipn (Z.to_nat batch) (q s))
                 (match skipn (Z.to_nat batch) (q s) with [] => tok s | _ => true end) m.
  Proof.
    simpl. unfold crit. destruct (mid s) as [|m]; [discriminate|].
    destruct (zlist_eqb (firstn (Z.to_nat batch) (q s)) out) eqn:E; [|discriminate].
    apply zlist_eqb_eq in E. intros [= <-]. exists m. auto.
  Qed.

  Lemma step_inv s k p l s' :
    Inv s k p -> step cap batch keep s l = Some s' -> Inv s' (k ++ kept1 l) (p ++ popped1 l).
  Proof.
    intros HI Hs. destruct l as [a| |out|]; simpl kept1; simpl popped1; rewrite ?app_nil_r.
    - injection Hs as <-. apply push_inv. exact HI.
    - simpl in Hs. unfold take in Hs. destruct (tok s); [|discriminate]. injection Hs as <-.
      destruct HI as [I1 [I2 I3]]. repeat split; simpl; auto. intros _. right. lia.
    - apply step_crit in Hs as [m [Em [-> ->]]].
      destruct HI as [I1 [I2 [pre [Hk Hp]]]]. repeat split; simpl.
      + unfold len in *. rewrite skipn_length. lia.
      + intros Hne. left. destruct (skipn (Z.to_nat batch) (q s)); [congruence | reflexivity].
      + exists (pre ++ firstn (Z.to_nat batch) (q s)). split.
        * rewrite Hk, <- app_assoc, firstn_skipn. reflexivity.
        * apply Sub_app; [exact Hp | apply Sub_refl].
    - injection Hs as <-. exact HI.
  Qed.

  Lemma kept_cons l tr : kept keep (l :: tr) = kept1 l ++ kept keep tr.
  Proof. destruct l; reflexivity. Qed.
  Lemma popped_cons l tr : popped (l :: tr) = popped1 l ++ popped tr.
  Proof. destruct l; reflexivity. Qed.

  Lemma run_inv tr : forall s s' k p,
    Inv s k p -> run cap batch keep s tr = Some s' ->
    Inv s' (k ++ kept keep tr) (p ++ popped tr).
  Proof.
    induction tr as [|l tr IH]; intros s s' k p HI Hr; simpl in Hr.
    - inversion Hr; subst. simpl. rewrite !app_nil_r. exact HI.
    - destruct (step cap batch keep s l) as [s1|] eqn:Es; [|discriminate].
      rewrite kept_cons, popped_cons, !app_assoc.
      eapply IH; [|exact Hr]. eapply step_inv; eauto.
  Qed.

  Lemma init_inv : Inv init [] [].
  Proof.
    unfold Inv, init, len. simpl. repeat split; [lia | congruence|].
    exists []. split; [reflexivity | constructor].
  Qed.

  (* every reachable state, whatever the interleaving *)
  Lemma reach_inv tr s :
    run cap batch keep init tr = Some s -> Inv s (kept keep tr) (popped tr).
  Proof. intro H. apply (run_inv tr init s [] [] init_inv H). Qed.

  Lemma batch_bound tr : forall s s',
    run cap batch keep s tr = Some s' ->
    Forall (fun l => match l with LCrit out => len out <= batch | _ => True end) tr.
  Proof.
    induction tr as [|l tr IH]; intros s s' Hr; [constructor|]. simpl in Hr.
    destruct (step cap batch keep s l) as [s1|] eqn:Es; [|discriminate].
    constructor; [|eapply IH; eauto].
    destruct l as [a| |out|]; auto. apply step_crit in Es as [m [_ [-> _]]]. unfold len.
    pose proof (firstn_le_length (Z.to_nat batch) (q s)). lia.
  Qed.

  (* enabledness: with alerts queued, a popper can always move, and the popper
     that is between its two halves re-arms the token if alerts remain *)
  Lemma popper_enabled s k p :
    Inv s k p -> q s <> [] ->
    (exists s', take s = Some s')
    \/ (exists s' out, crit batch s = Some (s', out) /\ (q s' <> [] -> tok s' = true)).
  Proof.
    intros [_ [I2 _]] Hne. destruct (I2 Hne) as [Ht|Hm].
    - left. unfold take. rewrite Ht. eexists. reflexivity.
    - right. unfold crit. destruct (mid s) as [|m]; [lia|].
      eexists. eexists. split; [reflexivity|]. simpl. intro H.
      destruct (skipn (Z.to_nat batch) (q s)); [congruence | reflexivity].
  Qed.
End Inv.

(* C05 — a pruning decision of the proxy is sound: each test of storeMatches /
   matchesExternalLabels that skips a store (time range from Gen/C05.v's [time_skip],
   external label sets, the proxy's selector labels) implies that no series the store
   can hold is selected by the request ([skip_sound]); then the same for the matchers
   MatchersForLabelSets generates for a TSDB selector. Label-list facts: Proofs/C05_Labels.v. *)
From Coq Require Import ZArith NArith List Bool Lia.
Import ListNotations.
From Verif Require Import Lib.Corr Lib.Proxy_Order Gen.C05 Model.C05 Proofs.C05_Labels.
Open Scope Z_scope.

(* a series carries every label of ext with ext's value *)
Definition extends (s ext : labels) : Prop :=
  forall n, lhas ext n = true -> lget s n = lget ext n.

Lemma extends_b_sound s ext : extends_b s ext = true -> extends s ext.
Proof.
  unfold extends_b, extends. intros H n Hn.
  unfold lhas in Hn. destruct (lfind ext n) as [v|] eqn:F; [|discriminate].
  apply lfind_some_in in F. rewrite forallb_forall in H.
  specialize (H _ F). cbn [fst] in H. apply str_eqb_eq in H. exact H.
Qed.

Lemma extends_nil s : extends s [].
Proof. intros n H. discriminate. Qed.

Lemma time_prune_sound mint maxt smin_ smax_ t :
  time_skip mint maxt smin_ smax_ = true -> smin_ <= t <= smax_ -> ~ (mint <= t <= maxt).
Proof.
  unfold time_skip. intros H Hs Hq. apply orb_true_iff in H as [H|H].
  - apply Z.gtb_lt in H. lia.
  - apply Z.ltb_lt in H. lia.
Qed.

Section Generic.
Context {M : Type} (mname : M -> str) (mmatch : M -> str -> bool).

Definition matches_series (s : labels) (m : M) : bool := mmatch m (lget s (mname m)).

Lemma lset_rejected_sound ms ext s :
  lset_rejected mname mmatch ms ext = true -> extends s ext ->
  exists m, In m ms /\ matches_series s m = false.
Proof.
  unfold lset_rejected. intros H He. apply existsb_exists in H as [m [Hin Hm]].
  apply andb_true_iff in Hm as [Hh Hr]. exists m. split; [exact Hin|].
  unfold matches_series. rewrite (He _ Hh). apply negb_true_iff in Hr. exact Hr.
Qed.

Lemma label_sets_match_false ms exts :
  label_sets_match mname mmatch ms exts = false ->
  exts <> [] /\ forall ext, In ext exts -> lset_rejected mname mmatch ms ext = true.
Proof.
  unfold label_sets_match. destruct exts as [|e r]; [discriminate|].
  intros H. split; [discriminate|]. intros ext Hin.
  destruct (lset_rejected mname mmatch ms ext) eqn:E; [reflexivity|].
  assert (existsb (fun ls => negb (lset_rejected mname mmatch ms ls)) (e :: r) = true) as X.
  { apply existsb_exists. exists ext. split; [exact Hin|]. rewrite E. reflexivity. }
  rewrite X in H. discriminate.
Qed.

Lemma label_prune_sound ms exts :
  label_sets_match mname mmatch ms exts = false ->
  forall s ext, In ext exts -> extends s ext ->
  exists m, In m ms /\ matches_series s m = false.
Proof.
  intros H s ext Hin He. apply label_sets_match_false in H as [_ H].
  eapply lset_rejected_sound; eauto.
Qed.

Lemma ext_loop_none ms ext s :
  ext_loop mname mmatch ms ext = None -> extends s ext ->
  exists m, In m ms /\ matches_series s m = false.
Proof.
  induction ms as [|m r IH]; cbn [ext_loop]; [discriminate|].
  intros H He.
  destruct (is_empty_str (lget ext (mname m))) eqn:E.
  - destruct (ext_loop mname mmatch r ext) eqn:L; [discriminate|].
    destruct (IH eq_refl He) as [m' [Hin Hm]]. exists m'. split; [right; exact Hin | exact Hm].
  - destruct (mmatch m (lget ext (mname m))) eqn:Mm.
    + destruct (IH H He) as [m' [Hin Hm]]. exists m'. split; [right; exact Hin | exact Hm].
    + exists m. split; [left; reflexivity|]. unfold matches_series.
      rewrite (He _ (lget_nonempty_has _ _ E)). exact Mm.
Qed.

Lemma ext_loop_some ms ext kept :
  ext_loop mname mmatch ms ext = Some kept ->
  incl kept ms /\
  forall s, extends s ext -> forallb (matches_series s) ms = forallb (matches_series s) kept.
Proof.
  revert kept. induction ms as [|m r IH]; cbn [ext_loop]; intros kept H.
  - inversion H; subst. split; [apply incl_refl | reflexivity].
  - destruct (is_empty_str (lget ext (mname m))) eqn:E.
    + destruct (ext_loop mname mmatch r ext) as [k|] eqn:L; [|discriminate].
      inversion H; subst. destruct (IH _ eq_refl) as [Hi Hf]. split.
      * intros x [Hx|Hx]; [left; exact Hx | right; apply Hi; exact Hx].
      * intros s He. cbn [forallb]. rewrite (Hf s He). reflexivity.
    + destruct (mmatch m (lget ext (mname m))) eqn:Mm; [|discriminate].
      destruct (IH _ H) as [Hi Hf]. split.
      * intros x Hx. right. apply Hi. exact Hx.
      * intros s He. cbn [forallb]. unfold matches_series at 1.
        rewrite (He _ (lget_nonempty_has _ _ E)), Mm. cbn. apply Hf. exact He.
Qed.

Lemma ext_match_none ms ext s :
  matches_external_labels mname mmatch ms ext = None -> extends s ext ->
  exists m, In m ms /\ matches_series s m = false.
Proof.
  unfold matches_external_labels. destruct ext as [|p e]; [discriminate|]. apply ext_loop_none.
Qed.

Lemma ext_match_some ms ext kept :
  matches_external_labels mname mmatch ms ext = Some kept ->
  incl kept ms /\
  forall s, extends s ext -> forallb (matches_series s) ms = forallb (matches_series s) kept.
Proof.
  unfold matches_external_labels. destruct ext as [|p e].
  - intros H. inversion H; subst. split; [apply incl_refl | reflexivity].
  - apply ext_loop_some.
Qed.

Lemma ext_match_sound ms ext :
  match matches_external_labels mname mmatch ms ext with
  | None => forall s, extends s ext -> exists m, In m ms /\ mmatch m (lget s (mname m)) = false
  | Some kept => incl kept ms /\
      forall s, extends s ext ->
        forallb (fun m => mmatch m (lget s (mname m))) ms = forallb (fun m => mmatch m (lget s (mname m))) kept
  end.
Proof.
  destruct (matches_external_labels mname mmatch ms ext) eqn:E.
  - exact (ext_match_some ms ext l E).
  - intros s. exact (ext_match_none ms ext s E).
Qed.

Lemma store_matches_cases dbg mint maxt ms st :
  match store_matches mname mmatch dbg mint maxt ms st with
  | RTime => time_skip mint maxt (smin st) (smax st) = true
  | RExt => label_sets_match mname mmatch ms (sexts st) = false
  | _ => True
  end.
Proof.
  unfold store_matches. destruct (time_skip mint maxt (smin st) (smax st)); [reflexivity|].
  destruct (store_match_debug mname mmatch dbg st) eqn:D; try exact I.
  - destruct (label_sets_match mname mmatch ms (sexts st)); [|reflexivity].
    cbn. now destruct (sfilter st).
  - unfold store_match_debug in D. destruct dbg; [discriminate|].
    destruct (slocal st); [discriminate|]. now destruct (existsb _ _).
  - unfold store_match_debug in D. destruct dbg; [discriminate|].
    destruct (slocal st); [discriminate|]. now destruct (existsb _ _).
Qed.

(* a series as the store presents it to this proxy: carries the proxy's selector
   labels, carries one of the store's external label sets (if it announces any),
   and all its samples lie in the advertised time range *)
Definition series_of_store (sel : labels) (st : store) (lbls : labels) (ts : list Z) : Prop :=
  extends lbls sel
  /\ (sexts st = [] \/ exists ext, In ext (sexts st) /\ extends lbls ext)
  /\ forall t, In t ts -> smin st <= t <= smax st.

(* the request selects the series: every matcher accepts its labels (Get = "" when
   absent) and it has a sample in the query's time range *)
Definition selected (ms : list M) (mint maxt : Z) (lbls : labels) (ts : list Z) : Prop :=
  (forall m, In m ms -> matches_series lbls m = true)
  /\ exists t, In t ts /\ mint <= t <= maxt.

Lemma series_of_store_b_sound sel st ser :
  series_of_store_b sel st ser = true -> series_of_store sel st (fst ser) (snd ser).
Proof.
  unfold series_of_store_b, series_of_store. intros H.
  apply andb_true_iff in H as [H H3]. apply andb_true_iff in H as [H1 H2].
  split; [apply extends_b_sound; exact H1|]. split.
  - destruct (sexts st) as [|e r] eqn:E; [left; reflexivity|]. right.
    apply existsb_exists in H2 as [ext [Hin He]]. exists ext. split; [exact Hin|].
    apply extends_b_sound. exact He.
  - intros t Ht. rewrite forallb_forall in H3. specialize (H3 _ Ht).
    apply andb_true_iff in H3 as [A B]. apply Z.leb_le in A. apply Z.leb_le in B. lia.
Qed.

Lemma selected_b_sound ms mint maxt ser :
  selected_b mname mmatch ms mint maxt ser = true -> selected ms mint maxt (fst ser) (snd ser).
Proof.
  unfold selected_b, selected. intros H. apply andb_true_iff in H as [H1 H2]. split.
  - intros m Hm. rewrite forallb_forall in H1. apply H1. exact Hm.
  - apply existsb_exists in H2 as [t [Ht Hr]]. exists t. split; [exact Ht|].
    apply andb_true_iff in Hr as [A B]. apply Z.leb_le in A. apply Z.leb_le in B. lia.
Qed.

Theorem skip_sound sel dbg mint maxt ms st :
  pruned (proxy_decision mname mmatch sel dbg mint maxt ms st) = true ->
  forall lbls ts, series_of_store sel st lbls ts -> ~ selected ms mint maxt lbls ts.
Proof.
  unfold proxy_decision. intros Hp lbls ts [Hsel [Hext Hts]] [Hall [t [Ht Hr]]].
  assert (Hrej : forall ms', incl ms' ms -> (exists m, In m ms' /\ matches_series lbls m = false) -> False).
  { intros ms' Hi [m [Hin Hm]]. rewrite (Hall m (Hi _ Hin)) in Hm. discriminate. }
  destruct (matches_external_labels mname mmatch ms sel) as [kept|] eqn:E.
  - destruct (ext_match_some _ _ _ E) as [Hincl _].
    pose proof (store_matches_cases dbg mint maxt kept st) as R.
    destruct (store_matches mname mmatch dbg mint maxt kept st); cbn in Hp; try discriminate.
    + exact (time_prune_sound _ _ _ _ _ R (Hts _ Ht) Hr).
    + destruct (label_sets_match_false _ _ R) as [Hne Hall'].
      destruct Hext as [Hnil | [ext [Hin He]]]; [contradiction|].
      apply (Hrej kept Hincl). eapply lset_rejected_sound; [apply Hall'; exact Hin | exact He].
  - apply (Hrej ms (incl_refl _)). eapply ext_match_none; eauto.
Qed.

End Generic.

(* the same through the boolean predicate the check evaluates on the implementation's decisions *)
Lemma no_selected_of_pruned sel dbg mint maxt ms (p : store * list (labels * list Z)) :
  pruned (proxy_decision mname mmatch sel dbg mint maxt ms (fst p)) = true ->
  forallb (fun ser => negb (series_of_store_b sel (fst p) ser && selected_b mname mmatch ms mint maxt ser)) (snd p) = true.
Proof.
  intros Hp. apply forallb_forall. intros ser _.
  destruct (series_of_store_b sel (fst p) ser) eqn:A; [|reflexivity].
  destruct (selected_b mname mmatch ms mint maxt ser) eqn:B; [|reflexivity].
  exfalso. apply series_of_store_b_sound in A. apply selected_b_sound in B.
  exact (skip_sound mname mmatch sel dbg mint maxt ms (fst p) Hp _ _ A B).
Qed.

Theorem pred_ok_model sel ms dbg son mint maxt stores o_kept o_lsets :
  match matches_external_labels mname mmatch ms sel with
  | None => pred_skip (CPrune sel ms dbg son mint maxt stores None [] o_kept o_lsets) = true
  | Some kept =>
      pred_skip (CPrune sel ms dbg son mint maxt stores (Some (map mid kept))
                 (map (fun s => reason_code (store_matches mname mmatch dbg mint maxt kept (fst s))) stores)
                 o_kept o_lsets) = true
  end.
Proof.
  destruct (matches_external_labels mname mmatch ms sel) as [kept|] eqn:E; cbn [pred_skip].
  - apply forallb_forall. intros [p r] Hin. cbn [fst snd].
    assert (Hr : r = reason_code (store_matches mname mmatch dbg mint maxt kept (fst p))).
    { clear -Hin. induction stores as [|s l IH]; cbn in Hin; [contradiction|].
      destruct Hin as [H|H]; [inversion H; reflexivity | apply IH; exact H]. }
    destruct ((r =? 1) || (r =? 4)) eqn:Rr; [|reflexivity].
    apply (no_selected_of_pruned sel dbg mint maxt ms p).
    unfold proxy_decision. rewrite E. subst r.
    destruct (store_matches mname mmatch dbg mint maxt kept (fst p)); cbn in Rr |- *; congruence.
  - apply forallb_forall. intros p _.
    apply (no_selected_of_pruned sel dbg mint maxt ms p).
    unfold proxy_decision. rewrite E. reflexivity.
Qed.

Lemma in_sinsert x y l : In x (sinsert y l) <-> x = y \/ In x l.
Proof.
  induction l as [|z r IH]; cbn [sinsert]; [cbn; intuition congruence|].
  destruct (str_cmp y z) eqn:E; cbn [In]; try rewrite IH; try (intuition congruence).
  apply (cmp_eq _ str_ord) in E. subst z. cbn [In]. intuition congruence.
Qed.
Lemma in_sset x l : In x (sset l) <-> In x l.
Proof. induction l as [|y r IH]; cbn; [tauto|]. fold (sset r). rewrite in_sinsert, IH. intuition congruence. Qed.

(* label sets with the same label names: the extra matchers accept every series of every kept set.
   The hypothesis on RE_EMPTY: no label value of the sets is literally "^$", the pattern
   MatchersForLabelSets uses for "label absent" ([alt_sem] reads that alternative so). *)
Theorem selector_sound_homogeneous lsets :
  (forall l n, In l lsets -> In n (sel_names lsets) -> lhas l n = true) ->
  forall s ext n, In ext lsets -> extends s ext -> In n (sel_names lsets) ->
  (forall v, In v (sel_alts n lsets) -> str_eqb v RE_EMPTY = false) ->
  alt_sem (sel_alts n lsets) (lget s n) = true.
Proof.
  intros Hh s ext n Hin He Hn Hre.
  pose proof (Hh ext n Hin Hn) as Hhas. rewrite (He n Hhas).
  assert (Hv : In (lget ext n) (sel_alts n lsets)).
  { unfold sel_alts. apply in_sset, in_or_app. left. apply in_concat.
    unfold lhas in Hhas. unfold lget. destruct (lfind ext n) as [v|] eqn:E; [|discriminate].
    exists [v]. split; [|now left]. apply in_map_iff. exists ext. now rewrite E. }
  apply existsb_exists. exists (lget ext n). split; [exact Hv|].
  rewrite (Hre _ Hv). apply str_eqb_refl.
Qed.

(* with label sets of different names the matcher generated for a name that a kept set lacks
   rejects a series of that set that has its own label of that name *)
Definition A : str := [97]%N. Definition B : str := [98]%N.
Definition ex_lsets : list labels := [[(A, [49]%N)]; [(B, [50]%N)]].
Definition ex_series : labels := [(A, [49]%N); (B, [51]%N)].
Theorem selector_refuted :
  exists lsets s ext n, In ext lsets /\ extends_b s ext = true /\ In n (sel_names lsets)
    /\ alt_sem (sel_alts n lsets) (lget s n) = false.
Proof.
  exists ex_lsets, ex_series, [(A, [49]%N)], B. split; [left; reflexivity|]. split; [vm_compute; reflexivity|].
  split; [vm_compute; right; left; reflexivity | vm_compute; reflexivity].
Qed.

Lemma matching_stores_lsets son dbg mint maxt ms (sts : list (nat * store)) i st :
  In (i, st) sts -> fst (selector_match son st) = true ->
  store_matches mname mmatch dbg mint maxt ms st = ROk ->
  incl (snd (selector_match son st)) (snd (matching_stores mname mmatch son dbg mint maxt ms sts)).
Proof.
  induction sts as [|[j st'] r IH]; intros Hin Hsel Hok; [destruct Hin|].
  cbn [matching_stores]. destruct (matching_stores mname mmatch son dbg mint maxt ms r) as [ks ls] eqn:E.
  destruct Hin as [Hin|Hin].
  - inversion Hin; subst. rewrite Hsel, Hok. cbn [snd]. apply incl_appl. apply incl_refl.
  - specialize (IH Hin Hsel Hok). cbn [snd] in IH.
    destruct (fst (selector_match son st')); [|exact IH].
    destruct (store_matches mname mmatch dbg mint maxt ms st'); cbn [snd]; try exact IH.
    apply incl_appr. exact IH.
Qed.

(* a queried store's KEPT label sets are among the sets the extra matchers are generated from, so
   (for label sets with the same label names) no series of a kept set of a queried store is
   rejected by the extra matchers *)
Theorem selector_keeps_queried dbg mint maxt ms (sts : list (nat * store)) i st :
  In (i, st) sts -> sexts st <> [] -> fst (selector_match true st) = true ->
  store_matches mname mmatch dbg mint maxt ms st = ROk ->
  let L := snd (matching_stores mname mmatch true dbg mint maxt ms sts) in
  (forall l n, In l L -> In n (sel_names L) -> lhas l n = true) ->
  forall s e n, In e (kept_lsets st) -> extends s e -> In n (sel_names L) ->
  (forall v, In v (sel_alts n L) -> str_eqb v RE_EMPTY = false) ->
  alt_sem (sel_alts n L) (lget s n) = true.
Proof.
  intros Hin Hne Hsel Hok L Hh s e n He Hext Hn Hre.
  apply (selector_sound_homogeneous L Hh s e n); try assumption.
  apply (matching_stores_lsets true dbg mint maxt ms sts i st Hin Hsel Hok).
  unfold selector_match. cbn [negb orb]. destruct (sexts st) eqn:E; [exfalso; apply Hne; reflexivity|]. cbn [snd]. exact He.
Qed.

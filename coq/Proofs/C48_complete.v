(* C48 — part 2: everything inside the requested intervals is removed, hence the
   rewrite is exactly the filter specification. Needs the sortedness invariant
   that tombstones.Intervals.Add maintains. *)
From Coq Require Import NArith ZArith List Bool Lia Sorted.
Import ListNotations.
From Verif Require Import Lib.Corr Lib.Misc_Cmp Lib.ListFacts Gen.C48 Model.C48 Proofs.C48.
Open Scope Z_scope.

(* sorted, disjoint, non-adjacent, each interval non-empty; [lo] = previous Maxt + 1 *)
Fixpoint norm (lo : Z) (l : list interval) : Prop :=
  match l with
  | [] => True
  | (a, b) :: r => lo < a /\ a <= b /\ norm (b + 1) r
  end.

Definition normalized (l : list interval) : Prop := exists lo, norm lo l.
Definition valid (i : interval) : Prop := fst i <= snd i.

Lemma norm_lb l : forall lo t, norm lo l -> covered l t = true -> lo < t.
Proof.
  induction l as [|[a b] r IH]; intros lo t Hn Hc; [discriminate|].
  destruct Hn as [H1 [H2 H3]]. apply covered_cons_iff in Hc as [Hc|Hc]; [simpl in Hc; lia|].
  specialize (IH _ _ H3 Hc). lia.
Qed.

Lemma norm_valid l : forall lo, norm lo l -> Forall valid l.
Proof.
  induction l as [|[a b] r IH]; intros lo Hn; constructor; destruct Hn as [_ [H H']]; [exact H | exact (IH _ H')].
Qed.

(* what is left after absorbing starts beyond both [y] and [hi]; what was
   absorbed ends at or before [hi] *)
Lemma absorb_norm y : forall l hi0 hi rest,
  norm (hi0 + 1) l -> absorb y hi0 l = (hi, rest) ->
  hi0 <= hi /\ norm (Z.max y hi + 1) rest
  /\ (forall t, covered l t = true -> covered rest t = true \/ t <= hi).
Proof.
  induction l as [|[a b] r IH]; intros hi0 hi rest Hn H; simpl in H.
  - injection H as <- <-. repeat split; auto. lia.
  - destruct Hn as [H1 [H2 H3]]. destruct (Z.gtb_spec a (y + 1)).
    + injection H as <- <-. cbn [norm]. repeat split; auto; lia.
    + destruct (IH _ _ _ H3 H) as [I1 [I2 I3]]. repeat split; auto; [lia|].
      intros t Ht. apply covered_cons_iff in Ht as [Ht|Ht]; [simpl in Ht; right; lia | apply I3, Ht].
Qed.

Lemma add_go_norm x y : x <= y -> forall l lo, norm lo l ->
  norm (Z.min lo (x - 1)) (add_go x y l)
  /\ forall t, (x <= t <= y \/ covered l t = true) -> covered (add_go x y l) t = true.
Proof.
  intro Hxy. induction l as [|[a b] r IH]; intros lo Hn; cbn [add_go].
  - split; [cbn [norm]; lia|]. intros t H. apply covered_cons_iff. exact H.
  - destruct Hn as [H1 [H2 H3]].
    destruct (Z.ltb_spec b (x - 1)) as [E1|E1]; [|destruct (Z.gtb_spec a (y + 1)) as [E2|E2]].
    + destruct (IH _ H3) as [I1 I2]. rewrite Z.min_l in I1 by lia. split.
      * cbn [norm]. repeat split; [lia | exact H2 | exact I1].
      * intros t H. apply covered_cons_iff.
        destruct H as [H|H]; [right; apply I2; left; exact H|].
        apply covered_cons_iff in H as [H|H]; [left; exact H | right; apply I2; right; exact H].
    + split; [cbn [norm]; repeat split; auto; lia|]. intros t H. apply covered_cons_iff. exact H.
    + destruct (absorb y b r) as [hi rest] eqn:Ea.
      destruct (absorb_norm y r b hi rest H3 Ea) as [A1 [A2 A3]]. split.
      * cbn [norm]. repeat split; [lia | lia | exact A2].
      * intros t H. apply covered_cons_iff. simpl.
        destruct H as [H|H]; [left; lia|]. apply covered_cons_iff in H as [H|H]; [simpl in H; left; lia|].
        pose proof (norm_lb r (b + 1) t H3 H). destruct (A3 t H); [right; assumption | left; lia].
Qed.

(* on sorted lists Add computes the union *)
Lemma add_iv_norm i l : valid i -> normalized l ->
  normalized (add_iv i l)
  /\ forall t, covered (add_iv i l) t = (inb i t || covered l t).
Proof.
  intros Hv [lo Hn]. unfold add_iv. destruct (add_go_norm (fst i) (snd i) Hv l lo Hn) as [N1 N2]. split.
  - eexists. exact N1.
  - intro t. apply eq_true_iff_eq. rewrite orb_true_iff, inb_iff. split; [apply add_go_sound | apply N2].
Qed.

Lemma fold_add_norm ivs : forall acc,
  Forall valid ivs -> normalized acc ->
  normalized (fold_left (fun a i => add_iv i a) ivs acc)
  /\ forall t, covered (fold_left (fun a i => add_iv i a) ivs acc) t = (covered ivs t || covered acc t).
Proof.
  induction ivs as [|i ivs IH]; intros acc Hv Hn; simpl.
  - split; [exact Hn | reflexivity].
  - inversion Hv; subst. destruct (add_iv_norm i acc H1 Hn) as [N1 N2].
    destruct (IH _ H2 N1) as [I1 I2]. split; [exact I1|].
    intro t. rewrite I2, N2. unfold covered at 3. simpl. rewrite orb_assoc. f_equal. apply orb_comm.
Qed.

Definition reqs_ok (reqs : list request) : Prop := Forall (fun r => Forall valid (snd r)) reqs.

Lemma del_loop_norm re reqs ls : forall acc ivs,
  reqs_ok reqs -> normalized acc -> del_loop re reqs ls acc = Some ivs ->
  normalized ivs
  /\ forall t, covered ivs t = (covered acc t || covered (spec_intervals re reqs ls) t).
Proof.
  unfold spec_intervals, applying.
  induction reqs as [|[ms ivs0] reqs IH]; intros acc ivs Hok Hn H; simpl in H.
  - injection H as <-. split; [exact Hn|]. intro t. simpl. rewrite orb_false_r. reflexivity.
  - inversion Hok as [|? ? Hv Hok']; subst. simpl in Hv. simpl.
    destruct (req_applies re ms ls); simpl; [|exact (IH _ _ Hok' Hn H)].
    destruct ivs0 as [|i0 ivs0]; [discriminate|].
    destruct (fold_add_norm (i0 :: ivs0) acc Hv Hn) as [N1 N2].
    destruct (IH _ _ Hok' N1 H) as [I1 I2]. split; [exact I1|].
    intro t. rewrite I2, N2, covered_app, orb_assoc. f_equal. apply orb_comm.
Qed.

Lemma buf_norm mn mx ivs :
  normalized ivs ->
  normalized (buf_intervals mn mx ivs)
  /\ forall t, mn <= t <= mx -> covered (buf_intervals mn mx ivs) t = covered ivs t.
Proof.
  intros [lo Hn]. rewrite buf_as_filter.
  assert (Hv : Forall valid (filter (overlaps mn mx) ivs)).
  { apply (incl_Forall (incl_filter _ _)), (norm_valid _ lo Hn). }
  destruct (fold_add_norm _ [] Hv (ex_intro _ 0 I)) as [N1 N2]. split; [exact N1|].
  intros t Ht. rewrite N2. change (covered [] t) with false. rewrite orb_false_r.
  apply eq_true_iff_eq. rewrite !covered_iff.
  split; intros [i [Hi Hb]]; exists i; (split; [|exact Hb]).
  - apply filter_In in Hi. tauto.
  - apply filter_In. split; [exact Hi|]. unfold overlaps. apply andb_true_iff. split; apply Z.leb_le; lia.
Qed.

Lemma di_sample_spec ivs : forall lo ts keep ivs',
  norm lo ivs -> di_sample ivs ts = (keep, ivs') ->
  keep = negb (covered ivs ts)
  /\ normalized ivs'
  /\ forall t', ts <= t' -> covered ivs' t' = covered ivs t'.
Proof.
  induction ivs as [|[a b] rest IH]; intros lo ts keep ivs' Hn H; simpl in H.
  - injection H as <- <-. repeat split; auto. exists 0. exact I.
  - assert (Hn' := Hn). destruct Hn' as [H1 [H2 H3]]. rewrite covered_cons.
    destruct (inb (a, b) ts) eqn:E; [|cbn [snd] in H; destruct (Z.leb_spec ts b) as [E2|E2]].
    + injection H as <- <-. repeat split; auto. exists lo. exact Hn.
    + injection H as <- <-.
      destruct (covered rest ts) eqn:Ec; [pose proof (norm_lb rest (b + 1) ts H3 Ec); lia|].
      repeat split; auto. exists lo. exact Hn.
    + (* past this interval: it covers no later timestamp either *)
      destruct (IH _ _ _ _ H3 H) as [I1 [I2 I3]]. repeat split; auto.
      intros t' Ht'. rewrite covered_cons, I3 by exact Ht'.
      replace (inb (a, b) t') with false; [reflexivity|].
      symmetry. apply andb_false_iff. right. apply Z.leb_gt. simpl. lia.
Qed.

Lemma di_spec c : forall ivs,
  normalized ivs -> StronglySorted (fun a b : sample => fst a < fst b) c ->
  di ivs c = filter (fun s => negb (covered ivs (fst s))) c.
Proof.
  induction c as [|s r IH]; intros ivs [lo Hn] Hs; [reflexivity|].
  inversion Hs as [|? ? Hs' Hall]; subst. cbn [di filter].
  destruct (di_sample ivs (fst s)) as [keep ivs'] eqn:E.
  destruct (di_sample_spec ivs lo (fst s) keep ivs' Hn E) as [-> [D2 D3]].
  rewrite (IH ivs' D2 Hs'). rewrite Forall_forall in Hall.
  rewrite (filter_ext_in _ (fun s0 => negb (covered ivs (fst s0)))); [reflexivity|].
  intros s0 Hs0. rewrite D3; [reflexivity|]. specialize (Hall s0 Hs0). lia.
Qed.

Definition not_covered (ivs : list interval) (sm : sample) : bool := negb (covered ivs (fst sm)).

Lemma kept_spec ivs c :
  chunk_ok c -> normalized ivs -> kept (chunk_step ivs c) = filter (not_covered ivs) c.
Proof.
  intros Hok Hn. pose proof (chunk_bounds c Hok) as Hb. rewrite kept_chunk_step.
  destruct (is_subrange _ _ ivs) eqn:Es.
  - symmetry. apply filter_none. intros s Hs. unfold not_covered.
    rewrite (is_subrange_covers _ _ _ _ Es (Hb s Hs)). reflexivity.
  - destruct (buf_norm (cmin c) (cmax c) ivs Hn) as [B1 B2].
    destruct (buf_intervals _ _ ivs) as [|b0 buf].
    + symmetry. apply filter_all. intros s Hs. unfold not_covered.
      rewrite <- (B2 (fst s) (Hb s Hs)). reflexivity.
    + rewrite (di_spec c _ B1 (proj2 Hok)). apply filter_ext_in.
      intros s Hs. unfold not_covered. rewrite (B2 (fst s) (Hb s Hs)). reflexivity.
Qed.

Lemma series_chunks_spec ivs cs :
  Forall chunk_ok cs -> normalized ivs ->
  concat (map snd (series_chunks ivs cs)) = filter (not_covered ivs) (concat cs).
Proof.
  intros Hcs Hn. rewrite series_chunks_kept, <- concat_filter_map. f_equal.
  apply map_ext_in. intros c Hc. rewrite Forall_forall in Hcs. apply kept_spec; auto.
Qed.

Lemma series_rewritten re reqs s ivs :
  series_ok s -> reqs_ok reqs -> del_loop re reqs (fst s) [] = Some ivs ->
  concat (map snd (series_chunks ivs (snd s))) = spec_samples re reqs s
  /\ forallb ochunk_wf (series_chunks ivs (snd s)) = true.
Proof.
  intros Hs Hr E.
  destruct (del_loop_norm re reqs (fst s) [] ivs Hr (ex_intro _ 0 I) E) as [N1 N2].
  split; [|apply series_chunks_wf; exact (Forall_impl _ (fun c H => proj1 H) Hs)].
  rewrite (series_chunks_spec ivs (snd s) Hs N1). apply filter_ext. intro sm. unfold not_covered. rewrite N2. reflexivity.
Qed.

Lemma labels_eqb_refl ls : labels_eqb ls ls = true.
Proof. apply list_eqb_refl. intros [a b]. unfold label_eqb. simpl. rewrite !str_eqb_refl. reflexivity. Qed.

Lemma samples_eqb_refl l : list_eqb sample_eqb l l = true.
Proof. apply list_eqb_refl. intros [a b]. unfold sample_eqb. simpl. rewrite !Z.eqb_refl. reflexivity. Qed.

Lemma rewrite_cons re reqs s ss :
  rewrite re reqs (s :: ss)
  = match del_loop re reqs (fst s) [] with
    | None => []
    | Some ivs => [(fst s, series_chunks ivs (snd s))]
    end ++ rewrite re reqs ss.
Proof. reflexivity. Qed.

Lemma rewrite_exact re reqs ss :
  Forall series_ok ss -> reqs_ok reqs -> exact re reqs ss (rewrite re reqs ss) = true.
Proof.
  intros Hss Hr. induction Hss as [|s ss Hs Hss IH]; [reflexivity|].
  rewrite rewrite_cons. cbn [exact].
  destruct (whole_deleted re reqs (fst s)) eqn:W.
  - apply (del_loop_none re reqs (fst s) []) in W. rewrite W. exact IH.
  - destruct (del_loop re reqs (fst s) []) as [ivs|] eqn:E; [|apply del_loop_none in E; congruence].
    destruct (series_rewritten re reqs s ivs Hs Hr E) as [S1 S2].
    cbn [app fst snd]. rewrite labels_eqb_refl, S1, samples_eqb_refl, S2, IH. reflexivity.
Qed.

(* In the block read back from disk series without chunks are not written; an
   output series has no chunks iff it has no samples, since every chunk written
   is non-empty. *)
Lemma exact_block_of_exact re reqs : forall ss out,
  exact re reqs ss out = true -> exact_block re reqs ss (filter has_chunks out) = true.
Proof.
  induction ss as [|s ss IH]; intro out; cbn [exact exact_block].
  - destruct out; [reflexivity | discriminate].
  - destruct (whole_deleted re reqs (fst s)); [apply IH|].
    destruct out as [|[ls ocs] out]; [discriminate|]. cbn [fst snd]. intro H.
    apply andb_true_iff in H as [H He]. apply andb_true_iff in H as [H Hwf]. apply andb_true_iff in H as [Hl Hsm].
    apply IH in He.
    destruct ocs as [|[[mn mx] [|sm c]] ocs]; [| discriminate |]; cbn [filter has_chunks snd].
    + destruct (spec_samples re reqs s); [exact He | discriminate].
    + destruct (spec_samples re reqs s); [discriminate|].
      cbn [fst snd]. rewrite Hl, Hsm, Hwf, He. reflexivity.
Qed.

Lemma rewrite_exact_block re reqs ss :
  Forall series_ok ss -> reqs_ok reqs ->
  exact_block re reqs ss (filter has_chunks (rewrite re reqs ss)) = true.
Proof. intros Hss Hr. apply exact_block_of_exact, rewrite_exact; assumption. Qed.

(* C10 — postingGroup.mergeKeys: the merged group denotes the intersection. *)
From Coq Require Import ZArith NArith List Bool Lia Sorted.
Import ListNotations.
From Verif Require Import Lib.Corr Lib.Storegw_Str Gen.C10 Model.C10 Proofs.C10.
Open Scope Z_scope.

Definition ssorted (l : list str) : Prop := StronglySorted str_lt l.

Lemma ltb_false_eq x y : str_ltb x y = false -> str_ltb y x = false -> x = y.
Proof.
  intros H1 H2. apply str_ltb_false_le in H1. apply str_ltb_false_le in H2.
  destruct (str_le_cases _ _ H1) as [E|L]; [auto|]. exfalso. apply str_le_not_gt in H2. contradiction.
Qed.

Lemma smem_below x l : ssorted l -> (forall y, hd_error l = Some y -> str_lt x y) -> smem x l = false.
Proof.
  intros Hs Hh. destruct l as [|y l]; [reflexivity|].
  specialize (Hh y eq_refl). destruct (smem x (y :: l)) eqn:E; [|reflexivity].
  apply smem_in in E. exfalso. destruct E as [E|E].
  - subst. eapply str_lt_irrefl; eauto.
  - inversion Hs as [|? ? _ Hf]; subst. rewrite Forall_forall in Hf. specialize (Hf x E).
    eapply str_lt_irrefl. eapply str_lt_trans; eauto.
Qed.

Lemma ssorted_tail x l : ssorted (x :: l) -> ssorted l.
Proof. intro H. inversion H; assumption. Qed.

Lemma ssorted_head_lt x l v : ssorted (x :: l) -> smem v l = true -> str_lt x v.
Proof. intros H Hv. apply smem_in in Hv. inversion H as [|? ? _ Hf]; subst. rewrite Forall_forall in Hf. auto. Qed.

Lemma str_eqb_lt_false x y : str_lt x y -> str_eqb x y = false.
Proof. intro H. apply str_eqb_false_ne. apply str_lt_not_eq. exact H. Qed.

Lemma str_eqb_gt_false x y : str_lt y x -> str_eqb x y = false.
Proof. intro H. apply str_eqb_false_ne. intro E. subst. eapply str_lt_irrefl; eauto. Qed.

Lemma s_union_mem v : forall fuel a b, (length a + length b < fuel)%nat ->
  smem v (s_union fuel a b) = smem v a || smem v b.
Proof.
  induction fuel as [|f IH]; intros a b Hf; [lia|].
  destruct a as [|x a']; [reflexivity|]. destruct b as [|y b']; [simpl; rewrite orb_false_r; reflexivity|].
  cbn [s_union]. destruct (str_ltb x y) eqn:E1.
  - cbn [smem]. rewrite IH by (simpl in *; lia). cbn [smem]. rewrite orb_assoc. reflexivity.
  - destruct (str_ltb y x) eqn:E2.
    + cbn [smem]. rewrite IH by (simpl in *; lia). cbn [smem].
      destruct (str_eqb v y), (str_eqb v x), (smem v a'), (smem v b'); reflexivity.
    + assert (x = y) by (apply ltb_false_eq; assumption). subst y.
      cbn [smem]. rewrite IH by (simpl in *; lia).
      destruct (str_eqb v x), (smem v a'), (smem v b'); reflexivity.
Qed.

Lemma s_union_sub z : forall fuel a b, In z (s_union fuel a b) -> In z a \/ In z b.
Proof.
  induction fuel as [|f IH]; intros a b H; [contradiction|].
  destruct a as [|x a']; [right; exact H|]. destruct b as [|y b']; [left; exact H|].
  cbn [s_union] in H. destruct (str_ltb x y).
  - destruct H as [<-|H]; [left; left; reflexivity|]. destruct (IH _ _ H) as [H1|H1]; [left; right; exact H1|right; exact H1].
  - destruct (str_ltb y x).
    + destruct H as [<-|H]; [right; left; reflexivity|]. destruct (IH _ _ H) as [H1|H1]; [left; exact H1|right; right; exact H1].
    + destruct H as [<-|H]; [left; left; reflexivity|]. destruct (IH _ _ H) as [H1|H1]; [left; right; exact H1|right; right; exact H1].
Qed.

Lemma Forall_lt_trans x y (l : list str) : str_lt x y -> Forall (str_lt y) l -> Forall (str_lt x) l.
Proof. intros H. apply Forall_impl. intros z Hz. eapply str_lt_trans; eauto. Qed.

Lemma s_union_sorted : forall fuel a b, ssorted a -> ssorted b -> ssorted (s_union fuel a b).
Proof.
  induction fuel as [|f IH]; intros a b Ha Hb; [constructor|].
  destruct a as [|x a']; [exact Hb|]. destruct b as [|y b']; [exact Ha|].
  cbn [s_union].
  inversion Ha as [|? ? Ha' Hxa]; subst. inversion Hb as [|? ? Hb' Hyb]; subst.
  destruct (str_ltb x y) eqn:E1.
  - apply str_ltb_lt in E1. constructor; [apply IH; assumption|].
    apply Forall_forall. intros z Hz. apply s_union_sub in Hz. destruct Hz as [Hz|[<-|Hz]].
    + rewrite Forall_forall in Hxa. auto.
    + exact E1.
    + rewrite Forall_forall in Hyb. eapply str_lt_trans; [exact E1|auto].
  - destruct (str_ltb y x) eqn:E2.
    + apply str_ltb_lt in E2. constructor; [apply IH; assumption|].
      apply Forall_forall. intros z Hz. apply s_union_sub in Hz. destruct Hz as [[<-|Hz]|Hz].
      * exact E2.
      * rewrite Forall_forall in Hxa. eapply str_lt_trans; [exact E2|auto].
      * rewrite Forall_forall in Hyb. auto.
    + assert (x = y) by (apply ltb_false_eq; assumption). subst y.
      constructor; [apply IH; assumption|].
      apply Forall_forall. intros z Hz. apply s_union_sub in Hz. destruct Hz as [Hz|Hz].
      * rewrite Forall_forall in Hxa. auto.
      * rewrite Forall_forall in Hyb. auto.
Qed.

Lemma s_minus_mem v : forall fuel a b, (length a + length b < fuel)%nat -> ssorted a -> ssorted b ->
  smem v (s_minus fuel a b) = smem v a && negb (smem v b).
Proof.
  induction fuel as [|f IH]; intros a b Hf Ha Hb; [lia|].
  destruct a as [|x a']; [reflexivity|]. destruct b as [|y b']; [simpl; rewrite andb_true_r; reflexivity|].
  cbn [s_minus]. pose proof (ssorted_tail _ _ Ha) as Ha'. pose proof (ssorted_tail _ _ Hb) as Hb'.
  destruct (str_ltb x y) eqn:E1.
  - apply str_ltb_lt in E1. cbn [smem]. rewrite IH by (simpl in *; lia || assumption). cbn [smem].
    destruct (str_eqb v x) eqn:Ev; [|reflexivity].
    apply str_eqb_eq in Ev. subst v. cbn [orb andb].
    rewrite (str_eqb_lt_false _ _ E1). cbn [orb].
    rewrite (smem_below x b' Hb'); [reflexivity|].
    intros z Hz. destruct b' as [|z' b'']; [discriminate|]. inversion Hz; subst.
    eapply str_lt_trans; [exact E1|]. eapply ssorted_head_lt; [exact Hb|]. simpl. rewrite str_eqb_refl. reflexivity.
  - destruct (str_ltb y x) eqn:E2.
    + apply str_ltb_lt in E2. rewrite IH by (simpl in *; lia || assumption). cbn [smem].
      destruct (str_eqb v y) eqn:Ev; [|reflexivity].
      apply str_eqb_eq in Ev. subst v. cbn [orb negb]. rewrite andb_false_r.
      rewrite (str_eqb_lt_false _ _ E2). cbn [orb].
      rewrite (smem_below y a' Ha'); [reflexivity|].
      intros z Hz. destruct a' as [|z' a'']; [discriminate|]. inversion Hz; subst.
      eapply str_lt_trans; [exact E2|]. eapply ssorted_head_lt; [exact Ha|]. simpl. rewrite str_eqb_refl. reflexivity.
    + assert (x = y) by (apply ltb_false_eq; assumption). subst y.
      rewrite IH by (simpl in *; lia || assumption). cbn [smem].
      destruct (str_eqb v x) eqn:Ev; [|reflexivity].
      apply str_eqb_eq in Ev. subst v. cbn [orb negb andb].
      rewrite (smem_below x a' Ha'); [reflexivity|].
      intros z Hz. destruct a' as [|z' a'']; [discriminate|]. inversion Hz; subst.
      eapply ssorted_head_lt; [exact Ha|]. simpl. rewrite str_eqb_refl. reflexivity.
Qed.

Lemma s_minus_sub z : forall fuel a b, In z (s_minus fuel a b) -> In z a.
Proof.
  induction fuel as [|f IH]; intros a b H; [contradiction|].
  destruct a as [|x a']; [contradiction|]. destruct b as [|y b']; [exact H|].
  cbn [s_minus] in H. destruct (str_ltb x y).
  - destruct H as [<-|H]; [left; reflexivity|right; eapply IH; eauto].
  - destruct (str_ltb y x); [eapply IH; eauto|right; eapply IH; eauto].
Qed.

Lemma s_minus_sorted : forall fuel a b, ssorted a -> ssorted (s_minus fuel a b).
Proof.
  induction fuel as [|f IH]; intros a b Ha; [constructor|].
  destruct a as [|x a']; [constructor|]. destruct b as [|y b']; [exact Ha|].
  cbn [s_minus]. inversion Ha as [|? ? Ha' Hxa]; subst.
  destruct (str_ltb x y).
  - constructor; [apply IH; assumption|]. apply Forall_forall. intros z Hz. apply s_minus_sub in Hz.
    rewrite Forall_forall in Hxa. auto.
  - destruct (str_ltb y x); apply IH; assumption.
Qed.

Lemma s_inter_mem v : forall fuel a b, (length a + length b < fuel)%nat -> ssorted a -> ssorted b ->
  smem v (s_inter fuel a b) = smem v a && smem v b.
Proof.
  induction fuel as [|f IH]; intros a b Hf Ha Hb; [lia|].
  destruct a as [|x a']; [reflexivity|]. destruct b as [|y b']; [simpl; rewrite andb_false_r; reflexivity|].
  cbn [s_inter]. pose proof (ssorted_tail _ _ Ha) as Ha'. pose proof (ssorted_tail _ _ Hb) as Hb'.
  destruct (str_eqb x y) eqn:E0.
  - apply str_eqb_eq in E0. subst y. cbn [smem]. rewrite IH by (simpl in *; lia || assumption).
    destruct (str_eqb v x) eqn:Ev; [reflexivity|]. reflexivity.
  - destruct (str_ltb x y) eqn:E1.
    + apply str_ltb_lt in E1. rewrite IH by (simpl in *; lia || assumption). cbn [smem].
      destruct (str_eqb v x) eqn:Ev; [|reflexivity].
      apply str_eqb_eq in Ev. subst v. cbn [orb]. rewrite (str_eqb_lt_false _ _ E1). cbn [orb].
      rewrite (smem_below x b' Hb'); [rewrite !andb_false_r; reflexivity|].
      intros z Hz. destruct b' as [|z' b'']; [discriminate|]. inversion Hz; subst.
      eapply str_lt_trans; [exact E1|]. eapply ssorted_head_lt; [exact Hb|]. simpl. rewrite str_eqb_refl. reflexivity.
    + assert (E2 : str_lt y x).
      { apply str_ltb_false_le in E1. destruct (str_le_cases _ _ E1) as [E|L]; [|exact L].
        subst. rewrite str_eqb_refl in E0. discriminate. }
      rewrite IH by (simpl in *; lia || assumption). cbn [smem].
      destruct (str_eqb v y) eqn:Ev; [|reflexivity].
      apply str_eqb_eq in Ev. subst v. cbn [orb]. rewrite (str_eqb_lt_false _ _ E2). cbn [orb].
      rewrite (smem_below y a' Ha'); [reflexivity|].
      intros z Hz. destruct a' as [|z' a'']; [discriminate|]. inversion Hz; subst.
      eapply str_lt_trans; [exact E2|]. eapply ssorted_head_lt; [exact Ha|]. simpl. rewrite str_eqb_refl. reflexivity.
Qed.

Lemma s_inter_sub z : forall fuel a b, In z (s_inter fuel a b) -> In z a.
Proof.
  induction fuel as [|f IH]; intros a b H; [contradiction|].
  destruct a as [|x a']; [contradiction|]. destruct b as [|y b']; [contradiction|].
  cbn [s_inter] in H. destruct (str_eqb x y).
  - destruct H as [<-|H]; [left; reflexivity|right; eapply IH; eauto].
  - destruct (str_ltb x y); [right; eapply IH; eauto|eapply IH; eauto].
Qed.

Lemma s_inter_sorted : forall fuel a b, ssorted a -> ssorted (s_inter fuel a b).
Proof.
  induction fuel as [|f IH]; intros a b Ha; [constructor|].
  destruct a as [|x a']; [constructor|]. destruct b as [|y b']; [constructor|].
  cbn [s_inter]. inversion Ha as [|? ? Ha' Hxa]; subst.
  destruct (str_eqb x y).
  - constructor; [apply IH; assumption|]. apply Forall_forall. intros z Hz. apply s_inter_sub in Hz.
    rewrite Forall_forall in Hxa. auto.
  - destruct (str_ltb x y); apply IH; assumption.
Qed.

(* well-formed group: strictly sorted keys; add-all groups have no add keys, others no remove keys *)
Definition wf_group (g : group) : Prop :=
  ssorted (g_add g) /\ ssorted (g_rem g) /\ (g_all g = true -> g_add g = []) /\ (g_all g = false -> g_rem g = []).

Lemma merge_keys_sem a b v : wf_group a -> wf_group b ->
  in_group (merge_keys a b) v = in_group a v && in_group b v.
Proof.
  intros (A1 & A2 & A3 & A4) (B1 & B2 & B3 & B4). unfold merge_keys, in_group.
  destruct (g_all a) eqn:Ea, (g_all b) eqn:Eb; cbn [andb orb].
  - destruct (is_nil (g_rem a)) eqn:Na.
    + apply is_nil_true in Na. cbn [g_all g_rem]. rewrite Na. reflexivity.
    + destruct (is_nil (g_rem b)) eqn:Nb.
      * apply is_nil_true in Nb. rewrite Ea, Nb. cbn [smem negb]. rewrite andb_true_r. reflexivity.
      * cbn [g_all g_rem]. rewrite s_union_mem by (unfold fuel2; lia). apply negb_orb.
  - cbn [g_all g_add]. rewrite s_minus_mem by (unfold fuel2; lia || assumption). apply andb_comm.
  - cbn [g_all g_add]. rewrite s_minus_mem by (unfold fuel2; lia || assumption). reflexivity.
  - cbn [g_all g_add]. rewrite s_inter_mem by (unfold fuel2; lia || assumption). reflexivity.
Qed.

Lemma merge_keys_wf a b : wf_group a -> wf_group b -> wf_group (merge_keys a b).
Proof.
  intros (A1 & A2 & A3 & A4) (B1 & B2 & B3 & B4). unfold merge_keys, wf_group.
  destruct (g_all a) eqn:Ea, (g_all b) eqn:Eb; cbn [andb orb].
  - destruct (is_nil (g_rem a)) eqn:Na.
    + cbn [g_all g_add g_rem]. repeat split; auto; try discriminate.
    + destruct (is_nil (g_rem b)) eqn:Nb.
      * rewrite Ea. repeat split; auto.
      * cbn [g_all g_add g_rem]. repeat split; auto; try discriminate. apply s_union_sorted; assumption.
  - cbn [g_all g_add g_rem]. repeat split; try discriminate; try constructor; auto. apply s_minus_sorted; assumption.
  - cbn [g_all g_add g_rem]. repeat split; try discriminate; try constructor; auto. apply s_minus_sorted; assumption.
  - cbn [g_all g_add g_rem]. repeat split; try discriminate; auto. apply s_inter_sorted; assumption.
Qed.

(* C33 — lemmas about Model/C33.v, in its three parts: the trace of reads (a failing
   read empties the iteration), the scanner over source-order events (what a successful
   scan says at a mutating call), and the structured sync (a performed read that fails
   makes SyncMetas fail; a view that is produced is complete; agreement with the trace). *)
From Coq Require Import ZArith List Bool String.
Import ListNotations.
From Verif Require Import Lib.Corr Gen.C33 Model.C33.

(* a failing read anywhere in the sync makes the sync fail, and the iteration empty *)
Lemma failing_read_no_writes {op} pre r post (work : list op) :
  read_fails r = true -> iteration (pre ++ r :: post) work = [].
Proof.
  intros H. unfold iteration, sync_error. rewrite existsb_app. simpl. now rewrite H, orb_true_r.
Qed.

Lemma no_writes_on_failed_sync {op} pre k post (work : list op) :
  iteration (pre ++ (k, Transient) :: post) work = [].
Proof. now apply failing_read_no_writes. Qed.

Lemma no_writes_on_bad_version {op} pre k post (work : list op) :
  iteration (pre ++ (k, BadVersion) :: post) work = [].
Proof. now apply failing_read_no_writes. Qed.

Definition benign (r : read) : Prop := snd r = Found \/ snd r = NotFound \/ snd r = Corrupt.

Lemma sync_ok_iff reads : sync_error reads = false <-> Forall benign reads.
Proof.
  unfold sync_error. induction reads as [|r l IH]; simpl.
  - split; auto.
  - rewrite orb_false_iff, IH. split.
    + intros [Hr Hl]. constructor; auto. unfold read_fails in Hr. unfold benign. destruct (snd r); auto; discriminate.
    + intros H. inversion H; subst. split; auto. unfold read_fails. destruct H2 as [->|[->| ->]]; reflexivity.
Qed.

Lemma complete_view_runs_work {op} reads (work : list op) :
  Forall benign reads -> iteration reads work = work.
Proof. intros H. unfold iteration. apply sync_ok_iff in H. now rewrite H. Qed.

Lemma partial_view_never_planned {op} reads (work : list op) o :
  In o (iteration reads work) -> Forall benign reads /\ In o work.
Proof.
  unfold iteration. destruct (sync_error reads) eqn:E; [intros []|].
  intros H. split; auto. now apply sync_ok_iff.
Qed.

(* the predicate of the check holds of the model's iteration *)
Lemma model_pred reads n : existsb is_transient reads = true ->
  List.length (iteration reads (repeat tt n)) = 0%nat.
Proof.
  intros H. apply existsb_exists in H. destruct H as (r & Hin & Hr).
  apply in_split in Hin. destruct Hin as (pre & post & ->).
  rewrite failing_read_no_writes; [reflexivity|].
  unfold is_transient in Hr. unfold read_fails. destruct (snd r); auto; discriminate.
Qed.

Lemma scan_app syncs muts s a b :
  scan syncs muts s (a ++ b) = match scan syncs muts s a with Some s' => scan syncs muts s' b | None => None end.
Proof.
  revert s. induction a as [|e a IH]; intros s; simpl; auto.
  destruct (step syncs muts s e); auto.
Qed.

(* soundness of the scanner at the point of use: if the scan of an event list
   succeeds, then at every mutating call outside function literals the state
   reached says "a sync whose error was checked and returned has completed on
   this path" *)
Lemma scan_mutation_synced syncs muts pre m post s1 :
  scan syncs muts st0 (pre ++ ("call"%string, m) :: post) <> None ->
  scan syncs muts st0 pre = Some s1 -> depth s1 = 0%nat ->
  mem_str m syncs = false -> mem_str m muts = true ->
  exists l, synced s1 = Some l.
Proof.
  intros H Hpre Hd Hs Hm. rewrite scan_app, Hpre in H. simpl in H.
  unfold step in H. cbn [fst snd] in H.
  assert (E1 : opens_lit ("call"%string, m) = false) by reflexivity.
  assert (E2 : closes_lit ("call"%string, m) = false) by reflexivity.
  rewrite E1, E2, Hd in H. simpl in H. rewrite Hs, Hm in H.
  destruct (synced s1); eauto. congruence.
Qed.

Lemma order_facts : order_facts_ok = true.
Proof. vm_compute. reflexivity. Qed.

Open Scope Z_scope.

Lemma existsb_map_ext {A B} (p : B -> bool) (g : A -> B) (q : A -> bool) l :
  (forall x, p (g x) = q x) -> existsb p (map g l) = existsb q l.
Proof. intros H. induction l as [|a l IH]; simpl; [reflexivity|]. now rewrite H, IH. Qed.

Lemma existsb_none {A} (p : A -> bool) l : (forall x, In x l -> p x = false) -> existsb p l = false.
Proof. induction l as [|a l IH]; simpl; intros H; auto. rewrite (H a), IH; auto. Qed.

Lemma eqb_andb i j q : (i =? j) && q = true -> i = j /\ q = true.
Proof. intros H. apply andb_true_iff in H. destruct H as [H Hq]. apply Z.eqb_eq in H. auto. Qed.

Lemma meta_faulted_err f x : has_meta x = true -> meta_faulted f x = true -> meta_err f x = true.
Proof.
  intros Hm Hf. unfold meta_err, meta_result, has_meta in *. rewrite Hf. destruct (smeta x); simpl; auto; discriminate.
Qed.

Lemma loaded_not_faulted f x : loaded f x = true -> smeta x = MOk /\ meta_faulted f x = false.
Proof.
  unfold loaded, meta_result. destruct (smeta x); simpl; try discriminate.
  destruct (meta_faulted f x); simpl; [discriminate|auto].
  destruct (meta_faulted f x); simpl; discriminate.
Qed.

Lemma del_open_fault_err f x : f (RDel (sid x)) = true -> del_err f x = true.
Proof.
  intros Hf. unfold del_err, del_result, del_faulted. rewrite Hf. destruct (sdel x); reflexivity.
Qed.

Lemma del_body_fault_err f x : has_del x = true -> f (RDelBody (sid x)) = true -> del_err f x = true.
Proof.
  intros Hd Hf. unfold del_err, del_result, del_faulted, has_del in *. rewrite Hf, orb_true_r.
  destruct (sdel x); try reflexivity; discriminate.
Qed.

Lemma noc_open_fault_err f x : f (RNoc (sid x)) = true -> noc_err f x = true.
Proof.
  intros Hf. unfold noc_err, noc_result, noc_faulted. rewrite Hf. destruct (snoc x); reflexivity.
Qed.

Lemma noc_body_fault_err f x : has_noc x = true -> f (RNocBody (sid x)) = true -> noc_err f x = true.
Proof.
  intros Hd Hf. unfold noc_err, noc_result, noc_faulted, has_noc in *. rewrite Hf, orb_true_r.
  destruct (snoc x); try reflexivity; discriminate.
Qed.

(* any performed read that fails — when it is opened or in the middle of its body —
   makes SyncMetas return an error: were all five stages of [sync] passed, the block
   the read belongs to would make its stage fail *)
Lemma sync_fails conc f b r : performed conc f b r = true -> f r = true -> sync conc f b = None.
Proof.
  intros Hp Hf. unfold sync.
  destruct (f RList) eqn:EL; auto.
  destruct (conc && existsb (fun x => f (RExists (sid x))) b) eqn:EE; auto.
  destruct (existsb (del_err f) (filter (loaded f) b)) eqn:ED; auto.
  destruct (existsb (noc_err f) (after_dedup f b)) eqn:EN; auto.
  destruct (existsb (meta_err f) b) eqn:EM; auto.
  exfalso. unfold performed, noc_read in Hp. rewrite ED in Hp.
  rewrite <- not_true_iff_false in EE, ED, EN, EM. rewrite existsb_exists in ED, EN, EM.
  destruct r as [|i|i|i|i|i|i|i]; [congruence| | | | | | |].
  1: apply andb_true_iff in Hp; destruct Hp as [-> Hp].
  all: apply existsb_exists in Hp; destruct Hp as (x & Hx & E).
  - apply Z.eqb_eq in E. subst i. apply EE, existsb_exists. eauto.
  - destruct (eqb_andb _ _ _ E) as [<- Hm]. apply EM. exists x. split; auto. apply meta_faulted_err; auto.
    unfold meta_faulted. now rewrite Hf.
  - destruct (eqb_andb _ _ _ E) as [<- Hm]. apply EM. exists x. split; auto. apply meta_faulted_err; auto.
    unfold meta_faulted. now rewrite Hf, orb_true_r.
  - destruct (eqb_andb _ _ _ E) as [<- Hl]. apply ED. exists x. rewrite filter_In. auto using del_open_fault_err.
  - apply andb_true_iff in E. destruct E as [E Hd]. destruct (eqb_andb _ _ _ E) as [<- Hl].
    apply ED. exists x. rewrite filter_In. auto using del_body_fault_err.
  - apply Z.eqb_eq in E. subst i. apply EN. eauto using noc_open_fault_err.
  - destruct (eqb_andb _ _ _ E) as [<- Hn]. apply EN. eauto using noc_body_fault_err.
Qed.

Lemma iteration2_no_writes conc cleaner old f b r work :
  performed conc f b r = true -> f r = true -> iteration2 conc cleaner old f b work = [].
Proof. intros Hp Hf. unfold iteration2. now rewrite (sync_fails conc f b r Hp Hf). Qed.

Lemma view_is_complete conc f b v :
  sync conc f b = Some v ->
  (forall r, performed conc f b r = true -> f r = false) /\
  (forall i, In i (v_metas v) ->
     exists x, In x b /\ sid x = i /\ smeta x = MOk /\ meta_faulted f x = false /\ del_hidden x = false) /\
  (forall i, In i (v_partial v) ->
     exists x, In x b /\ sid x = i /\ (smeta x = MMissing \/ (smeta x = MCorrupt /\ meta_faulted f x = false))).
Proof.
  intros H. split.
  { intros r Hp. destruct (f r) eqn:E; auto. rewrite (sync_fails conc f b r Hp E) in H. discriminate. }
  revert H. unfold sync. destruct (f RList); [discriminate|].
  destruct (conc && _); [discriminate|].
  destruct (existsb (del_err f) _); [discriminate|].
  destruct (existsb (noc_err f) _); [discriminate|].
  destruct (existsb (meta_err f) b); [discriminate|].
  intros H. inversion H; subst; clear H. simpl.
  split; intros i Hi; apply in_map_iff in Hi; destruct Hi as (x & <- & Hx); exists x.
  - unfold after_dedup in Hx. apply filter_In in Hx. destruct Hx as [Hx _].
    unfold after_del in Hx. apply filter_In in Hx. destruct Hx as [Hxb Hc].
    apply andb_true_iff in Hc. destruct Hc as [Hl Hh]. destruct (loaded_not_faulted f x Hl) as [Hm Hnf].
    repeat split; auto. now apply negb_true_iff in Hh.
  - apply filter_In in Hx. destruct Hx as [Hx Hp].
    repeat split; auto. unfold is_partial, meta_result in Hp.
    destruct (smeta x); simpl in Hp; auto; try discriminate.
    + destruct (meta_faulted f x); discriminate.
    + right. destruct (meta_faulted f x); [discriminate|auto].
Qed.

Lemma rid_eqb_refl r : rid_eqb r r = true.
Proof. destruct r; simpl; auto using Z.eqb_refl. Qed.

(* whether a read is performed is decided by reads of earlier stages, hence of another
   kind, and on those [only r] is false by computation: failing exactly that read does
   not change whether it is performed *)
Lemma performed_only conc b r : performed conc (only r) b r = performed conc no_faults b r.
Proof. destruct r; reflexivity. Qed.

Lemma read_order_performed conc b r : In r (read_order conc b) -> performed conc no_faults b r = true.
Proof.
  (* every segment of [read_order] maps over the blocks whose read of that kind is performed *)
  unfold read_order. fold no_faults. intros [<-|Hin]; [reflexivity|].
  apply in_app_or in Hin. destruct Hin as [Hin|Hin]; [destruct conc; [|contradiction]|].
  2: repeat (apply in_app_or in Hin; destruct Hin as [Hin|Hin]).
  all: apply in_map_iff in Hin; destruct Hin as (x & <- & Hx).
  all: repeat (apply filter_In in Hx; destruct Hx as [Hx ?]).
  all: simpl; apply existsb_exists; exists x; rewrite Z.eqb_refl; auto 6 using andb_true_intro.
Qed.

Lemma single_fault conc b r : In r (read_order conc b) -> sync conc (only r) b = None.
Proof.
  intros Hin. apply (sync_fails conc (only r) b r); [|apply rid_eqb_refl].
  rewrite performed_only. now apply read_order_performed.
Qed.

Lemma single_fault_no_writes conc cleaner old b r work :
  In r (read_order conc b) -> iteration2 conc cleaner old (only r) b work = [].
Proof. intros H. unfold iteration2. now rewrite (single_fault conc b r H). Qed.

Lemma outcome_fails k r bv : read_fails (k, outcome_of r bv) = is_other r.
Proof. destruct r as [[| |]|]; simpl; auto. destruct bv; reflexivity. Qed.

(* a read of the trace fails exactly when its stage of the sync reports an error *)
Lemma meta_outcome_fails f x : read_fails (KMeta, meta_outcome f x) = meta_err f x.
Proof.
  unfold meta_outcome. rewrite outcome_fails.
  unfold meta_err, meta_result, has_meta. destruct (smeta x), (meta_faulted f x); reflexivity.
Qed.

Lemma del_outcome_fails f x : read_fails (KDelMark, del_outcome f x) = del_err f x.
Proof.
  unfold del_outcome. rewrite outcome_fails. unfold del_err. destruct (del_result f x) as [[| |]|]; reflexivity.
Qed.

Lemma noc_outcome_fails f x : read_fails (KNoCompact, noc_outcome f x) = noc_err f x.
Proof.
  unfold noc_outcome. rewrite outcome_fails. unfold noc_err. destruct (noc_result f x) as [[| |]|]; reflexivity.
Qed.

Lemma trace_error conc f b :
  sync_error (trace conc f b) =
  f RList || ((conc && existsb (fun x => f (RExists (sid x))) b) || (existsb (meta_err f) b
    || (existsb (del_err f) (filter (loaded f) b) || existsb (noc_err f) (noc_read f b)))).
Proof.
  unfold sync_error, trace. cbn [existsb]. rewrite !existsb_app.
  f_equal; [destruct (f RList); reflexivity|]. f_equal; [|f_equal; [|f_equal]].
  - destruct conc; [|reflexivity]. apply existsb_map_ext. intros x.
    destruct (f (RExists (sid x))); [|destruct (has_meta x)]; reflexivity.
  - rewrite (existsb_map_ext _ _ (meta_err f)) by apply meta_outcome_fails.
    induction b as [|x b IH]; simpl; [reflexivity|].
    destruct (has_meta x) eqn:E; simpl; rewrite IH; [reflexivity|]. unfold meta_err at 2. now rewrite E.
  - apply existsb_map_ext, del_outcome_fails.
  - apply existsb_map_ext, noc_outcome_fails.
Qed.

Lemma sync_trace conc f b : is_none (sync conc f b) = sync_error (trace conc f b).
Proof.
  rewrite trace_error. unfold sync, noc_read.
  destruct (f RList); [reflexivity|]. destruct (conc && _); [reflexivity|]. simpl.
  destruct (existsb (del_err f) (filter (loaded f) b)); simpl; [now rewrite orb_true_r|].
  destruct (existsb (noc_err f) (after_dedup f b)); simpl; [now rewrite orb_true_r|].
  destruct (existsb (meta_err f) b); reflexivity.
Qed.

(* non-vacuity: without faults and without unexpected versions the sync succeeds *)
Definition well_versioned (x : bstate) : Prop :=
  smeta x <> MBadVersion /\ sdel x <> DBadVersion /\ snoc x <> NBadVersion.

Lemma well_versioned_no_err x : well_versioned x ->
  meta_err no_faults x = false /\ del_err no_faults x = false /\ noc_err no_faults x = false.
Proof.
  intros (Hm & Hd & Hn).
  unfold meta_err, meta_result, del_err, del_result, noc_err, noc_result, has_meta, no_faults. simpl.
  repeat split; [destruct (smeta x) | destruct (sdel x) | destruct (snoc x)]; auto; congruence.
Qed.

Lemma sync_succeeds conc b : Forall well_versioned b -> exists v, sync conc no_faults b = Some v.
Proof.
  intros Hw. rewrite Forall_forall in Hw. unfold sync. cbn [no_faults].
  assert (E1 : (conc && existsb (fun x => no_faults (RExists (sid x))) b) = false).
  { rewrite existsb_none; auto using andb_false_r. }
  assert (E2 : existsb (del_err no_faults) (filter (loaded no_faults) b) = false).
  { apply existsb_none. intros x Hx. apply filter_In in Hx. apply well_versioned_no_err, Hw, Hx. }
  assert (E3 : existsb (noc_err no_faults) (after_dedup no_faults b) = false).
  { apply existsb_none. intros x Hx. unfold after_dedup, after_del in Hx. rewrite !filter_In in Hx.
    apply well_versioned_no_err, Hw, Hx. }
  assert (E4 : existsb (meta_err no_faults) b = false).
  { apply existsb_none. intros x Hx. apply well_versioned_no_err, Hw, Hx. }
  rewrite E1, E2, E3, E4. eauto.
Qed.

(* C44 — soundness of sharded evaluation for the mini-PromQL of Model/C44.v
   (selectors, sum/count/min/max aggregations with by / without, one-to-one binary
   operations with on / ignoring). Every operator groups or matches samples by a label
   set that contains all labels the shard matcher hashes, so a group, or a matched pair,
   lies on one shard, and evaluating on shard i gives the samples of the full result that
   belong to shard i ([shard_commutes]). *)
From Coq Require Import ZArith NArith List Bool Lia Permutation.
Import ListNotations.
From Verif Require Import Lib.Corr Lib.ListFacts Gen.C44 Model.C44 Proofs.C44.

Lemma label_eqb_eq a b : label_eqb a b = true <-> a = b.
Proof. exact (pair_eqb_spec _ _ str_eqb_eq str_eqb_eq a b). Qed.

Lemma series_eqb_eq a b : series_eqb a b = true <-> a = b.
Proof. apply list_eqb_spec, label_eqb_eq. Qed.

Lemma series_eqb_refl a : series_eqb a a = true.
Proof. apply series_eqb_eq. reflexivity. Qed.

(* a filter that keeps everything [p] accepts does not show under [filter p], [find p], [existsb p] *)
Lemma filter_absorb {A} (p q : A -> bool) l : (forall x, p x = true -> q x = true) -> filter p (filter q l) = filter p l.
Proof.
  intro K. rewrite filter_filter. apply filter_ext. intro x.
  destruct (p x) eqn:P; [rewrite (K x P); reflexivity | apply andb_false_r].
Qed.

Lemma find_filter {A} (p q : A -> bool) l : (forall x, p x = true -> q x = true) -> find p (filter q l) = find p l.
Proof.
  intro K. induction l as [|x l IH]; [reflexivity|]. cbn [filter find]. destruct (p x) eqn:P.
  - rewrite (K x P). cbn [find]. rewrite P. reflexivity.
  - destruct (q x); [cbn [find]; rewrite P|]; exact IH.
Qed.

Lemma existsb_filter {A} (p q : A -> bool) l : (forall x, p x = true -> q x = true) -> existsb p (filter q l) = existsb p l.
Proof.
  intro K. induction l as [|x l IH]; [reflexivity|]. cbn [filter existsb]. destruct (p x) eqn:P.
  - rewrite (K x P). cbn [existsb]. rewrite P. reflexivity.
  - destruct (q x); [cbn [existsb]; rewrite P|]; exact IH.
Qed.

(* one more element goes into the one bucket that accepts it *)
Lemma concat_buckets_cons {A} (P : nat -> A -> bool) x v k l :
  NoDup l -> In k l -> P k x = true -> (forall j, j <> k -> P j x = false) ->
  Permutation (concat (map (fun i => filter (P i) (x :: v)) l)) (x :: concat (map (fun i => filter (P i) v) l)).
Proof.
  intros ND Hk Pk Pj. induction l as [|j l IH]; [destruct Hk|]. cbn [map concat filter].
  inversion ND as [|? ? Hj ND']; subst. destruct (Nat.eq_dec j k) as [->|Hjk].
  - rewrite Pk. cbn [List.app]. constructor. apply Permutation_app_head.
    erewrite map_ext_in; [reflexivity|]. intros i Hi. cbn [filter]. rewrite Pj; [reflexivity|]. intros ->. contradiction.
  - rewrite (Pj j Hjk). destruct Hk as [Hk|Hk]; [contradiction|]. rewrite (IH ND' Hk). symmetry. apply Permutation_middle.
Qed.

Lemma has_dup_NoDup (ks : list series) : has_dup ks = false <-> NoDup ks.
Proof.
  induction ks as [|k r IH]; cbn [has_dup]; [split; [constructor | reflexivity]|].
  rewrite orb_false_iff, IH, <- not_true_iff_false, existsb_exists. split.
  - intros [A B]. constructor; [|exact B]. intro K. apply A. exists k. split; [exact K | apply series_eqb_refl].
  - intro N. inversion N as [|? ? A B]; subst. split; [|exact B].
    intros (y & Hy & Ey). apply series_eqb_eq in Ey. subst. contradiction.
Qed.

Lemma has_dup_map_filter {A} (g : A -> series) (p : A -> bool) l :
  has_dup (map g l) = false -> has_dup (map g (filter p l)) = false.
Proof. rewrite !has_dup_NoDup. apply NoDup_map_filter. Qed.

Lemma has_dup_nodup_keys ks : has_dup (nodup_keys ks) = false.
Proof.
  apply has_dup_NoDup. induction ks as [|k r IH]; cbn [nodup_keys]; constructor.
  - rewrite filter_In, series_eqb_refl. intros [_ K]. discriminate K.
  - apply NoDup_filter, IH.
Qed.

Lemma nodup_keys_filter (p : series -> bool) : forall ks,
  nodup_keys (filter p ks) = filter p (nodup_keys ks).
Proof.
  induction ks as [|k r IH]; [reflexivity|]. cbn [filter nodup_keys]. destruct (p k) eqn:P.
  - cbn [nodup_keys]. rewrite IH. f_equal. apply filter_comm.
  - (* k is not among the keys that pass p *)
    rewrite IH. symmetry. apply filter_absorb. intros x Px. apply negb_true_iff, not_true_iff_false. intro E.
    apply series_eqb_eq in E. congruence.
Qed.

Lemma dedup_first_id (l : vector) : has_dup (map fst l) = false -> dedup_first l = l.
Proof.
  induction l as [|x r IH]; [reflexivity|]. cbn [map has_dup dedup_first]. intro Hd.
  apply orb_false_iff in Hd as [A B]. rewrite (IH B). f_equal. apply filter_all.
  intros y Hy. apply negb_true_iff, not_true_iff_false. intro E. rewrite <- not_true_iff_false in A. apply A.
  apply existsb_exists. exists (fst y). split; [apply in_map; exact Hy | exact E].
Qed.

(* [bin_eval] as one chain of checks, the short-circuit being the first *)
Definition is_nil {A} (l : list A) : bool := match l with [] => true | _ => false end.

Lemma bin_eval_eq op on ls vl vr :
  bin_eval op on ls vl vr =
  if is_nil vl || is_nil vr then Some []
  else if has_dup (map (bsig on ls) vr) then None
  else if has_dup (map (bsig on ls) (filter (bmatched on ls vr) vl)) then None
  else if has_dup (map fst (map (bout op on ls vr) (filter (bmatched on ls vr) vl))) then None
  else Some (map (bout op on ls vr) (filter (bmatched on ls vr) vl)).
Proof. destruct vl, vr; reflexivity. Qed.

(* the short-circuit agrees with the general formula: with an empty side nothing matches *)
Lemma bin_out_nil op on ls vl vr :
  is_nil vl || is_nil vr = true -> map (bout op on ls vr) (filter (bmatched on ls vr) vl) = [].
Proof.
  destruct vl as [|x vl]; [reflexivity|]. destruct vr; [|discriminate]. intros _.
  rewrite filter_none; reflexivity.
Qed.

Lemma drop_name_keep_true (ls : list str) (s : series) : drop_name (keep true ls s) = keep true ls s.
Proof.
  unfold drop_name, keep. rewrite filter_comm. apply filter_absorb. intros l E.
  apply andb_true_iff in E. apply E.
Qed.

Section Sound.
  Variable H : str -> N.
  Variable by_ : bool.
  Variable set : list str.
  Variable n : N.

  Definition sh (ls : series) : N := shard_of H by_ set n ls.

  Lemma in_shard_sh (i : N) (x : sample) : in_shard H by_ set n i x = N.eqb (sh (fst x)) i.
  Proof. reflexivity. Qed.

  (* dropping labels the matcher does not hash leaves the shard unchanged *)
  Lemma sh_filter (q : label -> bool) (ls : series) :
    (forall l, selected by_ set (fst l) = true -> q l = true) -> sh (filter q ls) = sh ls.
  Proof. intro K. apply same_projection_same_shard, filter_absorb, K. Qed.

  Lemma keep_shard (wo : bool) (g : list str) (ls : series) :
    (if by_ then (if wo then disjoint set (s_name :: g) else subset set g)
     else wo && subset (s_name :: g) set) = true ->
    sh (keep wo g ls) = sh ls.
  Proof.
    intro C. unfold keep. destruct wo; apply sh_filter; intros [nm v]; cbn [fst]; unfold selected; intro M.
    - (* without (g) drops g and the name: no sharding label is among them *)
      assert (K : ~ In nm (s_name :: g)).
      { destruct by_.
        + apply mem_in in M. rewrite disjoint_spec in C. exact (C nm M).
        + apply negb_true_iff, mem_false in M. cbn [andb] in C. rewrite subset_spec in C. intro K. exact (M (C nm K)). }
      apply not_in_cons in K as [K1 K2]. apply mem_false in K2. rewrite K2.
      apply negb_true_iff, not_true_iff_false. rewrite str_eqb_eq. exact K1.
    - (* by (g) keeps g: every sharding label is in it *)
      destruct by_; [|discriminate C]. apply mem_in in M. rewrite subset_spec in C. apply mem_in, C, M.
  Qed.

  Lemma drop_name_shard_by (s : series) : by_ = true -> mem s_name set = false -> sh (drop_name s) = sh s.
  Proof.
    intros Hb Hn. apply sh_filter. intros [nm v]. cbn [fst]. rewrite Hb. cbn [selected]. intro M.
    apply negb_true_iff, not_true_iff_false. rewrite str_eqb_eq. intros ->. congruence.
  Qed.

  Lemma aggregate_shard (op : aggop) (wo : bool) (g : list str) (i : N) (v : vector) :
    (forall ls, sh (keep wo g ls) = sh ls) ->
    aggregate op wo g (filter (in_shard H by_ set n i) v) = filter (in_shard H by_ set n i) (aggregate op wo g v).
  Proof.
    intro K. unfold aggregate.
    set (key := fun x : series * Z => keep wo g (fst x)).
    set (p := fun k : series => N.eqb (sh k) i).
    assert (PK : forall x : series * Z, in_shard H by_ set n i x = p (key x)).
    { intro x. rewrite in_shard_sh. unfold p, key. rewrite K. reflexivity. }
    (* the groups of shard i are the groups whose key is on shard i, with all their members *)
    rewrite (filter_ext _ _ PK), <- (filter_map_comm p key v), nodup_keys_filter, filter_map_comm.
    apply map_ext_in. intros k Hk. apply filter_In in Hk as [_ Pk]. cbn [fst] in Pk. fold (p k) in Pk.
    do 3 f_equal. apply filter_absorb. intros x E. apply series_eqb_eq in E. unfold key. rewrite E. exact Pk.
  Qed.

  Lemma bin_eval_shard (op : binop) (on : bool) (ls : list str) (i : N) (vl vr V : vector) :
    (forall s, sh (keep (negb on) ls s) = sh s) ->
    (forall s, sh (drop_name (keep (negb on) ls s)) = sh (keep (negb on) ls s)) ->
    bin_eval op on ls vl vr = Some V ->
    bin_eval op on ls (filter (in_shard H by_ set n i) vl) (filter (in_shard H by_ set n i) vr)
    = Some (filter (in_shard H by_ set n i) V).
  Proof.
    intros K1 K2 E. rewrite bin_eval_eq in E |- *.
    set (sig := bsig on ls) in *. set (q := bmatched on ls) in *. set (f := bout op on ls) in *.
    set (Pi := in_shard H by_ set n i).
    assert (PK : forall x, Pi x = N.eqb (sh (sig x)) i).
    { intro x. unfold Pi, sig, bsig. rewrite in_shard_sh, K1. reflexivity. }
    assert (PF : forall R x, Pi (f R x) = Pi x).
    { intros R x. unfold Pi at 1, f, bout. rewrite in_shard_sh. cbn [fst]. unfold bsig at 1. rewrite K2. symmetry. apply PK. }
    (* a partner of x lies on the same shard as x *)
    assert (SAME : forall x, Pi x = true -> forall y, series_eqb (sig y) (sig x) = true -> Pi y = true).
    { intros x Px y Exy. apply series_eqb_eq in Exy. rewrite PK, Exy, <- PK. exact Px. }
    (* the matched left samples of shard i, and their outputs *)
    assert (MI : filter (q (filter Pi vr)) (filter Pi vl) = filter Pi (filter (q vr) vl)).
    { rewrite (filter_comm Pi), !filter_filter. apply filter_ext. intro x.
      destruct (Pi x) eqn:Px; [|reflexivity]. cbn [andb]. apply existsb_filter, (SAME x Px). }
    assert (OUT : map (f (filter Pi vr)) (filter Pi (filter (q vr) vl)) = filter Pi (map (f vr) (filter (q vr) vl))).
    { rewrite filter_map_comm, (filter_ext _ _ (PF vr)). apply map_ext_in. intros x Hx. apply filter_In in Hx as [_ Px].
      unfold f, bout. rewrite find_filter; [reflexivity | apply (SAME x Px)]. }
    destruct (is_nil vl || is_nil vr) eqn:NL.
    - injection E as <-. destruct vl; [reflexivity|]. destruct vr; [|discriminate NL]. cbn [filter is_nil]. rewrite orb_true_r. reflexivity.
    - destruct (has_dup (map sig vr)) eqn:D1; [discriminate|].
      destruct (has_dup (map sig (filter (q vr) vl))) eqn:D2; [discriminate|].
      destruct (has_dup (map fst (map (f vr) (filter (q vr) vl)))) eqn:D3; [discriminate|].
      injection E as <-.
      rewrite MI, OUT, !has_dup_map_filter by assumption.
      destruct (is_nil (filter Pi vl) || is_nil (filter Pi vr)) eqn:NF; [|reflexivity].
      f_equal. rewrite <- OUT, <- MI. symmetry. apply bin_out_nil, NF.
  Qed.

  Theorem shard_commutes e : sound_for by_ set e = true -> forall D V i,
    qeval e D = Some V ->
    qeval e (filter (in_shard H by_ set n i) D) = Some (filter (in_shard H by_ set n i) V).
  Proof.
    induction e as [ms|op wo g e IH|op on ls l IHl r IHr]; intros S D V i E.
    - cbn [qeval] in *. injection E as <-. f_equal. apply filter_comm.
    - cbn [sound_for] in S. apply andb_true_iff in S as [S1 S2]. cbn [qeval] in *.
      destruct (qeval e D) as [V'|] eqn:E'; [|discriminate]. injection E as <-.
      rewrite (IH S2 D V' i E'). cbn [option_map]. f_equal. apply aggregate_shard. intro s. apply keep_shard, S1.
    - cbn [sound_for] in S. apply andb_true_iff in S as [S Sr]. apply andb_true_iff in S as [S1 Sl].
      cbn [qeval] in *.
      destruct (qeval l D) as [vl|] eqn:El; [|discriminate]. destruct (qeval r D) as [vr|] eqn:Er; [|discriminate].
      rewrite (IHl Sl D vl i El), (IHr Sr D vr i Er).
      apply bin_eval_shard; [| |exact E].
      + (* the match signature on(ls) / ignoring(ls) is what by (ls) / without (ls) keeps *)
        intro s. apply keep_shard. destruct by_, on; cbn [negb andb] in *;
          try exact S1; try discriminate.
        apply andb_true_iff in S1 as [A _]. exact A.
      + (* the result drops the name: it is either gone already or not a sharding label *)
        intro s. destruct on; cbn [negb] in *.
        * destruct by_ eqn:Eb; [|discriminate]. apply andb_true_iff in S1 as [_ B]. apply negb_true_iff in B.
          apply drop_name_shard_by; auto.
        * rewrite drop_name_keep_true. reflexivity.
  Qed.

  Lemma shards_partition (v : vector) : (0 < n)%N ->
    Permutation (concat (map (fun i => filter (in_shard H by_ set n (N.of_nat i)) v) (seq 0 (N.to_nat n)))) v.
  Proof.
    intro Hn. induction v as [|x v IH].
    - cbn. induction (seq 0 (N.to_nat n)) as [|a l IHl]; [constructor | exact IHl].
    - rewrite (concat_buckets_cons (fun i => in_shard H by_ set n (N.of_nat i)) x v (N.to_nat (sh (fst x)))).
      + constructor. exact IH.
      + apply seq_NoDup.
      + apply in_seq. destruct (exactly_one_shard H by_ set n (fst x) Hn) as [L _]. fold (sh (fst x)) in L. lia.
      + rewrite in_shard_sh, N2Nat.id. apply N.eqb_refl.
      + intros j Hj. rewrite in_shard_sh. apply N.eqb_neq. intro E. apply Hj. rewrite E. symmetry. apply Nat2N.id.
  Qed.

  Lemma all_some_map_some {A B} (g : A -> B) l : all_some (map (fun i => Some (g i)) l) = Some (map g l).
  Proof. induction l as [|x l IH]; [reflexivity|]. cbn. rewrite IH. reflexivity. Qed.

  Theorem sharded_sound e D V : (0 < n)%N -> sound_for by_ set e = true -> qeval e D = Some V ->
    exists W, sharded H by_ set n e D = Some W /\ Permutation W V.
  Proof.
    intros Hn S E. unfold sharded, shard_results.
    rewrite (map_ext _ (fun i => Some (filter (in_shard H by_ set n (N.of_nat i)) V)))
      by (intro i; apply shard_commutes; assumption).
    rewrite all_some_map_some. cbn. eexists. split; [reflexivity|]. apply shards_partition. exact Hn.
  Qed.
End Sound.

Lemma name_ok_sub by_ set e e' : (drops_name e' = true -> drops_name e = true) ->
  name_ok by_ set e = true -> name_ok by_ set e' = true.
Proof.
  unfold name_ok. destruct by_; [|auto]. intros Hd N. apply orb_true_iff in N as [N|N]; [|rewrite N; apply orb_true_r].
  apply negb_true_iff in N. destruct (drops_name e') eqn:E; [rewrite (Hd eq_refl) in N; discriminate | reflexivity].
Qed.

Lemma analyzer_sound_for e : forall by_ set,
  compatible (scopes (erase e)) by_ set = true -> name_ok by_ set e = true -> sound_for by_ set e = true.
Proof.
  induction e as [ms|op wo g e IH|op on ls l IHl r IHr]; intros by_ set C N;
    cbn [erase scopes sound_for List.app] in *; [reflexivity| |].
  - rewrite compatible_cons in C. apply andb_true_iff in C as [C1 C2].
    rewrite (IH _ _ C2), andb_true_r by (revert N; apply name_ok_sub; cbn; intros ->; apply orb_true_r).
    unfold name_ok in N. cbn [drops_name] in N.
    destruct by_, wo; cbn [negb orb andb] in *; try assumption; try discriminate.
    + (* without (g) also drops the name, which is not among the labels the analyzer saw *)
      apply negb_true_iff in N. rewrite disjoint_spec in *. intros x Hx [<-|K]; [apply mem_in in Hx; congruence|].
      exact (C1 x Hx K).
    + cbn. rewrite N. exact C1.
  - rewrite compatible_cons, compatible_app in C.
    apply andb_true_iff in C as [C1 C]. apply andb_true_iff in C as [Cl Cr].
    rewrite (IHl _ _ Cl), (IHr _ _ Cr), !andb_true_r by (revert N; apply name_ok_sub; reflexivity).
    unfold name_ok in N. cbn [drops_name] in N.
    destruct by_, on; cbn [negb orb andb] in *; try discriminate.
    + rewrite C1, N. reflexivity.
    + (* ignoring (ls): the analyzer saw ls and the name *)
      rewrite disjoint_spec in *. intros x Hx K. apply (C1 x Hx), in_or_app.
      destruct K as [<-|K]; [right; left; reflexivity | left; exact K].
    + rewrite subset_spec in *. intros x K. apply C1, in_or_app.
      destruct K as [<-|K]; [right; left; reflexivity | left; exact K].
Qed.

Lemma erase_no_dynamic e : dynamic_labels (erase e) = [].
Proof.
  induction e as [ms|op wo g e IH|op on ls l IHl r IHr]; [reflexivity | cbn; exact IH | cbn; rewrite IHl, IHr; reflexivity].
Qed.

Theorem sound H n e D V by_ set : (0 < n)%N ->
  analyze (erase e) = St by_ set -> name_ok by_ set e = true -> qeval e D = Some V ->
  exists W, sharded H by_ set n e D = Some W /\ Permutation W V.
Proof.
  intros Hn A N E. apply sharded_sound; [exact Hn| |exact E]. apply analyzer_sound_for; [|exact N].
  pose proof (analyze_compatible (erase e) by_ set A) as C. unfold all_scopes in C.
  rewrite erase_no_dynamic, app_nil_r in C. exact C.
Qed.

Lemma sample_eqb_refl x : sample_eqb x x = true.
Proof. destruct x as [ls v]. unfold sample_eqb. cbn. rewrite series_eqb_refl, Z.eqb_refl. reflexivity. Qed.

Lemma perm_same_vector a b : Permutation a b -> same_vector a b = true.
Proof.
  intro P. unfold same_vector. rewrite (Permutation_length P), Nat.eqb_refl. cbn [andb].
  apply andb_true_iff. split; apply forallb_forall; intros x Hx; apply existsb_exists; exists x;
    (split; [|apply sample_eqb_refl]).
  - eapply Permutation_in; eauto.
  - eapply Permutation_in; [symmetry; exact P | exact Hx].
Qed.

(* results have pairwise different label sets when the stored series do *)
Lemma qeval_unique e : forall D V, has_dup (map fst D) = false -> qeval e D = Some V -> has_dup (map fst V) = false.
Proof.
  induction e as [ms|op wo g e IH|op on ls l IHl r IHr]; intros D V U E.
  - cbn [qeval] in E. inversion E; subst. apply has_dup_map_filter. exact U.
  - cbn [qeval] in E. destruct (qeval e D) as [V'|]; [|discriminate]. cbn in E. inversion E; subst.
    unfold aggregate. rewrite map_map. cbn [fst]. rewrite map_id. apply has_dup_nodup_keys.
  - cbn [qeval] in E. destruct (qeval l D) as [vl|]; [|discriminate]. destruct (qeval r D) as [vr|]; [|discriminate].
    rewrite bin_eval_eq in E. destruct (is_nil vl || is_nil vr); [inversion E; reflexivity|].
    destruct (has_dup (map (bsig on ls) vr)); [discriminate|].
    destruct (has_dup (map (bsig on ls) (filter (bmatched on ls vr) vl))); [discriminate|].
    destruct (has_dup (map fst (map (bout op on ls vr) (filter (bmatched on ls vr) vl)))) eqn:D3; [discriminate|].
    inversion E; subst. exact D3.
Qed.

Theorem sound_merged H n e D V by_ set : (0 < n)%N ->
  analyze (erase e) = St by_ set -> name_ok by_ set e = true ->
  has_dup (map fst D) = false -> qeval e D = Some V ->
  exists rs, all_some (shard_results H by_ set n e D) = Some rs
    /\ Permutation (concat rs) V /\ merge_vectors rs = concat rs.
Proof.
  intros Hn A N U E. destruct (sound H n e D V by_ set Hn A N E) as (W & SW & P). unfold sharded in SW.
  destruct (all_some (shard_results H by_ set n e D)) as [rs|]; [|discriminate]. cbn in SW. inversion SW; subst.
  exists rs. split; [reflexivity|]. split; [exact P|]. unfold merge_vectors. apply dedup_first_id.
  apply has_dup_NoDup. apply (Permutation_NoDup (l := map fst V)).
  - apply Permutation_map. symmetry. exact P.
  - apply has_dup_NoDup. eapply qeval_unique; eauto.
Qed.

Theorem sound_pred H n e D by_ set tbl : (0 < n)%N ->
  analyze (erase e) = St by_ set -> name_ok by_ set e = true -> has_dup (map fst D) = false ->
  pred_ok (CEval e D n by_ set tbl (qeval e D) (shard_results H by_ set n e D)
                 (option_map merge_vectors (all_some (shard_results H by_ set n e D)))) = true.
Proof.
  intros Hn A N U. cbn [pred_ok]. destruct (qeval e D) as [V|] eqn:E; [|reflexivity].
  destruct (sound_merged H n e D V by_ set Hn A N U E) as (rs & -> & P & M). cbn [option_map].
  rewrite M. rewrite (perm_same_vector _ _ P). reflexivity.
Qed.

(* C23 — which cause a failed fan-out reports, and the statuses that follow
   for any responses. See Properties/C23.v for the statements. *)
From Coq Require Import ZArith List Bool Lia String Permutation.
Import ListNotations.
From Verif Require Import Lib.Corr Lib.ListFacts Lib.Receive_Fanout Gen.C23 Model.C23.
Open Scope Z_scope.

(* The next seven facts are read off Gen/C23.v by computation: a source edit
   that changes one of them breaks its proof. *)
Lemma threshold_is_failure_threshold : forall q ft, replErr_threshold q ft = ft.
Proof. intros; reflexivity. Qed.

Lemma skeleton_holds : skeleton_ok = true.
Proof. vm_compute. reflexivity. Qed.

Lemma status_conflict : status_of CConflict = Some 409. Proof. vm_compute; reflexivity. Qed.
Lemma status_notready : status_of CNotReady = Some 503. Proof. vm_compute; reflexivity. Qed.
Lemma status_unavailable : status_of CUnavailable = Some 503. Proof. vm_compute; reflexivity. Qed.
Lemma status_badreplica : status_of CBadReplica = Some 400. Proof. vm_compute; reflexivity. Qed.
Lemma status_nil : status_of CNil = Some 500. Proof. vm_compute; reflexivity. Qed.

Lemma failure_threshold_spec : forall nrep q, failureThreshold_expr nrep q = spec_ft nrep q.
Proof. intros; unfold failureThreshold_expr, spec_ft; lia. Qed.

Lemma handler_thresholds : forall rf rep, 1 <= rf -> 0 <= rep ->
  let q := success_threshold rf rep in
  let nrep := n_replicas rf rep in
  let ft := failureThreshold_expr nrep q in
  1 <= q /\ 1 <= ft /\ q + ft = nrep + 1 /\ q <= ft + 1 /\ ft = spec_ft nrep q.
Proof.
  intros rf rep Hrf Hrep. cbn zeta.
  unfold failureThreshold_expr, spec_ft, n_replicas, success_threshold, writeQuorum.
  pose proof (quorum_arith rf Hrf) as Q. cbn zeta in Q. destruct (rep =? 0); lia.
Qed.

Lemma ft_ge_1 : forall rf rep, 1 <= rf -> 0 <= rep ->
  1 <= failureThreshold_expr (n_replicas rf rep) (success_threshold rf rep).
Proof. intros rf rep Hrf Hrep. apply (handler_thresholds rf rep Hrf Hrep). Qed.

Lemma spec_threshold_is : forall rf rep, 1 <= rf -> spec_threshold rf rep = success_threshold rf rep.
Proof.
  intros rf rep H. unfold spec_threshold, success_threshold, spec_quorum, writeQuorum.
  destruct (rep =? 0); [|reflexivity]. symmetry. apply (quorum_arith rf H).
Qed.

(* the three sentinels a failed series can end at *)
Definition sentinel (c : cause) : Prop := c = CConflict \/ c = CNotReady \/ c = CUnavailable.

(* conflicts reach the threshold and no other expected error outnumbers them *)
Definition blocked (ft : Z) (s : sst) : Prop := ft <= confl s /\ nrdy s <= confl s /\ unav s <= confl s.

Lemma repl_cause_failed : forall ft s, 1 <= ft -> ft <= fail s ->
  exists c, repl_cause ft s = Some c /\ sentinel c /\ (c = CConflict <-> blocked ft s).
Proof.
  intros ft s Hft Hf. unfold repl_cause, blocked, sentinel.
  rewrite (proj2 (Z.eqb_neq (fail s) 0)), (proj2 (Z.geb_le (fail s) ft) Hf) by lia.
  unfold replCause_order, sort_desc.
  cbn [exp_entries cause_of_name count_of_pred String.eqb Ascii.eqb Bool.eqb fold_left ins_desc snd].
  (* the head of the three entries sorted by decreasing count, ties in source
     order, is one of four; it is the cause if its count reaches ft, else the
     series is unavailable *)
  destruct (Z.ltb_spec (confl s) (nrdy s)); cbn [ins_desc snd];
    [destruct (Z.ltb_spec (nrdy s) (unav s))|destruct (Z.ltb_spec (confl s) (unav s))].
  - exists CUnavailable. split; [destruct (unav s >=? ft); reflexivity|]. split; [tauto|]. split; [discriminate|lia].
  - exists (if nrdy s >=? ft then CNotReady else CUnavailable).
    destruct (nrdy s >=? ft); (split; [reflexivity|]); (split; [tauto|]); (split; [discriminate|lia]).
  - exists CUnavailable. split; [destruct (unav s >=? ft); reflexivity|]. split; [tauto|]. split; [discriminate|lia].
  - destruct (Z.geb_spec (confl s) ft); eexists; (split; [reflexivity|]); (split; [tauto|]).
    + split; [lia|reflexivity].
    + split; [discriminate|lia].
Qed.

Definition is_cause (x c : cause) : bool :=
  match x, c with
  | CConflict, CConflict | CNotReady, CNotReady | CUnavailable, CUnavailable => true
  | _, _ => false
  end.

Lemma holds_any_spec : forall p x, (forall c, pred_holds p c = Some (is_cause x c)) ->
  forall cs, holds_any p cs = Some (existsb (is_cause x) cs).
Proof. intros p x H cs. induction cs as [|c cs IH]; [reflexivity|]. cbn [holds_any existsb]. rewrite H, IH. reflexivity. Qed.

Lemma existsb_is_cause : forall x cs, sentinel x -> existsb (is_cause x) cs = true <-> In x cs.
Proof.
  intros x cs Hx. rewrite existsb_exists. split.
  - intros [c [Hin Hc]]. destruct Hx as [->|[->| ->]]; destruct c; try discriminate; exact Hin.
  - intro Hin. exists x. split; [exact Hin|]. destruct Hx as [->|[->| ->]]; reflexivity.
Qed.

(* the first expected error, in source order, that some failed series has *)
Lemma write_cause_eq : forall cs, write_cause cs = Some
  (if existsb (is_cause CUnavailable) cs then CUnavailable
   else if existsb (is_cause CNotReady) cs then CNotReady
   else if existsb (is_cause CConflict) cs then CConflict else last cs CNil).
Proof.
  intro cs. unfold write_cause, writeCause_order.
  cbn [first_counted cause_of_name String.eqb Ascii.eqb Bool.eqb].
  rewrite (holds_any_spec _ CUnavailable), (holds_any_spec _ CNotReady), (holds_any_spec _ CConflict)
    by (intros []; reflexivity).
  destruct (existsb _ cs); [reflexivity|]. destruct (existsb _ cs); [reflexivity|]. destruct (existsb _ cs); reflexivity.
Qed.

(* the request is a conflict only when every failed series is one *)
Lemma write_cause_spec : forall cs, cs <> [] -> Forall sentinel cs ->
  exists c, write_cause cs = Some c /\ sentinel c /\ (c = CConflict <-> Forall (eq CConflict) cs).
Proof.
  intros cs Hne Hall. rewrite write_cause_eq. rewrite Forall_forall in Hall.
  pose proof (existsb_is_cause CUnavailable cs (or_intror (or_intror eq_refl))) as U.
  pose proof (existsb_is_cause CNotReady cs (or_intror (or_introl eq_refl))) as N.
  pose proof (existsb_is_cause CConflict cs (or_introl eq_refl)) as C.
  destruct (existsb (is_cause CUnavailable) cs).
  { exists CUnavailable. split; [reflexivity|]. split; [right; right; reflexivity|]. split; [discriminate|].
    intro F. rewrite Forall_forall in F. symmetry. apply F, U. reflexivity. }
  destruct (existsb (is_cause CNotReady) cs).
  { exists CNotReady. split; [reflexivity|]. split; [right; left; reflexivity|]. split; [discriminate|].
    intro F. rewrite Forall_forall in F. symmetry. apply F, N. reflexivity. }
  assert (F : Forall (eq CConflict) cs).
  { apply Forall_forall. intros c Hin. destruct (Hall c Hin) as [->|[->| ->]]; [reflexivity| |].
    - apply N in Hin. discriminate.
    - apply U in Hin. discriminate. }
  destruct cs as [|c0 cs']; [congruence|]. inversion F; subst. rewrite (proj2 C (or_introl eq_refl)).
  exists CConflict. split; [reflexivity|]. split; [left; reflexivity|]. tauto.
Qed.

Lemma failed_causes_spec : forall ft st, 1 <= ft ->
  exists cs, failed_causes ft ft st = Some cs /\ Forall sentinel cs
    /\ (cs = [] -> Forall (fun s => fail s < ft) st)
    /\ (cs <> [] -> Exists (fun s => ft <= fail s) st)
    /\ (Forall (eq CConflict) cs <-> Forall (fun s => ft <= fail s -> blocked ft s) st).
Proof.
  intros ft st Hft. induction st as [|s st [cs [E [Hs [Hnil [Hne Hc]]]]]].
  - exists []. repeat split; auto; congruence.
  - cbn [failed_causes]. rewrite E. destruct (Z.geb_spec (fail s) ft) as [Hge|Hlt].
    + destruct (repl_cause_failed ft s Hft Hge) as [c [Ec [Hsc Hcc]]]. rewrite Ec.
      exists (c :: cs). split; [reflexivity|]. split; [constructor; assumption|]. split; [discriminate|].
      split; [intros _; left; exact Hge|]. rewrite !Forall_cons_iff, Hc. split; intros [H1 H2]; (split; [|exact H2]).
      * intros _. apply Hcc. symmetry. exact H1.
      * symmetry. apply Hcc, H1, Hge.
    + exists cs. split; [reflexivity|]. split; [exact Hs|]. split; [constructor; auto|].
      split; [right; auto|]. rewrite Forall_cons_iff, Hc. split; [split; [lia|assumption]|tauto].
Qed.

Lemma finish_spec : forall ft st, 1 <= ft ->
  (finish ft ft st = Some Ack /\ Forall (fun s => fail s < ft) st)
  \/ exists c, finish ft ft st = Some (Failed c) /\ sentinel c
       /\ Exists (fun s => ft <= fail s) st
       /\ (c = CConflict <-> Forall (fun s => ft <= fail s -> blocked ft s) st).
Proof.
  intros ft st Hft. destruct (failed_causes_spec ft st Hft) as [cs [E [Hs [Hnil [Hne Hc]]]]].
  unfold finish. rewrite E. destruct cs as [|c0 cs'].
  - left. split; [reflexivity|]. apply Hnil. reflexivity.
  - right. destruct (write_cause_spec (c0 :: cs') ltac:(discriminate) Hs) as [c [Ec [Hsc Hcc]]].
    exists c. rewrite Ec. split; [reflexivity|]. split; [exact Hsc|]. split; [apply Hne; discriminate|].
    rewrite Hcc. exact Hc.
Qed.

Lemma loop_prefix : forall thr q ft rs st,
  exists k, loop thr q ft st rs = finish thr ft (fold_left apply_resp (firstn k rs) st)
    /\ (k <= List.length rs)%nat
    /\ (can_return_early q ft (fold_left apply_resp (firstn k rs) st) = true \/ k = List.length rs).
Proof.
  intros thr q ft rs. induction rs as [|r rs IH]; intro st.
  - exists 0%nat. cbn. auto.
  - cbn [loop]. destruct (can_return_early q ft (apply_resp st r)) eqn:E.
    + exists 1%nat. cbn [firstn fold_left List.length]. split; [reflexivity|]. split; [lia|]. left. exact E.
    + destruct (IH (apply_resp st r)) as [k [Hk [Hle Hc]]]. exists (S k).
      cbn [firstn fold_left List.length]. split; [exact Hk|]. split; [lia|].
      destruct Hc as [Hc|Hc]; [left; exact Hc|right; lia].
Qed.

Lemma kinds_for_app : forall s l1 l2, kinds_for s (l1 ++ l2) = kinds_for s l1 ++ kinds_for s l2.
Proof. intros. apply flat_map_app. Qed.

Lemma kinds_for_perm : forall s rs rs', Permutation rs rs' -> Permutation (kinds_for s rs) (kinds_for s rs').
Proof. intros s rs rs'. apply Permutation_flat_map. Qed.

Lemma conflicts_of_kinds : forall s l, conflicts_of s l = Z.of_nat (List.length (filter is_conflict (kinds_for s l))).
Proof.
  intros s l. induction l as [|r l IH]; [reflexivity|].
  cbn [conflicts_of fold_right kinds_for flat_map]. fold (conflicts_of s l) (kinds_for s l).
  rewrite IH, filter_app, app_length, Nat2Z.inj_add. f_equal.
  induction (count_occ Nat.eq_dec (fst r) s) as [|c IHc]; cbn [repeat filter List.length]; [lia|].
  destruct (is_conflict (snd r)); cbn [b2z List.length] in *; lia.
Qed.

Lemma successes_of_app : forall s l1 l2, successes_of s (l1 ++ l2) = successes_of s l1 + successes_of s l2.
Proof. intros. unfold successes_of. rewrite kinds_for_app, filter_app, app_length. lia. Qed.

Lemma responses_of_app : forall s l1 l2, responses_of s (l1 ++ l2) = responses_of s l1 + responses_of s l2.
Proof. intros. unfold responses_of. rewrite kinds_for_app, app_length. lia. Qed.

Lemma conflicts_of_app : forall s l1 l2, conflicts_of s (l1 ++ l2) = conflicts_of s l1 + conflicts_of s l2.
Proof. intros. rewrite !conflicts_of_kinds, kinds_for_app, filter_app, app_length. lia. Qed.

Lemma successes_le_responses : forall s l, 0 <= successes_of s l <= responses_of s l.
Proof. intros. unfold successes_of, responses_of. pose proof (filter_length_le is_ok (kinds_for s l)). lia. Qed.

Lemma conflicts_of_nonneg : forall s l, 0 <= conflicts_of s l.
Proof. intros. rewrite conflicts_of_kinds. lia. Qed.

Lemma successes_of_perm : forall s rs rs', Permutation rs rs' -> successes_of s rs = successes_of s rs'.
Proof. intros s rs rs' H. unfold successes_of. f_equal. apply Permutation_length, filter_perm, kinds_for_perm, H. Qed.

Lemma responses_of_perm : forall s rs rs', Permutation rs rs' -> responses_of s rs = responses_of s rs'.
Proof. intros s rs rs' H. unfold responses_of. f_equal. apply Permutation_length, kinds_for_perm, H. Qed.

Lemma conflicts_of_perm : forall s rs rs', Permutation rs rs' -> conflicts_of s rs = conflicts_of s rs'.
Proof. intros s rs rs' H. rewrite !conflicts_of_kinds. f_equal. apply Permutation_length, filter_perm, kinds_for_perm, H. Qed.

Lemma bump_step : forall k x, let y := bump k x in
  succ y = succ x + b2z (is_ok k) /\ succ y + fail y = succ x + fail x + 1
  /\ confl y = confl x + b2z (is_conflict k) /\ nrdy x <= nrdy y /\ unav x <= unav y
  /\ (confl y - confl x) + (nrdy y - nrdy x) <= fail y - fail x
  /\ (confl y - confl x) + (unav y - unav x) <= fail y - fail x.
Proof. intros [] x; cbn; lia. Qed.

Lemma bumps_inv : forall ks x, let y := bumps bump ks x in
  succ y = succ x + Z.of_nat (List.length (filter is_ok ks))
  /\ succ y + fail y = succ x + fail x + Z.of_nat (List.length ks)
  /\ confl y = confl x + Z.of_nat (List.length (filter is_conflict ks))
  /\ nrdy x <= nrdy y /\ unav x <= unav y
  /\ (confl y - confl x) + (nrdy y - nrdy x) <= fail y - fail x
  /\ (confl y - confl x) + (unav y - unav x) <= fail y - fail x.
Proof.
  induction ks as [|k ks IH]; intro x; cbn zeta.
  - cbn. lia.
  - unfold bumps. cbn [fold_left]. fold (bumps bump ks (bump k x)).
    specialize (IH (bump k x)). pose proof (bump_step k x) as B. cbn zeta in IH, B.
    rewrite !filter_length_cons. change Z.b2z with b2z. change (List.length (k :: ks)) with (S (List.length ks)). lia.
Qed.

Definition reach (n : nat) (l : list resp) : list sst := fold_left apply_resp l (repeat sst0 n).

Lemma reach_length : forall n l, List.length (reach n l) = n.
Proof. exact (Receive_Fanout.reach_length bump sst0). Qed.

Lemma reach_nth : forall n l s, (s < n)%nat -> nth s (reach n l) sst0 = bumps bump (kinds_for s l) sst0.
Proof. exact (Receive_Fanout.reach_nth bump sst0). Qed.

Lemma prefix_counters : forall n l s, (s < n)%nat ->
  let x := nth s (reach n l) sst0 in
  succ x = successes_of s l /\ succ x + fail x = responses_of s l /\ confl x = conflicts_of s l
  /\ confl x + nrdy x <= fail x /\ confl x + unav x <= fail x /\ 0 <= nrdy x /\ 0 <= unav x.
Proof.
  intros n l s Hs. cbn zeta. rewrite reach_nth by exact Hs.
  pose proof (bumps_inv (kinds_for s l) sst0) as I. cbn zeta in I. cbn [succ fail confl nrdy unav sst0] in I.
  unfold successes_of, responses_of. rewrite conflicts_of_kinds. lia.
Qed.

Lemma determined_spec : forall q ft x, determined q ft x = true <-> q <= succ x \/ ft <= confl x.
Proof. intros. unfold determined. rewrite negb_true_iff, andb_false_iff, !Z.ltb_ge. reflexivity. Qed.

Lemma early_spec : forall q ft n l, can_return_early q ft (reach n l) = true <->
  forall s, (s < n)%nat -> q <= succ (nth s (reach n l) sst0) \/ ft <= confl (nth s (reach n l) sst0).
Proof.
  intros q ft n l. unfold can_return_early.
  rewrite forallb_forall, <- Forall_forall, (Forall_nth_iff _ _ sst0), reach_length.
  split; intros H s Hs; apply determined_spec, H, Hs.
Qed.

Section AnyResponses.
  Variables (n : nat) (q ft : Z) (rs : list resp).
  Hypothesis Hft : 1 <= ft.

  Lemma fan_outcome :
    fan_status n q ft rs = Some 200
    \/ (fan_status n q ft rs = Some 409 /\ exists s, (s < n)%nat /\ conflicts_of s rs >= ft)
    \/ fan_status n q ft rs = Some 503.
  Proof.
    unfold fan_status. rewrite threshold_is_failure_threshold.
    destruct (loop_prefix ft q ft rs (repeat sst0 n)) as [k [Hk _]]. rewrite Hk. fold (reach n (firstn k rs)).
    destruct (finish_spec ft (reach n (firstn k rs)) Hft) as [[E _]|[c [E [Hs [Hex Hc]]]]]; rewrite E; cbn [result_status].
    - left; reflexivity.
    - destruct Hs as [->|[->| ->]]; [|right; right; exact status_notready|right; right; exact status_unavailable].
      (* some series failed, and as the request is a conflict it has ft conflicts, all among rs *)
      right; left. split; [exact status_conflict|].
      apply (Exists_nth_iff _ _ sst0) in Hex as [s [Hs Hf]]. rewrite reach_length in Hs. exists s. split; [exact Hs|].
      rewrite (Forall_nth_iff _ _ sst0), reach_length in Hc. destruct (proj1 Hc eq_refl s Hs Hf) as [Hb _].
      destruct (prefix_counters n (firstn k rs) s Hs) as [_ [_ [P _]]].
      rewrite <- (firstn_skipn k rs), conflicts_of_app. pose proof (conflicts_of_nonneg s (skipn k rs)). lia.
  Qed.

  Lemma fan_409 : fan_status n q ft rs = Some 409 -> exists s, (s < n)%nat /\ conflicts_of s rs >= ft.
  Proof. intro H. destruct fan_outcome as [E|[[_ E]|E]]; try exact E; congruence. Qed.

  Lemma fan_never_500 : exists st, fan_status n q ft rs = Some st /\ (st = 200 \/ st = 409 \/ st = 503).
  Proof. destruct fan_outcome as [E|[[E _]|E]]; eexists; (split; [exact E|]); auto. Qed.
End AnyResponses.

Lemma fan_503 : forall n q ft rs st, 1 <= ft -> fan_status n q ft rs = Some st -> st <> 200 ->
  (forall s, (s < n)%nat -> conflicts_of s rs < ft) -> st = 503.
Proof.
  intros n q ft rs st Hft H Hne Hall.
  destruct (fan_outcome n q ft rs Hft) as [E|[[_ [s [Hs Hc]]]|E]]; try congruence.
  specialize (Hall s Hs). lia.
Qed.

Lemma existsb_conflicts : forall n rs ft,
  existsb (fun s => conflicts_of s rs >=? ft) (seq 0 n) = true <->
  exists s, (s < n)%nat /\ conflicts_of s rs >= ft.
Proof.
  intros n rs ft. rewrite existsb_exists. split.
  - intros [s [Hin H]]. apply in_seq in Hin. apply Z.geb_le in H. exists s. split; lia.
  - intros [s [Hs H]]. exists s. split; [apply in_seq; lia|apply Z.geb_le; lia].
Qed.

(* ---- the defect that was repaired: with es.threshold = successThreshold
   (what the source passed before the fix) a series at replication factor 4
   with two conflicts is reported through a nil cause, i.e. HTTP 500 ---- *)
Lemma success_threshold_refuted :
  let q := writeQuorum 4 in let ft := failureThreshold_expr 4 q in
  loop q q ft [sst0] [([0%nat], KConflict); ([0%nat], KConflict); ([0%nat], KOk); ([0%nat], KOk)]
    = Some (Failed CNil)
  /\ status_of CNil = Some 500.
Proof. vm_compute. split; reflexivity. Qed.

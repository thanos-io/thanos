(* C18 — lemmas: HashWithPrefix, hashmod, and the boolean form of the ketama facts of
   Lib/Hashring_AnswersFacts.v. Order independence of ketama is Lib/Hashring_Order.v. *)
From Coq Require Import ZArith NArith List Bool Lia Arith Permutation Sorting.Sorted.
Import ListNotations.
From Verif Require Import Lib.Corr Lib.ListFacts Lib.Hashring_Ketama Lib.Hashring_KetamaFacts Lib.Hashring_RingFacts
  Lib.Hashring_AnswersFacts Gen.C18 Model.C18.
Close Scope Z_scope.

Lemma hwp_loop_eq H cap : forall lbls b,
  hwp_loop H cap b lbls = H (b ++ concat (map label_bytes lbls)).
Proof.
  induction lbls as [|l r IH]; intro b; simpl.
  - rewrite app_nil_r. reflexivity.
  - destruct (cap <=? _); [reflexivity|].
    rewrite IH. f_equal. unfold label_bytes. simpl. rewrite <- !app_assoc. simpl. rewrite <- !app_assoc. reflexivity.
Qed.

Lemma hash_with_prefix_eq H cap prefix lbls :
  hash_with_prefix H cap prefix lbls = H (hash_input prefix lbls).
Proof. unfold hash_with_prefix, hash_input. rewrite hwp_loop_eq, <- app_assoc. reflexivity. Qed.

Lemma simple_ring_perm addrs : Permutation addrs (simple_ring addrs).
Proof. apply ZSort.Permuted_sort. Qed.

Lemma simple_ring_sorted addrs : StronglySorted Z.le (simple_ring addrs).
Proof.
  apply (StronglySorted_weaken (fun x y => is_true (ZOrder.leb x y))); [intros x y; apply Z.leb_le|].
  apply ZSort.StronglySorted_sort. intros x y z. unfold ZOrder.leb, is_true. rewrite !Z.leb_le. lia.
Qed.

Lemma simple_ring_order_independent addrs addrs' :
  Permutation addrs addrs' -> simple_ring addrs = simple_ring addrs'.
Proof.
  intro P. apply (StronglySorted_perm_eq Z.le); try apply simple_ring_sorted.
  - intros x y _ _. apply Z.le_antisymm.
  - rewrite <- !simple_ring_perm. exact P.
Qed.

Lemma simple_getn_distinct ring h n1 n2 :
  NoDup ring -> (0 <= h)%Z -> n1 < n2 < length ring ->
  exists a b, simple_getn ring h n1 = Some a /\ simple_getn ring h n2 = Some b /\ a <> b.
Proof.
  intros Hnd Hh Hn. unfold simple_getn, simple_insufficient, simple_idx, simple_index.
  set (len := length ring) in *.
  destruct (Z.of_nat n1 >=? Z.of_nat len)%Z eqn:E1; [apply Z.geb_le in E1; lia|].
  destruct (Z.of_nat n2 >=? Z.of_nat len)%Z eqn:E2; [apply Z.geb_le in E2; lia|].
  eexists. eexists. split; [reflexivity|]. split; [reflexivity|].
  rewrite !Z.rem_mod_nonneg by lia.
  set (i1 := ((h + Z.of_nat n1) mod Z.of_nat len)%Z). set (i2 := ((h + Z.of_nat n2) mod Z.of_nat len)%Z).
  assert (B1 : (0 <= i1 < Z.of_nat len)%Z) by (apply Z.mod_pos_bound; lia).
  assert (B2 : (0 <= i2 < Z.of_nat len)%Z) by (apply Z.mod_pos_bound; lia).
  intro Heq. apply (proj1 (NoDup_nth ring 0%Z)) in Heq; [|exact Hnd|fold len; lia|fold len; lia].
  apply Z2Nat.inj in Heq; try lia.
  unfold i1, i2 in Heq.
  assert (D : ((h + Z.of_nat n2) - (h + Z.of_nat n1) = Z.of_nat (n2 - n1))%Z) by lia.
  assert (M : (((h + Z.of_nat n2) - (h + Z.of_nat n1)) mod Z.of_nat len = 0)%Z).
  { rewrite Zminus_mod, Heq, Z.sub_diag. apply Z.mod_0_l. lia. }
  rewrite D in M. rewrite Z.mod_small in M by lia. lia.
Qed.

Lemma ketama_pred_clauses eps rf v a :
  sections_of 0 eps <> [] ->
  ketama_answers eps rf v = Some a ->
  (length a =? rf) && nodup_nat a && forallb (fun e => e <? length eps) a && balanced eps a = true.
Proof.
  intros Hne H. rewrite (replicas_wf_bool _ _ _ (ketama_answers_distinct _ _ _ _ Hne H)).
  exact (balanced_true eps a (ketama_answers_balanced _ _ _ _ Hne H)).
Qed.

Lemma hashmod_distinct addrs h n1 n2 :
  NoDup addrs -> (0 <= h)%Z -> n1 < n2 < length addrs ->
  exists a b, simple_getn (simple_ring addrs) h n1 = Some a /\
              simple_getn (simple_ring addrs) h n2 = Some b /\ a <> b.
Proof.
  intros Hnd Hh Hn. apply simple_getn_distinct; [|exact Hh|].
  - eapply Permutation_NoDup; [apply simple_ring_perm|exact Hnd].
  - rewrite <- (Permutation_length (simple_ring_perm addrs)). exact Hn.
Qed.

Lemma hashmod_wrap_witness :
  exists len h n1 n2, n1 < n2 < len /\ (0 <= h < 2 ^ 64)%Z /\
    simple_idx_wrap len h n1 = simple_idx_wrap len h n2.
Proof. exists 3, (2 ^ 64 - 1)%Z, 0, 1. split; [lia|]. split; [vm_compute; split; congruence|]. vm_compute. reflexivity. Qed.

(* tie T: the predicate of sort.Search in ketamaHashring.GetN, as read from the
   source, is the one the model's search_ge uses *)
Lemma search_pred_tie h v : ketama_search_pred h v = (v <=? h)%Z.
Proof. unfold ketama_search_pred. apply Z.geb_leb. Qed.

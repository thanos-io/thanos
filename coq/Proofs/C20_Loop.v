(* C20 — the loop-level model (calculateSectionReplicas' index walk + GetN) computes
   exactly the specification [spec_answers] on zone-free rings. *)
From Coq Require Import ZArith List Bool Lia Arith Permutation Sorting.Sorted.
Import ListNotations.
From Verif Require Import Lib.Corr Lib.ListFacts Lib.Hashring_Ketama Lib.Hashring_KetamaFacts Lib.Hashring_RingFacts
  Lib.Hashring_Answers Lib.Hashring_AnswersFacts Lib.Hashring_Build Gen.C20 Model.C20 Proofs.C20.
Close Scope Z_scope.

(* [walk] over the list L of the sections it is about to read: the same tests on the
   replicas, without modular indexing, fuel or lap counter *)
Fixpoint lw (rf : nat) (reps : list nat) (L : list section) : list nat :=
  match L with
  | [] => reps
  | s :: r =>
    if rf <=? length reps then reps
    else if mem (s_ep s) reps then lw rf reps r
    else lw rf (reps ++ [s_ep s]) r
  end.

Lemma lw_spec rf : forall L reps, length reps <= rf ->
  lw rf reps L = firstn rf (reps ++ dedup reps (map s_ep L)).
Proof.
  induction L as [|s r IH]; intros reps Hle; simpl.
  - rewrite app_nil_r, firstn_all2 by lia. reflexivity.
  - destruct (rf <=? length reps) eqn:E.
    + apply Nat.leb_le in E. assert (length reps = rf) by lia.
      rewrite firstn_app, firstn_all2 by lia. replace (rf - length reps) with 0 by lia. simpl. rewrite app_nil_r. reflexivity.
    + apply Nat.leb_gt in E. unfold mem. destruct (existsb (Nat.eqb (s_ep s)) reps) eqn:M.
      * apply IH. exact Hle.
      * rewrite IH by (rewrite app_length; simpl; lia). rewrite <- app_assoc. simpl. do 3 f_equal.
        apply dedup_seen_ext. intro x. rewrite in_app_iff. simpl. tauto.
Qed.

Section SingleZone.
  Variable ring : list section.
  Hypothesis ring_ne : ring <> [].
  Variable a0 : Z.
  Hypothesis ring_az : forall s, In s ring -> s_az s = a0.
  Let len := length ring.

  Lemma rejects_single reps c s : rejects reps [(a0, c)] s = mem (s_ep s) reps.
  Proof. unfold rejects, mem. simpl. rewrite orb_false_r. reflexivity. Qed.

  (* L is the stretch of the ring that is read next from position jn;
     since + length L <= len keeps the lap test from firing while it is read *)
  Lemma walk_follows rf : forall L fuel jn since reps c,
    (forall t, t < length L -> nth t L dummy_section = nth ((jn + t) mod len) ring dummy_section) ->
    since + length L <= len -> length L < fuel ->
    rf <= length (lw rf reps L) ->
    walk true fuel ring rf jn since reps [(a0, c)] = Done (lw rf reps L).
  Proof.
    assert (Hlen : 0 < len) by (unfold len; destruct ring; [congruence|simpl; lia]).
    induction L as [|s r IH]; intros fuel jn since reps c Hnth Hs Hf Hdone.
    - simpl in Hdone. destruct fuel; simpl; rewrite (proj2 (Nat.leb_le _ _) Hdone); reflexivity.
    - destruct fuel as [|f]; [simpl in Hf; lia|]. simpl in Hdone |- *.
      destruct (rf <=? length reps) eqn:E; [reflexivity|].
      fold len. simpl in Hs.
      destruct (len <=? since) eqn:E2; [apply Nat.leb_le in E2; lia|]. simpl.
      assert (Hs0 : nth (jn mod len) ring dummy_section = s).
      { specialize (Hnth 0 ltac:(simpl; lia)). simpl in Hnth. rewrite Nat.add_0_r in Hnth. symmetry. exact Hnth. }
      rewrite Hs0, rejects_single.
      assert (Hnth' : forall t, t < length r ->
                nth t r dummy_section = nth ((S (jn mod len) + t) mod len) ring dummy_section).
      { intros t Ht. specialize (Hnth (S t) ltac:(simpl; lia)). simpl in Hnth. rewrite Hnth. f_equal.
        replace (S (jn mod len) + t) with (jn mod len + S t) by lia.
        rewrite Nat.add_mod_idemp_l by lia. reflexivity. }
      assert (Hin : In s ring) by (rewrite <- Hs0; apply nth_mod_In, ring_ne).
      destruct (mem (s_ep s) reps) eqn:M.
      + apply IH; [exact Hnth'|lia|simpl in Hf; lia|exact Hdone].
      + rewrite (ring_az s Hin). simpl. rewrite Z.eqb_refl.
        apply IH; [exact Hnth'|lia|simpl in Hf; lia|exact Hdone].
  Qed.
End SingleZone.

Definition rot_i {A} (l : list A) (i : nat) : list A := skipn i l ++ firstn i l.

Lemma nth_firstn' {A} (d : A) : forall l i t, t < i -> nth t (firstn i l) d = nth t l d.
Proof.
  induction l as [|a l IH]; intros i t Ht; destruct i, t; simpl; try reflexivity; try lia.
  apply IH. lia.
Qed.

Lemma nth_skipn' {A} (d : A) : forall l i t, nth t (skipn i l) d = nth (i + t) l d.
Proof.
  induction l as [|a l IH]; intros i t; destruct i; simpl; try reflexivity.
  - destruct t; reflexivity.
  - apply IH.
Qed.

Lemma rot_i_nth {A} (d : A) l i t : i < length l -> t < length l ->
  nth t (rot_i l i) d = nth ((i + t) mod length l) l d.
Proof.
  intros Hi Ht. unfold rot_i. destruct (le_lt_dec (length l - i) t) as [Hge|Hlt].
  - rewrite app_nth2 by (rewrite skipn_length; lia). rewrite skipn_length.
    rewrite nth_firstn' by lia.
    replace (i + t) with ((t - (length l - i)) + 1 * length l) by lia.
    rewrite Nat.mod_add by lia. rewrite Nat.mod_small by lia. reflexivity.
  - rewrite app_nth1 by (rewrite skipn_length; lia).
    rewrite Nat.mod_small by lia. apply nth_skipn'.
Qed.

Lemma rot_i_length {A} (l : list A) i : length (rot_i l i) = length l.
Proof. unfold rot_i. rewrite app_length, skipn_length, firstn_length. lia. Qed.

(* on a hash-sorted ring, "from the first section with hash >= v, cyclically"
   is the rotation at sort.Search's index (wrapping to 0) *)
Lemma rot_v_is_rot_i ring v : StronglySorted hash_le ring ->
  rot_v ring v = rot_i ring (ring_index ring v).
Proof.
  intro S. unfold rot_v, rot_i, ring_index.
  assert (H : filter (fun s => (v <=? s_hash s)%Z) ring = skipn (search_ge ring v) ring /\
              filter (fun s => (s_hash s <? v)%Z) ring = firstn (search_ge ring v) ring).
  { induction S as [|s r Sr IH F]; simpl; [split; reflexivity|].
    destruct (v <=? s_hash s)%Z eqn:E.
    - apply Z.leb_le in E. simpl.
      assert (Hall : forall x, In x r -> (v <=? s_hash x)%Z = true /\ (s_hash x <? v)%Z = false).
      { rewrite Forall_forall in F. intros x Hx. specialize (F x Hx). unfold hash_le in F.
        split; [apply Z.leb_le|apply Z.ltb_ge]; lia. }
      split.
      + f_equal. apply filter_all. intros x Hx. apply Hall. exact Hx.
      + destruct (s_hash s <? v)%Z eqn:E'; [apply Z.ltb_lt in E'; lia|].
        apply filter_none. intros x Hx. apply Hall. exact Hx.
    - apply Z.leb_gt in E. simpl. destruct IH as [I1 I2].
      destruct (s_hash s <? v)%Z eqn:E'; [|apply Z.ltb_ge in E'; lia].
      split; [exact I1|f_equal; exact I2]. }
  destruct H as [H1 H2]. rewrite H1, H2.
  destruct (search_ge ring v =? length ring) eqn:E; [|reflexivity].
  apply Nat.eqb_eq in E. rewrite E, skipn_all, firstn_all. simpl. rewrite app_nil_r. reflexivity.
Qed.

Lemma az_set_nozone_seen r : az_set [0%Z] (nozone r) = [0%Z].
Proof. induction r as [|h r IH]; simpl; [reflexivity|exact IH]. Qed.

Lemma az_set_nozone hs : hs <> [] -> az_set [] (nozone hs) = [0%Z].
Proof. destruct hs as [|h r]; [congruence|]. intros _. simpl. apply az_set_nozone_seen. Qed.

Lemma nozone_length hs : length (nozone hs) = length hs.
Proof. apply map_length. Qed.

Lemma nozone_sections_az hs s : In s (sort_sections (sections_of 0 (nozone hs))) -> s_az s = 0%Z.
Proof.
  intro Hs. apply sort_sections_In, sections_of_In in Hs as [_ [h [Hn _]]].
  apply nth_error_In in Hn. unfold nozone in Hn. apply in_map_iff in Hn as [x [E _]]. inversion E. reflexivity.
Qed.

Lemma loop_is_spec hs rf v :
  rf <= length hs -> Forall (fun h => h <> []) hs -> hs <> [] ->
  loop_answers hs rf v = Some (spec_answers (spec_ring hs) rf v).
Proof.
  intros Hrf Hsec Hne.
  set (eps := nozone hs).
  assert (Hsec' : Forall (fun e : Z * list Z => snd e <> []) eps).
  { unfold eps, nozone. rewrite Forall_forall in *. intros e He. apply in_map_iff in He as [h [<- Hh]]. simpl. auto. }
  assert (Hlen : length eps = length hs) by apply nozone_length.
  assert (Hazs : az_set [] eps = [0%Z]) by apply (az_set_nozone hs Hne).
  destruct (single_zone_ok eps rf) as [ring0 [reps K]]; [rewrite Hazs; simpl; lia|lia|exact Hsec'|].
  assert (Hsne : sections_of 0 eps <> []).
  { destruct hs as [|h r]; [congruence|]. inversion Hsec; subst. destruct h as [|x h]; [congruence|]. simpl. discriminate. }
  assert (Heq : loop_answers hs rf v = ketama_answers eps rf v).
  { unfold loop_answers, loop_query, ketama_answers. fold eps. rewrite Hlen. reflexivity. }
  rewrite Heq, (proj1 (ketama_answers_KOk eps rf v ring0 reps Hsne K)). f_equal.
  (* the replicas of the section found by the lookup *)
  apply ketama_new_fuel_KOk in K as [_ [-> C]]. rewrite Hazs in C.
  set (ring := sort_sections (sections_of 0 eps)) in *.
  assert (Hring : ring <> []) by apply sort_sections_nonempty, Hsne.
  set (idx := ring_index ring v).
  assert (Hidx : idx < length ring) by (apply ring_index_lt; exact Hring).
  destruct (calc_from_COk _ _ _ _ _ _ _ C) as [_ W]. specialize (W idx). rewrite seq_length in W.
  specialize (W Hidx). rewrite seq_nth in W by exact Hidx. simpl in W.
  (* every endpoint is met on the walk, so the list walk ends with rf replicas *)
  assert (Hdone : rf <= length (lw rf [] (rot_i ring idx))).
  { rewrite lw_spec by (simpl; lia). simpl. rewrite firstn_length.
    assert (length hs <= length (dedup [] (map s_ep (rot_i ring idx)))); [|lia].
    rewrite <- (seq_length (length hs) 0).
    apply NoDup_incl_length; [apply seq_NoDup|].
    intros k Hk. apply in_seq in Hk.
    destruct (ring_has_endpoint eps k Hsec') as [s [Hin He]]; [lia|].
    destruct (dedup_complete (map s_ep (rot_i ring idx)) [] k) as [[]|Hd]; [|exact Hd].
    apply in_map_iff. exists s. split; [exact He|].
    unfold rot_i. apply in_or_app.
    fold ring in Hin. rewrite <- (firstn_skipn idx ring) in Hin. apply in_app_or in Hin. tauto. }
  rewrite (walk_follows ring Hring 0%Z (nozone_sections_az hs) rf (rot_i ring idx)) in W.
  - injection W as <-. rewrite lw_spec by (simpl; lia). simpl.
    unfold spec_answers, spec_ring. fold eps. fold ring.
    rewrite (rot_v_is_rot_i ring v (sort_sections_StronglySorted _)). reflexivity.
  - intros t Ht. rewrite rot_i_length in Ht. apply rot_i_nth; assumption.
  - rewrite rot_i_length. simpl. lia.
  - rewrite rot_i_length. unfold walk_fuel. unfold ring. rewrite sort_sections_length. lia.
  - exact Hdone.
Qed.

Lemma add_node_loop hs p e rf v :
  p <= length hs -> rf <= length hs -> hs <> [] ->
  Forall (fun h => h <> []) (ins p e hs) ->
  NoDup (map s_hash (sections_of 0 (nozone (ins p e hs)))) ->
  exists A A', loop_answers hs rf v = Some A /\ loop_answers (ins p e hs) rf v = Some A' /\
               only_onto_new p A A' = true.
Proof.
  intros Hp Hrf Hne Hsec Hnd.
  assert (Hsec0 : Forall (fun h => h <> []) hs).
  { rewrite Forall_forall in *. intros h Hh. apply Hsec. unfold ins.
    rewrite <- (firstn_skipn p hs) in Hh. apply in_app_or in Hh as [Hh|Hh]; apply in_or_app; [now left|right; now right]. }
  exists (spec_answers (spec_ring hs) rf v), (spec_answers (spec_ring (ins p e hs)) rf v).
  split; [apply loop_is_spec; assumption|]. split.
  - apply loop_is_spec; [rewrite ins_length; lia|exact Hsec|].
    intro X. apply (f_equal (@length _)) in X. rewrite ins_length in X. discriminate.
  - apply add_node_only_onto_new; assumption.
Qed.

(* C08 — the frame part of TSDBStore.Series: splitting a series into frames keeps every
   chunk, in order, under the byte budget ([frames_preserve], [frames_budget]), and what
   the response contains ([series_spec]). The label part is Proofs/C08_Labels.v. *)
From Coq Require Import ZArith NArith List Bool Lia.
Import ListNotations.
From Verif Require Import Lib.Corr Lib.Proxy_Order Gen.C08 Model.C05 Model.C08 Proofs.C08_Labels.
Open Scope Z_scope.

Lemma split_spec base : forall cs acc left, cs <> [] ->
  concat (split base left acc cs) = acc ++ cs /\ Forall (fun f => f <> []) (split base left acc cs).
Proof.
  induction cs as [|c r IH]; intros acc left Hne; [exfalso; apply Hne; reflexivity|]. cbn [split].
  destruct r as [|c2 r'].
  - cbn. rewrite app_nil_r. split; [reflexivity|]. constructor; [|constructor]. destruct acc; discriminate.
  - destruct (frame_continue (left - csize c) true).
    + destruct (IH (acc ++ [c]) (left - csize c) ltac:(discriminate)) as [H1 H2].
      split; [rewrite H1, <- app_assoc; reflexivity | exact H2].
    + destruct (IH [] base ltac:(discriminate)) as [H1 H2]. cbn [concat]. rewrite H1. cbn [app].
      split; [rewrite <- app_assoc; reflexivity|]. constructor; [destruct acc; discriminate | exact H2].
Qed.

Theorem frames_preserve maxBytes lbls cs :
  concat (map snd (frames_of maxBytes false lbls cs)) = cs
  /\ Forall (fun f => fst f = lbls /\ snd f <> []) (frames_of maxBytes false lbls cs).
Proof.
  unfold frames_of. cbn [negb]. set (base := maxBytes - _).
  destruct cs as [|c r]; [cbn; split; [reflexivity|constructor]|].
  destruct (split_spec base (c :: r) [] base ltac:(discriminate)) as [H1 H2].
  split.
  - rewrite map_map. cbn [snd]. rewrite map_id. exact H1.
  - apply Forall_forall. intros f Hf. apply in_map_iff in Hf as [g [E Hg]]. subst f. cbn. split; [reflexivity|].
    rewrite Forall_forall in H2. apply H2. exact Hg.
Qed.

(* the frame budget: a chunk is only added to a frame while bytes are left, so every frame
   without its last chunk is strictly smaller than the budget (frame limit minus labels) *)
Definition fsum (f : list chunk) : Z := fold_right Z.add 0 (map csize f).
Lemma fsum_app a b : fsum (a ++ b) = fsum a + fsum b.
Proof. unfold fsum. rewrite map_app. induction (map csize a); cbn; lia. Qed.

Lemma frame_continue_pos x : frame_continue x true = true -> 0 < x.
Proof. unfold frame_continue. rewrite andb_true_r. intros H. apply Z.gtb_lt in H. lia. Qed.

Lemma split_budget base : forall cs acc left,
  left = base - fsum acc -> (acc <> [] -> 0 < left) ->
  Forall (fun f => removelast f <> [] -> fsum (removelast f) < base) (split base left acc cs).
Proof.
  induction cs as [|c r IH]; intros acc left Hl Ha; [constructor|]. cbn [split].
  assert (Hhead : removelast (acc ++ [c]) <> [] -> fsum (removelast (acc ++ [c])) < base).
  { rewrite removelast_last. intros Hne. specialize (Ha Hne). lia. }
  destruct r as [|c2 r']; [constructor; [exact Hhead|constructor]|].
  destruct (frame_continue (left - csize c) true) eqn:E.
  - apply IH.
    + rewrite fsum_app. unfold fsum at 2. cbn. lia.
    + intros _. apply frame_continue_pos. exact E.
  - constructor; [exact Hhead|]. apply IH; [unfold fsum; cbn; lia | intros H; exfalso; apply H; reflexivity].
Qed.

Theorem frames_budget maxBytes lbls cs :
  let base := maxBytes - fold_right Z.add 0 (map label_size lbls) in
  Forall (fun f => removelast (snd f) <> [] -> fsum (removelast (snd f)) < base) (frames_of maxBytes false lbls cs).
Proof.
  cbv zeta. unfold frames_of. cbn [negb]. set (base := maxBytes - _).
  apply Forall_forall. intros f Hf. apply in_map_iff in Hf as [g [E Hg]]. subst f. cbn [snd].
  pose proof (split_budget base cs [] base ltac:(unfold fsum; cbn; lia) ltac:(intros H; exfalso; apply H; reflexivity)) as HB.
  rewrite Forall_forall in HB. apply HB. exact Hg.
Qed.

Theorem series_spec ext drop ms maxBytes skip stored fs :
  tsdb_series ext drop ms maxBytes skip stored = ROkFrames fs ->
  (matches_external_labels mname mmatch ms ext = None -> fs = [])
  /\ forall l f, In (l, f) fs ->
       exists sl cs, In (sl, cs) stored /\ l = present ext drop sl
                     /\ (skip = false -> f <> [] /\ incl f cs).
Proof.
  unfold tsdb_series. destruct (matches_external_labels mname mmatch ms ext) as [kept|] eqn:E.
  - destruct kept as [|k0 kr]; [discriminate|]. intros H. inversion H; subst fs. clear H.
    split; [discriminate|]. intros l f Hin. apply in_concat in Hin as [x [Hx Hin]].
    apply in_map_iff in Hx as [[sl cs] [Ex Hs]]. subst x. cbn [fst snd] in Hin.
    cbv beta in Hin. cbn [fst snd] in Hin.
    change (mmatch k0 (lget sl (mname k0)) && selected kr sl) with (selected (k0 :: kr) sl) in Hin.
    destruct (selected (k0 :: kr) sl) eqn:Esel; [|exact (False_ind _ Hin)]. exists sl, cs. split; [exact Hs|].
    unfold frames_of in Hin. destruct skip.
    + destruct Hin as [Hin|[]]. inversion Hin; subst. split; [reflexivity | discriminate].
    + pose proof (frames_preserve maxBytes (present ext drop sl) cs) as [P1 P2]. unfold frames_of in P1, P2. cbn [negb] in *.
      rewrite Forall_forall in P2. destruct (P2 _ Hin) as [Q1 Q2]. cbn in Q1, Q2. split; [exact Q1|].
      intros _. split; [exact Q2|]. intros c Hc. rewrite <- P1. apply in_concat. exists f. split; [|exact Hc].
      apply in_map_iff. exists (l, f). split; [reflexivity|exact Hin].
  - intros H. inversion H; subst. split; [reflexivity|]. intros l f [].
Qed.

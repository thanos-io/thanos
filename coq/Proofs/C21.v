(* C21 — lemmas: override semantics, the cache, selection inside one zone, the whole
   shard zone after zone, lookups on the sub-ring. *)
From Coq Require Import ZArith List Bool Lia Arith Permutation.
Import ListNotations.
From Verif Require Import Lib.Corr Lib.ListFacts Lib.Hashring_Ketama Lib.Hashring_KetamaFacts
  Lib.Hashring_Answers Lib.Hashring_AnswersFacts Gen.C21 Model.C21.
Close Scope Z_scope.

Lemma unset_is_exact_true : unset_is_exact = true.
Proof. reflexivity. Qed.

Lemma shard_size_is_documented ovs : forall globm tenant dflt,
  shard_size ovs globm tenant dflt = shard_size_doc ovs globm tenant dflt.
Proof.
  induction ovs as [|[[size mt] ts] r IH]; intros globm tenant dflt; simpl; [reflexivity|].
  rewrite IH. try rewrite unset_is_exact_true. destruct mt; reflexivity.
Qed.

Lemma shard_size_first_match size mt ts r globm tenant dflt :
  (mt = MExact \/ mt = MUnset) -> In tenant ts ->
  shard_size ((size, mt, ts) :: r) globm tenant dflt = size.
Proof.
  intros Hmt Hin. simpl. try rewrite unset_is_exact_true.
  assert (E : existsb (Z.eqb tenant) ts = true) by apply existsb_Z_In, Hin.
  destruct Hmt as [-> | ->]; rewrite E; reflexivity.
Qed.

Lemma cache_transparent compute evict :
  (forall c p, In p (evict c) -> In p c) ->
  forall ts cache,
  (forall p, In p cache -> snd p = compute (fst p)) ->
  run_requests compute evict cache ts = map compute ts.
Proof.
  intros Hev. induction ts as [|t r IH]; intros cache Hinv; simpl; [reflexivity|].
  unfold cache_get. destruct (find (fun p => (fst p =? t)%Z) cache) as [p|] eqn:F.
  - apply find_some in F as [Hin Ht]. apply Z.eqb_eq in Ht. rewrite (Hinv p Hin), Ht. f_equal. apply IH. exact Hinv.
  - destruct (compute t) eqn:C; f_equal.
    + apply IH. intros p Hp. apply Hev in Hp. destruct Hp as [<-|Hp]; [simpl; symmetry; exact C|auto].
    + apply IH. exact Hinv.
Qed.

Lemma pick_first_spec secs selected :
  match pick_first secs selected with
  | Some e => ~ In e selected /\ exists s, In s secs /\ s_ep s = e
  | None => forall s, In s secs -> In (s_ep s) selected
  end.
Proof.
  induction secs as [|s r IH]; simpl; [intros ? []|].
  destruct (existsb (Nat.eqb (s_ep s)) selected) eqn:E.
  - destruct (pick_first r selected) as [e|].
    + destruct IH as [H1 [s' [H2 H3]]]. split; [exact H1|]. exists s'. split; [now right|exact H3].
    + intros s' [<-|H]; [apply existsb_nat_In; exact E|auto].
  - split.
    + intro H. apply existsb_nat_In in H. congruence.
    + exists s. split; [now left|reflexivity].
Qed.

Lemma rot_In {A} (l : list A) i x : In x (rot l i) <-> In x l.
Proof.
  unfold rot. rewrite in_app_iff. rewrite <- (firstn_skipn i l) at 3. rewrite in_app_iff. tauto.
Qed.

(* [D]: the distinct endpoints that own a section of the zone *)
Lemma select_spec secs D : NoDup D -> (forall d, In d D -> exists s, In s secs /\ s_ep s = d) ->
  forall take positions selected,
  take <= length positions ->
  NoDup selected -> length selected + take <= length D ->
  let l := select secs positions take selected in
  NoDup l /\ length l = length selected + take /\
  (forall e, In e l -> In e selected \/ exists s, In s secs /\ s_ep s = e) /\
  (forall e, In e selected -> In e l).
Proof.
  intros HD Hown. induction take as [|t IH]; intros positions selected Hpos Hnd Hlen; simpl.
  - split; [exact Hnd|]. split; [lia|]. split; auto.
  - destruct positions as [|pos ps]; [simpl in Hpos; lia|]. simpl in Hpos.
    pose proof (pick_first_spec (rot secs (ring_index secs pos)) selected) as PF.
    destruct (pick_first (rot secs (ring_index secs pos)) selected) as [e|].
    + destruct PF as [Hn [s [Hs He]]]. apply rot_In in Hs.
      destruct (IH ps (selected ++ [e])) as [H1 [H2 [H3 H4]]].
      * lia.
      * apply NoDup_snoc; assumption.
      * rewrite app_length. simpl. lia.
      * split; [exact H1|]. split; [rewrite H2, app_length; simpl; lia|]. split.
        -- intros x Hx. destruct (H3 x Hx) as [Hx'|Hx']; [|now right].
           apply in_app_or in Hx' as [Hx'|[<-|[]]]; [now left|right; eauto].
        -- intros x Hx. apply H4. apply in_or_app. now left.
    + (* impossible: some endpoint of D is not selected yet *)
      exfalso.
      assert (Hincl : incl D selected).
      { intros d Hd. destruct (Hown d Hd) as [s [Hs <-]]. apply PF. apply rot_In. exact Hs. }
      apply NoDup_incl_length in Hincl; [lia|exact HD].
Qed.

Lemma NoDup_map_nth (nodes a : list nat) :
  NoDup nodes -> NoDup a -> (forall e, In e a -> e < length nodes) ->
  NoDup (map (fun i => nth i nodes 0) a).
Proof.
  intros Hnd. induction a as [|x a IH]; simpl; intros H2 H3; [constructor|].
  inversion H2 as [|? ? H4 H5]; subst. constructor.
  - intro Hin. apply in_map_iff in Hin as [y [Ey Hy]].
    assert (E : y = x).
    { apply (proj1 (NoDup_nth nodes 0) Hnd); [apply H3; now right|apply H3; now left|exact Ey]. }
    rewrite E in Hy. exact (H4 Hy).
  - apply IH; [assumption|]. intros e He. apply H3. now right.
Qed.

Lemma answers_inside_shard (nodes : list nat) sub_eps rf v a :
  length sub_eps = length nodes ->
  sections_of 0 sub_eps <> [] ->
  ketama_answers sub_eps rf v = Some a ->
  length a = rf /\
  (forall i, In i a -> In (nth i nodes 0) nodes) /\
  (NoDup nodes -> NoDup (map (fun i => nth i nodes 0) a)).
Proof.
  intros Hlen Hne H.
  destruct (ketama_answers_distinct _ _ _ _ Hne H) as [H1 [H2 H3]].
  split; [exact H1|]. split.
  - intros i Hi. apply nth_In. rewrite <- Hlen. auto.
  - intro Hnd. apply NoDup_map_nth; [exact Hnd|exact H2|]. intros e He. rewrite <- Hlen. auto.
Qed.

Lemma zone_nodes_as_positions disabled eps z :
  zone_nodes disabled eps z
  = length (filter (fun k => (zone_of disabled (az_of eps k) =? z)%Z) (seq 0 (length eps))).
Proof.
  unfold zone_nodes, az_of.
  rewrite <- (map_nth_seq (0%Z, @nil Z) eps) at 1.
  rewrite filter_map_comm, map_length. reflexivity.
Qed.

Lemma zones_of_az_set disabled eps : forall seen,
  zones_of disabled seen eps = az_set seen (map (fun e => (zone_of disabled (fst e), snd e)) eps).
Proof. induction eps as [|[az hs] r IH]; intro seen; simpl; [reflexivity|]. rewrite !IH. reflexivity. Qed.

Lemma count_zone_app disabled eps a b z :
  count_zone disabled eps (a ++ b) z = count_zone disabled eps a z + count_zone disabled eps b z.
Proof. unfold count_zone. rewrite filter_app, app_length. reflexivity. Qed.

Lemma count_zone_all disabled eps l z :
  (forall e, In e l -> zone_of disabled (az_of eps e) = z) -> count_zone disabled eps l z = length l.
Proof.
  intro H. unfold count_zone. rewrite filter_all; [reflexivity|].
  intros e He. apply Z.eqb_eq, H, He.
Qed.

Lemma count_zone_none disabled eps l z :
  (forall e, In e l -> zone_of disabled (az_of eps e) <> z) -> count_zone disabled eps l z = 0.
Proof.
  intro H. unfold count_zone. rewrite filter_none; [reflexivity|].
  intros e He. apply Z.eqb_neq, H, He.
Qed.

Section Shard.
  Variable disabled : bool.
  Variable eps : list (Z * list Z).
  Hypothesis Hsec : Forall (fun e => snd e <> []) eps.
  Variable take : Z.
  Hypothesis Htake : (0 <= take)%Z.
  Let ring := sort_sections (sections_of 0 eps).

  Lemma zone_selection z positions :
    (take <= Z.of_nat (zone_nodes disabled eps z))%Z -> Z.to_nat take <= length positions ->
    let secs := filter (fun s => (zone_of disabled (s_az s) =? z)%Z) ring in
    let sel := if length secs =? 0 then [] else select secs positions (Z.to_nat take) [] in
    NoDup sel /\ length sel = Z.to_nat take /\
    forall e, In e sel -> e < length eps /\ zone_of disabled (az_of eps e) = z.
  Proof.
    intros G Hpos secs sel.
    set (D := filter (fun k => (zone_of disabled (az_of eps k) =? z)%Z) (seq 0 (length eps))).
    assert (HD : NoDup D) by (apply NoDup_filter, seq_NoDup).
    assert (HDlen : length D = zone_nodes disabled eps z) by (symmetry; apply zone_nodes_as_positions).
    assert (Hown : forall d, In d D -> exists s, In s secs /\ s_ep s = d).
    { intros d Hd. apply filter_In in Hd as [Hd Hz]. apply in_seq in Hd.
      destruct (ring_has_endpoint eps d Hsec) as [s [Hs He]]; [lia|].
      exists s. split; [|exact He]. apply filter_In. split; [exact Hs|].
      rewrite (proj1 (ring_consistent eps s Hs)), He. exact Hz. }
    assert (Hsecs : forall e, (exists s, In s secs /\ s_ep s = e) -> e < length eps /\ zone_of disabled (az_of eps e) = z).
    { intros e [s [Hs <-]]. apply filter_In in Hs as [Hs Hz]. split; [exact (ring_ep_lt _ _ Hs)|].
      rewrite <- (proj1 (ring_consistent eps s Hs)). apply Z.eqb_eq, Hz. }
    unfold sel. destruct (length secs =? 0) eqn:E0.
    - (* no section, hence no node, in the zone: take = 0 *)
      apply Nat.eqb_eq, length_zero_iff_nil in E0. split; [constructor|]. split; [|intros ? []].
      destruct D as [|d D']; [simpl in *; lia|].
      destruct (Hown d (or_introl eq_refl)) as [s [Hs _]]. rewrite E0 in Hs. contradiction.
    - destruct (select_spec secs D HD Hown (Z.to_nat take) positions []) as [S1 [S2 [S3 _]]];
        [exact Hpos|constructor|simpl; lia|].
      split; [exact S1|]. split; [exact S2|].
      intros e He. apply Hsecs. destruct (S3 e He) as [[]|H]. exact H.
  Qed.

  Variable rand : list (Z * list Z).

  Lemma shard_zones_spec : forall zs nodes, NoDup zs ->
    (forall z, In z zs -> Z.to_nat take <= length (lookup_pos rand z)) ->
    shard_zones disabled eps ring rand take zs = Some nodes ->
    NoDup nodes /\
    (forall e, In e nodes -> e < length eps /\ In (zone_of disabled (az_of eps e)) zs) /\
    (forall z, In z zs -> count_zone disabled eps nodes z = Z.to_nat take) /\
    length nodes = length zs * Z.to_nat take.
  Proof.
    induction zs as [|z r IH]; intros nodes Hnd Hpos H; simpl in H.
    - inversion H; subst. split; [constructor|]. split; [intros ? []|]. split; [intros ? []|reflexivity].
    - destruct (Z.of_nat (zone_nodes disabled eps z) <? take)%Z eqn:G; [discriminate|]. apply Z.ltb_ge in G.
      destruct (shard_zones disabled eps ring rand take r) as [rest|] eqn:R; [|discriminate].
      inversion Hnd as [|? ? Hz Hnd']; subst.
      destruct (IH rest Hnd' (fun z' Hz' => Hpos z' (or_intror Hz')) eq_refl) as [I1 [I2 [I3 I4]]].
      destruct (zone_selection z (lookup_pos rand z) G (Hpos z (or_introl eq_refl))) as [S1 [S2 Hselzone]].
      inversion H; subst nodes. clear H.
      set (sel := if length _ =? 0 then [] else _) in *.
      split; [|split; [|split]].
      + apply NoDup_app; [exact S1|exact I1|].
        intros x Hx Hx'. destruct (Hselzone x Hx) as [_ Zx]. destruct (I2 x Hx') as [_ Zr].
        rewrite Zx in Zr. contradiction.
      + intros e He. apply in_app_or in He as [He|He].
        * destruct (Hselzone e He) as [B Zx]. split; [exact B|]. rewrite Zx. now left.
        * destruct (I2 e He) as [B Zr]. split; [exact B|now right].
      + intros z' [<-|Hz'].
        * rewrite count_zone_app, (count_zone_all disabled eps sel z), (count_zone_none disabled eps rest z); [lia| |].
          -- intros e He Ez. destruct (I2 e He) as [_ Zr]. rewrite Ez in Zr. contradiction.
          -- intros e He. apply Hselzone. exact He.
        * rewrite count_zone_app, (count_zone_none disabled eps sel z'), (I3 z' Hz'); [lia|].
          intros e He Ez. destruct (Hselzone e He) as [_ Zx]. rewrite Zx in Ez. subst. contradiction.
      + rewrite app_length, S2, I4. simpl. lia.
  Qed.
End Shard.

Lemma per_zone_nonneg ss nz : (0 <= ss)%Z -> 0 < nz -> (0 <= per_zone ss nz)%Z.
Proof. intros H Hn. unfold per_zone. apply Z.div_pos; lia. Qed.

Lemma tenant_shard_sized eps rf dflt disabled ovs globm tenant rand nodes :
  Forall (fun e => snd e <> []) eps -> eps <> [] ->
  let zs := zones_of disabled [] eps in
  let ss := shard_size ovs globm tenant dflt in
  let take := if disabled then ss else per_zone ss (length zs) in
  (0 <= ss)%Z ->
  (forall z, In z zs -> Z.to_nat take <= length (lookup_pos rand z)) ->
  tenant_shard eps rf dflt disabled ovs globm tenant rand = SOk nodes ->
  NoDup nodes /\ (forall e, In e nodes -> e < length eps) /\
  (forall z, In z zs -> Z.of_nat (count_zone disabled eps nodes z) = take) /\
  Z.of_nat (length nodes) = (Z.of_nat (length zs) * take)%Z /\ rf <= length nodes.
Proof.
  intros Hsec Hne zs ss take Hss Hpos H. unfold tenant_shard in H. fold zs ss in H.
  change (if disabled then ss else per_zone ss (length zs)) with take in H.
  assert (Hzs : 0 < length zs).
  { destruct eps as [|[az hs] r]; [congruence|].
    assert (Hin : In (zone_of disabled az) zs).
    { unfold zs. rewrite zones_of_az_set. apply az_set_spec. right. exists hs. now left. }
    apply Nat.neq_0_lt_0. intro E. apply length_zero_iff_nil in E. rewrite E in Hin. exact Hin. }
  assert (Htake : (0 <= take)%Z).
  { unfold take. destruct disabled; [exact Hss|apply per_zone_nonneg; assumption]. }
  assert (Hnd : NoDup zs) by (unfold zs; rewrite zones_of_az_set; apply az_set_NoDup; constructor).
  destruct (shard_zones disabled eps (sort_sections (sections_of 0 eps)) rand take zs) as [ns|] eqn:S; [|discriminate].
  destruct (length ns <? rf) eqn:L; [discriminate|]. apply Nat.ltb_ge in L. inversion H; subst ns.
  destruct (shard_zones_spec disabled eps Hsec take Htake rand zs nodes Hnd Hpos S) as [H1 [H2 [H3 H4]]].
  split; [exact H1|]. split; [intros e He; apply H2; exact He|]. split; [|split; [|exact L]].
  - intros z Hz. rewrite (H3 z Hz). apply Z2Nat.id. exact Htake.
  - rewrite H4, Nat2Z.inj_mul, Z2Nat.id by exact Htake. reflexivity.
Qed.

Lemma shard_search_pred_tie h pos : shard_search_pred h pos = (pos <=? h)%Z.
Proof. unfold shard_search_pred. apply Z.geb_leb. Qed.

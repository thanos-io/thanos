(* C30 — lemmas about the planner model (Model/C30.v): what each loop of the
   planner returns, where a plan comes from ([plan_origin]) and the clauses of
   the property read off from that, convergence of plan / apply, and the
   boolean predicate the check evaluates. *)
From Coq Require Import ZArith List Bool Lia Arith Permutation.
Import ListNotations.
From Verif Require Import Lib.Corr Lib.ListFacts Lib.Compact_List Gen.C30 Model.C30.
Open Scope Z_scope.

(* the start of the aligned window is tr * floor(mint / tr), also for negative
   timestamps: Go's division truncates, and the branch for mint < 0 makes up
   for it *)
Lemma t0_spec mint tr : 0 < tr -> splitByRange_t0 mint tr = tr * (mint / tr).
Proof.
  intros H. unfold splitByRange_t0.
  destruct (Z.geb_spec mint 0); f_equal; [apply Z.quot_div_nonneg; lia|].
  Z.to_euclidean_division_equations. nia.
Qed.

Lemma skip_false maxt t0 tr : splitByRange_skip maxt t0 tr = false <-> maxt <= t0 + tr.
Proof. unfold splitByRange_skip. rewrite Z.gtb_ltb, Z.ltb_ge. reflexivity. Qed.

Lemma break_false maxt t0 tr : splitByRange_break maxt t0 tr = false <-> maxt <= t0 + tr.
Proof. unfold splitByRange_break. rewrite Z.gtb_ltb, Z.ltb_ge. reflexivity. Qed.

Lemma ov_take_prefix g l : exists r, l = ov_take g l ++ r.
Proof.
  revert g. induction l as [|m l IH]; intros g; simpl.
  - exists []. reflexivity.
  - destruct (mint m <? g).
    + destruct (IH (Z.max g (maxt m))) as (r & Hr). exists r. simpl. now rewrite <- Hr.
    + exists (m :: l). reflexivity.
Qed.

Lemma ov_scan_segment prev g l : segment (ov_scan prev g l) (prev :: l).
Proof.
  revert prev g. induction l as [|m l IH]; intros prev g; simpl.
  - exists [], [prev]. reflexivity.
  - destruct (mint m <? g).
    + destruct (ov_take_prefix (Z.max g (maxt m)) l) as (r & Hr).
      exists [], r. simpl. now rewrite <- Hr.
    + apply segment_cons, IH.
Qed.

Lemma ov_scan_len prev g l : ov_scan prev g l = [] \/ (2 <= length (ov_scan prev g l))%nat.
Proof.
  revert prev g. induction l as [|m l IH]; intros prev g; simpl; auto.
  destruct (mint m <? g); simpl; [right; lia | apply IH].
Qed.

Lemma select_overlapping_segment l : segment (select_overlapping l) l.
Proof.
  destruct l as [|m l]; simpl; [apply segment_refl | apply ov_scan_segment].
Qed.

Lemma select_overlapping_len l :
  select_overlapping l = [] \/ (2 <= length (select_overlapping l))%nat.
Proof. destruct l; simpl; auto using ov_scan_len. Qed.

(* no block starts before the end of an earlier one *)
Definition disjoint_sorted (l : list meta) : Prop := pairwise (fun a b => maxt a <= mint b) l.

Lemma ov_scan_nil prev g l :
  ov_scan prev g l = [] <-> Forall (fun m => g <= mint m) l /\ disjoint_sorted l.
Proof.
  revert prev g. induction l as [|m l IH]; intros prev g; simpl.
  - split; auto. intros _. split; constructor.
  - destruct (mint m <? g) eqn:E.
    + split; [intros; discriminate|]. intros (Hf & _). inversion Hf; subst. apply Z.ltb_lt in E. lia.
    + apply Z.ltb_ge in E. rewrite IH. unfold disjoint_sorted. simpl. split.
      * intros (Hf & Hd). rewrite Forall_forall in Hf. repeat split; auto.
        -- constructor; auto. apply Forall_forall. intros x Hx. specialize (Hf x Hx). lia.
        -- apply Forall_forall. intros x Hx. specialize (Hf x Hx). lia.
      * intros (Hf & Hm & Hd). inversion Hf; subst. split; auto.
        rewrite Forall_forall in *. intros x Hx. specialize (Hm x Hx). specialize (H2 x Hx). lia.
Qed.

Lemma select_overlapping_nil l : select_overlapping l = [] <-> disjoint_sorted l.
Proof.
  destruct l as [|m l]; simpl.
  - split; auto. intros _. exact I.
  - rewrite ov_scan_nil. unfold disjoint_sorted. simpl. tauto.
Qed.

Lemma take_fit_spec t0 tr l g rest :
  take_fit t0 tr l = (g, rest) -> l = g ++ rest /\ Forall (fun q => maxt q <= t0 + tr) g.
Proof.
  revert g rest. induction l as [|m l IH]; intros g rest; simpl.
  - intros H. inversion H; subst. split; auto.
  - destruct (splitByRange_break (maxt m) t0 tr) eqn:E.
    + intros H. inversion H; subst. split; auto.
    + destruct (take_fit t0 tr l) as [g' rest'] eqn:T. intros H. inversion H; subst.
      destruct (IH g' rest eq_refl) as (-> & Hf). split; auto.
      constructor; auto. apply break_false, E.
Qed.

(* every group is a non-empty contiguous segment whose blocks all end inside
   the window of the group's first block *)
Lemma sbr_spec fuel l tr g :
  In g (sbr fuel l tr) ->
  exists m g', g = m :: g' /\ segment g l /\
    Forall (fun q => maxt q <= splitByRange_t0 (mint m) tr + tr) g.
Proof.
  revert l. induction fuel as [|f IH]; intros l; simpl; [contradiction|].
  destruct l as [|m r]; [contradiction|].
  destruct (splitByRange_skip (maxt m) (splitByRange_t0 (mint m) tr) tr) eqn:E.
  - intros Hin. destruct (IH r Hin) as (m' & g' & -> & Hs & Hf).
    exists m', g'. repeat split; auto. now apply segment_cons.
  - destruct (take_fit (splitByRange_t0 (mint m) tr) tr r) as [g1 rest] eqn:T.
    destruct (take_fit_spec _ _ _ _ _ T) as (-> & Hf).
    intros [<-|Hin].
    + exists m, g1. repeat split; auto.
      * exists [], rest. reflexivity.
      * constructor; auto. apply skip_false, E.
    + destruct (IH rest Hin) as (m' & g' & -> & Hs & Hf').
      exists m', g'. repeat split; auto.
      eapply segment_trans; [exact Hs|]. apply (segment_suffix (m :: g1)).
Qed.

Lemma group_segment l tr g : In g (split_by_range l tr) -> segment g l.
Proof. intros Hin. destruct (sbr_spec _ _ _ _ Hin) as (_ & _ & _ & Hs & _). exact Hs. Qed.

Definition sorted_mint (l : list meta) : Prop := pairwise (fun a b => mint a <= mint b) l.

Definition in_window (t0 tr : Z) (p : list meta) : Prop :=
  Forall (fun q => t0 <= mint q /\ maxt q <= t0 + tr) p.

Lemma group_in_window l tr g : 0 < tr -> sorted_mint l -> In g (split_by_range l tr) ->
  exists k, in_window (tr * k) tr g.
Proof.
  intros Htr Hs Hin. destruct (sbr_spec _ _ _ _ Hin) as (m & g' & -> & Hseg & Hf).
  exists (mint m / tr). rewrite (t0_spec _ _ Htr) in Hf. pose proof (Z.mul_div_le (mint m) tr Htr).
  destruct (pairwise_sublist _ _ _ (segment_sublist _ _ Hseg) Hs) as [Hm _].
  inversion Hf; subst. constructor; [split; [lia|auto]|].
  rewrite Forall_forall in *. intros q Hq. split; [specialize (Hm q Hq); lia | auto].
Qed.

Definition Unmarked marks (p : list meta) : Prop := Forall (fun m => unmarked marks m = true) p.

Lemma filter_unmarked marks l : Unmarked marks (filter (unmarked marks) l).
Proof. apply Forall_forall. intros x Hx. apply filter_In in Hx. tauto. Qed.

Lemma first_seg_spec marks cur p s :
  Unmarked marks cur -> first_seg marks cur p = Some s ->
  segment s (rev cur ++ p) /\ (2 <= length s)%nat /\ Unmarked marks s.
Proof.
  revert cur. induction p as [|m r IH]; intros cur Hc; cbn [first_seg].
  - destruct (2 <=? length cur)%nat eqn:E; [|intros; discriminate]. intros H; inversion H; subst.
    apply Nat.leb_le in E. rewrite app_nil_r, rev_length. repeat split; auto using segment_refl.
    apply Forall_rev, Hc.
  - destruct (marked marks m) eqn:M.
    + destruct (2 <=? length cur)%nat eqn:E.
      * intros H; inversion H; subst. apply Nat.leb_le in E. rewrite rev_length.
        repeat split; auto using segment_prefix. apply Forall_rev, Hc.
      * intros H. destruct (IH [] (Forall_nil _) H) as (Hs & Hl & Hu). repeat split; auto.
        eapply segment_trans; [exact Hs|].
        exists (rev cur ++ [m]), []. now rewrite app_nil_r, <- app_assoc.
    + intros H. assert (Hc' : Unmarked marks (m :: cur)).
      { constructor; auto. unfold unmarked. now rewrite M. }
      destruct (IH _ Hc' H) as (Hs & Hl & Hu). repeat split; auto.
      simpl in Hs. now rewrite <- app_assoc in Hs.
Qed.

Lemma try_part_spec marks iv high p s : try_part marks iv high p = Some s ->
  segment s p /\ (2 <= length s)%nat /\ Unmarked marks s.
Proof.
  unfold try_part. destruct (existsb failed p); [intros; discriminate|].
  destruct (length p <? 2)%nat; [intros; discriminate|].
  destruct (selectMetas_skip _ _ _ _); [intros; discriminate|].
  apply (first_seg_spec marks [] p s (Forall_nil _)).
Qed.

Lemma select_metas_spec ranges marks l :
  select_metas ranges marks l = [] \/
  exists iv g, In iv (tl ranges) /\ In g (split_by_range l iv) /\
    segment (select_metas ranges marks l) g /\ (2 <= length (select_metas ranges marks l))%nat /\
    Unmarked marks (select_metas ranges marks l).
Proof.
  unfold select_metas. destruct ranges as [|r0 [|r1 rs]]; auto.
  destruct l as [|m0 l0]; auto.
  set (l := m0 :: l0).
  destruct (first_some _ (r1 :: rs)) as [s|] eqn:F; auto.
  right. apply first_some_Some in F. destruct F as (iv & Hiv & F).
  apply first_some_Some in F. destruct F as (g & Hg & F).
  apply try_part_spec in F. exists iv, g. simpl tl. tauto.
Qed.

Lemma tomb_loop_spec thr l p : tomb_loop thr l = Some p ->
  p = [] \/ exists m t, p = [m] /\ In m l /\ heavy m = true /\ thr = Some t /\ t <= maxt m - mint m.
Proof.
  induction l as [|m r IH]; simpl.
  - intros H; inversion H; auto.
  - destruct thr as [t|]; [|intros; discriminate].
    destruct (maxt m - mint m <? t) eqn:E; [intros H; inversion H; auto|].
    destruct (heavy m) eqn:Hv.
    + intros H; inversion H; subst. right. exists m, t. apply Z.ltb_ge in E. repeat split; auto.
    + intros H. destruct (IH H) as [->|(m' & t' & -> & Hin & Hh & Ht & Hl)]; auto.
      right. exists m', t'. repeat split; auto.
Qed.

Lemma tomb_loop_total t l : exists p, tomb_loop (Some t) l = Some p.
Proof.
  induction l as [|m r IH]; simpl; eauto.
  destruct (maxt m - mint m <? t); eauto. destruct (heavy m); eauto.
Qed.

Lemma mid_range_some ranges : ranges <> [] -> exists t, mid_range ranges = Some t /\ In t ranges.
Proof.
  intros H. unfold mid_range.
  destruct (nth_error ranges (length ranges / 2)) eqn:E.
  - exists z. split; auto. eapply nth_error_In, E.
  - apply nth_error_None in E. destruct ranges; [congruence|]. simpl length in E.
    pose proof (Nat.div_lt (S (length ranges)) 2). lia.
Qed.

(* the blocks the tombstone rule looks at never include the newest one: it is
   either marked, hence not among the unmarked ones, or removed explicitly *)
Lemma tomb_candidates marks l :
  sublist (if marked marks (last l dummy) then filter (unmarked marks) l
           else removelast (filter (unmarked marks) l)) (removelast l).
Proof.
  destruct l as [|a l0]; [simpl; destruct (marked marks dummy); constructor|].
  destruct (@exists_last _ (a :: l0)) as (l' & x & ->); [discriminate|].
  rewrite last_last, removelast_last, filter_app. unfold unmarked at 2 4. simpl.
  destruct (marked marks x); simpl; rewrite ?app_nil_r, ?removelast_last; apply sublist_filter.
Qed.

Lemma plan_total ranges marks l : l <> [] -> ranges <> [] -> exists p, plan ranges marks l = Some p.
Proof.
  intros Hl Hr. unfold plan. destruct l as [|m0 l0]; [congruence|].
  destruct (select_overlapping _); eauto.
  destruct (select_metas _ _ _); eauto.
  destruct (mid_range_some ranges Hr) as (t & -> & _). apply tomb_loop_total.
Qed.

(* where a plan comes from when no two not-excluded blocks overlap *)
Inductive quiet_origin (ranges marks : list Z) (l p : list meta) : Prop :=
| from_nothing : p = [] -> quiet_origin ranges marks l p
| from_ranges iv g : In iv (tl ranges) -> In g (split_by_range (removelast l) iv) -> segment p g ->
    (2 <= length p)%nat -> Unmarked marks p -> quiet_origin ranges marks l p
| from_tombstones m t : p = [m] -> In m (filter (unmarked marks) l) -> In m (removelast l) ->
    heavy m = true -> mid_range ranges = Some t -> t <= maxt m - mint m -> quiet_origin ranges marks l p.

(* a plan is the overlapping not-excluded blocks if there are any *)
Lemma plan_origin ranges marks l p : plan ranges marks l = Some p ->
  (p = select_overlapping (filter (unmarked marks) l) /\ (2 <= length p)%nat) \/
  (select_overlapping (filter (unmarked marks) l) = [] /\ quiet_origin ranges marks l p).
Proof.
  unfold plan. destruct l as [|m0 l0]; [intros; discriminate|]. set (l := m0 :: l0). intros H.
  destruct (select_overlapping (filter (unmarked marks) l)) as [|a s] eqn:Ov; [right; split; [reflexivity|] | left].
  - destruct (select_metas_spec ranges marks (removelast l)) as [E|(iv & g & Hiv & Hg & Hs & Hlen & Hu)].
    + rewrite E in H. apply tomb_loop_spec in H. destruct H as [->|(m & t & -> & Hin & Hh & Ht & Hl)].
      * now apply from_nothing.
      * apply in_rev in Hin. pose proof (tomb_candidates marks l) as Hc.
        apply (from_tombstones _ _ _ _ m t); auto.
        -- destruct (marked marks (last l dummy)); [|eapply sublist_In; [apply sublist_removelast|]]; exact Hin.
        -- eapply sublist_In; eauto.
    + destruct (select_metas ranges marks (removelast l)) as [|b s'] eqn:Sm; [simpl in Hlen; lia|].
      inversion H; subst. now apply (from_ranges _ _ _ _ iv g).
  - inversion H; subst. split; auto.
    destruct (select_overlapping_len (filter (unmarked marks) l)) as [E|E]; rewrite Ov in *; [discriminate|auto].
Qed.

(* "at least two, or a single block with many tombstones" (of at least the middle range) *)
Lemma plan_size ranges marks l p : plan ranges marks l = Some p ->
  p = [] \/ (2 <= length p)%nat \/
  exists m t, p = [m] /\ heavy m = true /\ mid_range ranges = Some t /\ t <= maxt m - mint m.
Proof.
  intros H. destruct (plan_origin _ _ _ _ H) as [[_ Hlen]|[_ []]]; auto. right; right. eauto 8.
Qed.

(* "never includes blocks marked no-compact" *)
Lemma plan_unmarked ranges marks l p : plan ranges marks l = Some p -> Unmarked marks p.
Proof.
  intros H. destruct (plan_origin _ _ _ _ H) as [[-> _]|[_ [->| iv g _ _ _ _ Hu | m t -> Hin _ _ _ _]]].
  - eapply sublist_Forall; [apply segment_sublist, select_overlapping_segment | apply filter_unmarked].
  - constructor.
  - exact Hu.
  - apply filter_In in Hin. repeat constructor. tauto.
Qed.

Lemma unmarked_true marks m : unmarked marks m = true <-> marked marks m = false.
Proof. unfold unmarked. apply negb_true_iff. Qed.

(* the same with [marked], as the property words it *)
Lemma plan_no_nocompact ranges marks l p : plan ranges marks l = Some p ->
  Forall (fun m => marked marks m = false) p.
Proof.
  intros H. eapply Forall_impl; [|exact (plan_unmarked _ _ _ _ H)]. intros m. apply unmarked_true.
Qed.

Lemma quiet_origin_removelast ranges marks l p : quiet_origin ranges marks l p -> sublist p (removelast l).
Proof.
  intros [->| iv g _ Hg Hs _ _ | m t -> _ Hin _ _ _].
  - constructor.
  - apply segment_sublist. eapply segment_trans; [exact Hs | apply (group_segment _ _ _ Hg)].
  - now apply sublist_single.
Qed.

(* "names blocks of one group": the plan is a subsequence of the list handed to the planner *)
Lemma plan_sublist ranges marks l p : plan ranges marks l = Some p -> sublist p l.
Proof.
  intros H. destruct (plan_origin _ _ _ _ H) as [[-> _]|[_ O]].
  - eapply sublist_trans; [apply segment_sublist, select_overlapping_segment | apply sublist_filter].
  - eapply sublist_trans; [exact (quiet_origin_removelast _ _ _ _ O) | apply sublist_removelast].
Qed.

(* "for non-overlapping blocks never includes the newest block" *)
Lemma plan_newest_excluded ranges marks l p :
  plan ranges marks l = Some p -> disjoint_sorted (filter (unmarked marks) l) ->
  sublist p (removelast l) /\ (NoDup (map bid l) -> ~ In (bid (last l dummy)) (map bid p)).
Proof.
  intros H Hd. apply select_overlapping_nil in Hd.
  assert (Hs : sublist p (removelast l)).
  { destruct (plan_origin _ _ _ _ H) as [[-> Hlen]|[_ O]]; [|exact (quiet_origin_removelast _ _ _ _ O)].
    rewrite Hd in Hlen. simpl in Hlen. lia. }
  split; [exact Hs|].
  intros Hn Hin. destruct l as [|a l0]; [discriminate|].
  destruct (@exists_last _ (a :: l0)) as (l' & x & E); [discriminate|]. rewrite E in *.
  rewrite last_last in Hin. rewrite removelast_last in Hs.
  rewrite map_app in Hn. apply NoDup_remove_2 in Hn. rewrite app_nil_r in Hn.
  apply Hn. eapply sublist_In; [apply sublist_map, Hs | exact Hin].
Qed.

Definition positive_ranges (ranges : list Z) : Prop := Forall (fun r => 0 < r) ranges.

Lemma positive_tl ranges iv : positive_ranges ranges -> In iv (tl ranges) -> 0 < iv.
Proof.
  intros Hr Hiv. unfold positive_ranges in Hr. rewrite Forall_forall in Hr.
  apply Hr. destruct ranges; [contradiction | now right].
Qed.

(* "always fits into one configured time range": a plan of two or more non-overlapping
   blocks lies inside one aligned window [iv*k, iv*k + iv] of a range of ranges[1:] *)
Lemma plan_disjoint_window ranges marks l p :
  plan ranges marks l = Some p -> disjoint_sorted (filter (unmarked marks) l) ->
  positive_ranges ranges -> sorted_mint l -> (2 <= length p)%nat ->
  exists iv k, In iv (tl ranges) /\ in_window (iv * k) iv p.
Proof.
  intros H Hd Hr Hs Hlen. apply select_overlapping_nil in Hd.
  destruct (plan_origin _ _ _ _ H) as [[-> Hl2]|[_ [->| iv g Hiv Hg Hseg _ _ | m t -> _ _ _ _ _]]].
  - rewrite Hd in Hl2. simpl in Hl2. lia.
  - simpl in Hlen. lia.
  - assert (Hs' : sorted_mint (removelast l)) by (eapply pairwise_sublist; [apply sublist_removelast | exact Hs]).
    destruct (group_in_window _ _ _ (positive_tl _ _ Hr Hiv) Hs' Hg) as (k & Hw).
    exists iv, k. split; auto. eapply sublist_Forall; [apply segment_sublist, Hseg | exact Hw].
  - simpl in Hlen. lia.
Qed.

Lemma hull_bounds p newid q : In q p -> mint (hull p newid) <= mint q /\ maxt q <= maxt (hull p newid).
Proof.
  unfold hull. cbn [mint maxt]. generalize (mint (hd dummy p)), (maxt (hd dummy p)).
  induction p as [|a p IH]; simpl; intros d e H; [contradiction|].
  destruct H as [->|H]; [lia | specialize (IH d e H); lia].
Qed.

Lemma hull_ge t p newid : p <> [] -> Forall (fun q => t <= mint q) p -> t <= mint (hull p newid).
Proof.
  intros Hne Hf. unfold hull. cbn [mint].
  assert (Hd : t <= mint (hd dummy p)) by (destruct Hf; [congruence | assumption]).
  clear Hne. revert Hd. generalize (mint (hd dummy p)). intros d Hd.
  induction Hf as [|a r Ha _ IH]; simpl; lia.
Qed.

Lemma hull_le t p newid : p <> [] -> Forall (fun q => maxt q <= t) p -> maxt (hull p newid) <= t.
Proof.
  intros Hne Hf. unfold hull. cbn [maxt].
  assert (Hd : maxt (hd dummy p) <= t) by (destruct Hf; [congruence | assumption]).
  clear Hne. revert Hd. generalize (maxt (hd dummy p)). intros d Hd.
  induction Hf as [|a r Ha _ IH]; simpl; lia.
Qed.

Lemma hull_in_window t0 tr p newid : p <> [] -> in_window t0 tr p ->
  t0 <= mint (hull p newid) /\ maxt (hull p newid) <= t0 + tr.
Proof.
  intros Hne Hw. split; [apply hull_ge | apply hull_le]; auto;
    (eapply Forall_impl; [|exact Hw]); simpl; tauto.
Qed.

(* the series count of a block (Stats.NumSeries) is a uint64 in the code *)
Definition wf (l : list meta) : Prop := Forall (fun m => 0 <= nseries m) l.

Lemma hull_nseries p newid : wf p -> 0 <= nseries (hull p newid).
Proof. intros Hw. unfold hull. cbn [nseries]. induction Hw; simpl; lia. Qed.

(* tombstones are gone after a rewrite *)
Lemma hull_not_heavy p newid : wf p -> heavy (hull p newid) = false.
Proof.
  intros Hw. unfold heavy. apply Z.ltb_ge. pose proof (hull_nseries p newid Hw).
  change (tomb (hull p newid)) with 0. lia.
Qed.

Lemma insert_ins b l : insert_by_mint b l = ins (fun x y => mint x <? mint y) b l.
Proof. induction l as [|m r IH]; simpl; [|rewrite IH]; reflexivity. Qed.

Lemma insert_sorted b l : sorted_mint l -> sorted_mint (insert_by_mint b l).
Proof.
  unfold sorted_mint. rewrite insert_ins, !pairwise_StronglySorted.
  apply ins_StronglySorted; intros x y; [rewrite Z.ltb_lt | rewrite Z.ltb_ge | intros z]; lia.
Qed.

Lemma apply_plan_perm l p newid :
  Permutation (apply_plan l p newid) (hull p newid :: filter (fun m => negb (in_plan p m)) l).
Proof. unfold apply_plan. rewrite insert_ins. apply ins_perm. Qed.

(* the blocks after a step are the new block and some of the old ones *)
Lemma apply_plan_Forall (P : meta -> Prop) l p newid :
  P (hull p newid) -> Forall P l -> Forall P (apply_plan l p newid).
Proof.
  intros Hh Hl. eapply Permutation_Forall; [apply Permutation_sym, apply_plan_perm|].
  constructor; [exact Hh | eapply sublist_Forall; [apply sublist_filter | exact Hl]].
Qed.

Lemma sorted_apply l p newid : sorted_mint l -> sorted_mint (apply_plan l p newid).
Proof.
  intros Hs. apply insert_sorted. eapply pairwise_sublist; [apply sublist_filter | exact Hs].
Qed.

Lemma in_plan_self p m : In m p -> in_plan p m = true.
Proof. intros H. unfold in_plan. apply existsb_exists. exists m. split; auto. apply Z.eqb_refl. Qed.

Lemma measure_decreases ranges marks l p newid :
  wf l -> plan ranges marks l = Some p -> p <> [] ->
  (measure (apply_plan l p newid) < measure l)%nat.
Proof.
  intros Hw H Hne. pose proof (plan_sublist _ _ _ _ H) as Hsub.
  assert (Hwp : wf p) by (eapply sublist_Forall; eauto).
  pose proof (apply_plan_perm l p newid) as Hperm. set (keep := fun m => negb (in_plan p m)) in Hperm.
  assert (Hrej : forall x, In x p -> keep x = false).
  { intros x Hx. unfold keep. now rewrite in_plan_self. }
  (* what is kept and what is planned are disjoint parts of l, among all blocks
     and among the tombstone-heavy ones *)
  pose proof (filter_sublist_length keep p l Hsub Hrej) as Hlen.
  assert (Hh : (length (filter keep (filter heavy l)) + length (filter heavy p) <= length (filter heavy l))%nat).
  { apply filter_sublist_length; [apply sublist_filter_mono, Hsub|].
    intros x Hx. apply filter_In in Hx. apply Hrej, Hx. }
  unfold measure. rewrite (Permutation_length Hperm), (Permutation_length (filter_perm heavy _ _ Hperm)).
  cbn [filter length]. rewrite (hull_not_heavy p newid Hwp), (filter_comm heavy keep).
  destruct (plan_size _ _ _ _ H) as [->|[H2|(m & t & -> & Hm & _)]]; [congruence| lia |].
  cbn [filter length] in *. rewrite Hm in Hh. cbn [length] in Hh. lia.
Qed.

Lemma plan_nil_disjoint ranges marks l : plan ranges marks l = Some [] ->
  disjoint_sorted (filter (unmarked marks) l).
Proof.
  intros H. apply select_overlapping_nil.
  destruct (plan_origin _ _ _ _ H) as [[E _]|[E _]]; auto.
Qed.

Lemma iterate_converges ranges marks : ranges <> [] ->
  forall n l newid, wf l -> l <> [] -> (measure l < n)%nat ->
  exists h fin, iterate n ranges marks l newid = Some (h, fin) /\
    plan ranges marks fin = Some [] /\ (length h <= measure l)%nat.
Proof.
  intros Hr. induction n as [|n IH]; intros l newid Hw Hl Hm; [lia|].
  cbn [iterate]. destruct (plan_total ranges marks l Hl Hr) as (p & Hp). rewrite Hp.
  destruct p as [|a p'].
  - exists [], l. repeat split; auto. simpl. lia.
  - set (p := a :: p') in *.
    pose proof (measure_decreases _ _ _ _ newid Hw Hp ltac:(discriminate)) as Hdec.
    assert (Hwp : wf p) by (eapply sublist_Forall; [eapply plan_sublist; eauto | exact Hw]).
    destruct (IH (apply_plan l p newid) (newid + 1)) as (h & fin & Hit & Hfin & Hlen); [| |lia|].
    + apply apply_plan_Forall; [apply hull_nseries, Hwp | exact Hw].
    + intros E. pose proof (Permutation_length (apply_plan_perm l p newid)) as Hl'. now rewrite E in Hl'.
    + rewrite Hit. exists (map bid p :: h), fin. repeat split; auto. simpl. lia.
Qed.

Lemma converges ranges marks l newid :
  ranges <> [] -> l <> [] -> wf l ->
  exists h fin, iterate (S (measure l)) ranges marks l newid = Some (h, fin) /\
    plan ranges marks fin = Some [] /\ (length h <= measure l)%nat /\
    disjoint_sorted (filter (unmarked marks) fin).
Proof.
  intros Hr Hl Hw.
  destruct (iterate_converges ranges marks Hr (S (measure l)) l newid Hw Hl (Nat.lt_succ_diag_r _))
    as (h & fin & H1 & H2 & H3).
  exists h, fin. repeat split; auto. exact (plan_nil_disjoint _ _ _ H2).
Qed.

Lemma iterate_invariant (J : list meta -> Prop) ranges marks :
  (forall l p newid, J l -> plan ranges marks l = Some p -> p <> [] -> J (apply_plan l p newid)) ->
  forall n l newid h fin, J l -> iterate n ranges marks l newid = Some (h, fin) -> J fin.
Proof.
  intros Hstep. induction n as [|n IH]; intros l newid h fin HJ H; simpl in H; [discriminate|].
  destruct (plan ranges marks l) as [p|] eqn:Hp; [|discriminate].
  destruct p as [|a p'].
  - inversion H; subst. exact HJ.
  - destruct (iterate n ranges marks (apply_plan l (a :: p') newid) (newid + 1)) as [[h' fin']|] eqn:Hit; [|discriminate].
    inversion H; subst. eapply IH; [|exact Hit]. apply Hstep; auto. discriminate.
Qed.

Lemma find_meta_In l m : NoDup (map bid l) -> In m l -> find_meta l (bid m) = Some m.
Proof.
  unfold find_meta. induction l as [|a l IH]; simpl; intros Hn Hin; [contradiction|].
  inversion Hn; subst. destruct Hin as [->|Hin].
  - now rewrite Z.eqb_refl.
  - destruct (bid a =? bid m) eqn:E; auto.
    apply Z.eqb_eq in E. exfalso. apply H1. rewrite E. apply in_map, Hin.
Qed.

Lemma lookup_all_sublist l p : NoDup (map bid l) -> sublist p l -> lookup_all l (map bid p) = Some p.
Proof.
  intros Hn Hs. assert (Hin : forall m, In m p -> In m l) by (intros m; apply sublist_In, Hs).
  clear Hs. induction p as [|m p IH]; simpl; auto.
  rewrite (find_meta_In l m Hn), IH; auto; intros; apply Hin; simpl; auto.
Qed.

Lemma subseq_ids_sublist p l : NoDup (map bid l) -> sublist p l -> subseq_ids (map bid p) l = true.
Proof.
  intros Hn Hs. induction Hs.
  - destruct l; reflexivity.
  - destruct l1 as [|x l1]; [reflexivity|]. simpl. inversion Hn; subst.
    destruct (bid x =? bid a) eqn:E.
    + apply Z.eqb_eq in E. exfalso. apply H1. rewrite <- E. apply in_map.
      eapply sublist_In; [exact Hs | left; reflexivity].
    + apply IHHs, H2.
  - simpl. rewrite Z.eqb_refl. inversion Hn; subst. auto.
Qed.

Lemma fits_window_of_in_window iv k p : 0 < iv -> in_window (iv * k) iv p -> fits_window iv p = true.
Proof.
  intros Hiv Hw. unfold fits_window. destruct p as [|a p]; auto. set (q := a :: p) in *.
  destruct (hull_in_window (iv * k) iv q 0) as [Hlo Hhi]; [discriminate | exact Hw |].
  apply Z.leb_le. rewrite (t0_spec _ _ Hiv).
  assert (k <= mint (hull q 0) / iv) by (apply Z.div_le_lower_bound; lia). nia.
Qed.

Lemma size_ok_of_plan ranges marks l p : plan ranges marks l = Some p -> size_ok ranges p = true.
Proof.
  intros H. destruct (plan_size _ _ _ _ H) as [->|[H2|(m & t & -> & Hm & Ht & Hl)]]; auto.
  - destruct p as [|a [|b r]]; simpl in *; auto; lia.
  - simpl. rewrite Hm, Ht. apply Z.leb_le in Hl. now rewrite Hl.
Qed.

Lemma plan_pred_holds ranges marks l p :
  positive_ranges ranges -> sorted_mint l -> NoDup (map bid l) ->
  plan ranges marks l = Some p -> plan_pred ranges marks l (map bid p) = true.
Proof.
  intros Hr Hs Hn H. unfold plan_pred.
  pose proof (plan_sublist _ _ _ _ H) as Hsub.
  rewrite (lookup_all_sublist l p Hn Hsub), (size_ok_of_plan _ _ _ _ H).
  assert (Hu : forallb (unmarked marks) p = true).
  { apply forallb_forall, Forall_forall, (plan_unmarked _ _ _ _ H). }
  rewrite Hu, (subseq_ids_sublist p l Hn Hsub). cbn [andb].
  destruct (select_overlapping (filter (unmarked marks) l)) eqn:Ov; auto.
  apply select_overlapping_nil in Ov.
  rewrite (subseq_ids_sublist p (removelast l)).
  2:{ apply (sublist_NoDup _ _ (sublist_map bid _ _ (sublist_removelast l)) Hn). }
  2:{ exact (proj1 (plan_newest_excluded _ _ _ _ H Ov)). }
  cbn [andb]. destruct (length p <? 2)%nat eqn:L; auto. apply Nat.ltb_ge in L.
  destruct (plan_disjoint_window _ _ _ _ H Ov Hr Hs L) as (iv & k & Hiv & Hw).
  cbn [orb]. apply existsb_exists. exists iv. split; auto.
  apply (fits_window_of_in_window iv k); eauto using positive_tl.
Qed.

Lemma plan_pred_ok ranges marks l :
  l <> [] -> ranges <> [] -> positive_ranges ranges -> sorted_mint l -> NoDup (map bid l) ->
  exists p, plan ranges marks l = Some p /\
    corr_ok (CPlan ranges marks l (Some (map bid p))) = true /\
    pred_ok (CPlan ranges marks l (Some (map bid p))) = true.
Proof.
  intros Hl Hr Hp Hs Hn. destruct (plan_total ranges marks l Hl Hr) as (p & H).
  exists p. split; auto. split.
  - simpl. rewrite H. simpl. apply list_eqb_refl, Z.eqb_refl.
  - simpl. destruct l; [congruence|]. destruct ranges; [congruence|].
    apply plan_pred_holds; auto.
Qed.

(* largeTotalIndexSizeFilter.plan: the block marked in a round is one of the planned blocks *)
Lemma idx_scan_in lim p : forall total mx big b, idx_scan lim total mx big p = Some b ->
  b = big \/ exists m, In m p /\ bid m = b.
Proof.
  induction p as [|m r IH]; intros total mx big b; simpl; [discriminate|].
  destruct (total + isize m >=? lim).
  - intros H. inversion H; subst. destruct (mx <? isize m); [right; exists m; auto | left; auto].
  - intros H. apply IH in H. destruct H as [->|(m' & Hm' & E)].
    + destruct (mx <? isize m); [right; exists m; auto | left; auto].
    + right. exists m'. auto.
Qed.

(* each round marks a block that was not marked: the unmarked blocks decrease *)
Lemma idx_plan_terminates ranges lim l : forall n marks,
  (length (filter (unmarked marks) l) < n)%nat ->
  exists r, idx_plan n ranges marks lim l = Some r.
Proof.
  induction n as [|n IH]; intros marks Hlt; [lia|]. cbn [idx_plan].
  destruct (plan ranges marks l) as [p|] eqn:Hp; [|eauto].
  destruct (idx_scan lim 0 int64_min (bid (hd dummy p)) p) as [b|] eqn:Hs; [|eauto].
  assert (Hm : exists m, In m p /\ bid m = b).
  { destruct (idx_scan_in _ _ _ _ _ _ Hs) as [->|H]; auto.
    destruct p as [|m0 p']; [simpl in Hs; discriminate|]. exists m0. simpl. auto. }
  destruct Hm as (m & Hmp & <-).
  assert (Hml : In m l) by (eapply sublist_In; [eapply plan_sublist; eauto | exact Hmp]).
  assert (Hmu : unmarked marks m = true).
  { pose proof (plan_unmarked _ _ _ _ Hp) as Hu. unfold Unmarked in Hu. rewrite Forall_forall in Hu. auto. }
  assert (Hdec : (length (filter (unmarked (bid m :: marks)) l) < length (filter (unmarked marks) l))%nat).
  { apply (filter_length_lt _ _ l m); auto.
    - intros x. unfold unmarked, marked. simpl. destruct (bid x =? bid m); simpl; [discriminate|auto].
    - unfold unmarked, marked. simpl. now rewrite Z.eqb_refl. }
  destruct (IH (bid m :: marks)) as ([res ms] & ->); [lia|]. eauto.
Qed.

Lemma index_filter_terminates ranges marks lim l :
  exists res ms, idx_plan (S (length l)) ranges marks lim l = Some (res, ms).
Proof.
  destruct (idx_plan_terminates ranges lim l (S (length l)) marks) as ([res ms] & H); eauto.
  pose proof (filter_length_le (unmarked marks) l). lia.
Qed.

(* C14 — slices, cache keys, the arithmetic of subrange-aligned offsets, and the
   in-memory subranges reader. *)
From Coq Require Import ZArith NArith List Bool Lia.
Import ListNotations.
From Verif Require Import Lib.Corr Gen.C14 Model.C14.
Open Scope Z_scope.

Lemma firstn_add {A} a b (l : list A) : firstn a l ++ firstn b (skipn a l) = firstn (a + b) l.
Proof.
  revert l. induction a; intro l; simpl; [reflexivity|].
  destruct l; [destruct b; reflexivity|]. simpl. rewrite IHa. reflexivity.
Qed.

Lemma skipn_skipn {A} a b (l : list A) : skipn a (skipn b l) = skipn (b + a) l.
Proof.
  revert l. induction b; intro l; simpl; [reflexivity|].
  destruct l; [destruct a; reflexivity|]. apply IHb.
Qed.

Lemma blen_nonneg b : 0 <= blen b.
Proof. unfold blen. lia. Qed.

Lemma blen_0 b : blen b <= 0 -> b = [].
Proof. destruct b; [reflexivity|]. unfold blen. simpl. lia. Qed.

Lemma blen_app a b : blen (a ++ b) = blen a + blen b.
Proof. unfold blen. rewrite app_length. lia. Qed.

Lemma slice_length b lo hi : 0 <= lo -> lo <= hi -> hi <= blen b -> blen (slice b lo hi) = hi - lo.
Proof.
  intros H1 H2 H3. unfold slice, blen in *. rewrite firstn_length, skipn_length. lia.
Qed.

Lemma slice_slice x a b lo hi :
  0 <= a -> 0 <= lo -> lo <= hi -> hi <= b - a ->
  slice (slice x a b) lo hi = slice x (a + lo) (a + hi).
Proof.
  intros Ha Hlo Hh Hb. unfold slice.
  rewrite skipn_firstn_comm, skipn_skipn, firstn_firstn, Nat.min_l by lia.
  f_equal; [|f_equal]; lia.
Qed.

Lemma slice_app x a m b : 0 <= a -> a <= m -> m <= b -> slice x a m ++ slice x m b = slice x a b.
Proof.
  intros Ha Hm Hb. unfold slice.
  replace (skipn (Z.to_nat m) x) with (skipn (Z.to_nat (m - a)) (skipn (Z.to_nat a) x)).
  2:{ rewrite skipn_skipn. f_equal. lia. }
  rewrite firstn_add. f_equal. lia.
Qed.

Lemma slice_full x : slice x 0 (blen x) = x.
Proof. unfold slice, blen. simpl. rewrite Z.sub_0_r, Nat2Z.id. apply firstn_all. Qed.

Lemma slice_empty x a : slice x a a = [].
Proof. unfold slice. rewrite Z.sub_diag. reflexivity. Qed.

Lemma slice_clip x a b : 0 <= a -> blen x <= b -> slice x a b = slice x a (blen x).
Proof.
  intros Ha Hb. unfold slice, blen in *.
  destruct (Z_le_gt_dec a (Z.of_nat (length x))) as [Hle|Hgt].
  - rewrite !firstn_all2; [reflexivity| |]; rewrite skipn_length; lia.
  - rewrite skipn_all2 by lia. rewrite !firstn_nil. reflexivity.
Qed.

(* InMemBucket.GetRange inside the object clips the end of the range to the object *)
Lemma under_get_range_slice obj off len :
  off <= blen obj -> under_get_range obj off len = slice obj off (Z.min (off + len) (blen obj)).
Proof.
  intro H. unfold under_get_range.
  destruct (Z.ltb_spec (blen obj) off); [lia|].
  destruct (Z.leb_spec (blen obj) (off + len)); f_equal; lia.
Qed.

Lemma key_eqb_eq a b : key_eqb a b = true <-> a = b.
Proof.
  split.
  - destruct a, b; simpl; try discriminate;
      rewrite ?andb_true_iff, ?N.eqb_eq, ?Z.eqb_eq, ?Bool.eqb_true_iff; intuition congruence.
  - intros <-. destruct a; simpl; rewrite ?N.eqb_refl, ?Z.eqb_refl, ?Bool.eqb_reflx; reflexivity.
Qed.

Lemma lookup_store c k v k' :
  lookup (store c k v) k' = if key_eqb k' k then Some v else lookup c k'.
Proof. reflexivity. Qed.

Lemma fetch_some c hits k v : fetch c hits k = Some v -> lookup c k = Some v.
Proof. unfold fetch. destruct (mem_key k hits); [auto|discriminate]. Qed.

(* Go's / and % on int64 are Z.quot and Z.rem; every offset below is a multiple k * Sz,
   and the facts about the window of cachedGetRange are stated on the indices k. *)
Section Aligned.
Variable Sz : Z.
Hypothesis HS : 0 < Sz.

Lemma aligned_le a b : a <= b -> a * Sz <= b * Sz.
Proof. intro H. apply Z.mul_le_mono_nonneg_r; lia. Qed.

Lemma aligned_lt a b : a * Sz < b * Sz -> a < b.
Proof. apply Z.mul_lt_mono_pos_r, HS. Qed.

Lemma quot_bounds x : 0 <= x -> Z.quot x Sz * Sz <= x < Z.quot x Sz * Sz + Sz.
Proof.
  intro H. pose proof (Z.quot_rem' x Sz). pose proof (Z.rem_bound_pos x Sz H HS). lia.
Qed.

Lemma quot_unique k x : 0 <= x -> k * Sz <= x < k * Sz + Sz -> Z.quot x Sz = k.
Proof. intros H0 H. symmetry. apply (Z.quot_unique x Sz k (x - k * Sz)); lia. Qed.

Lemma quot_window ks ke x : 0 <= x -> ks * Sz <= x < ke * Sz -> ks <= Z.quot x Sz < ke.
Proof.
  intros H0 H. pose proof (quot_bounds x H0).
  split; [apply Z.lt_succ_r|]; apply aligned_lt; lia.
Qed.

(* number of iterations of [for off := a*Sz; off < b*Sz; off += Sz] as the model counts them *)
Lemma subrange_count a b : a <= b -> Z.quot (b * Sz - a * Sz + Sz - 1) Sz = b - a.
Proof. intro H. pose proof (aligned_le a b H). apply quot_unique; lia. Qed.

(* endRange: the end x = offset + length rounded up to a multiple of Sz *)
Lemma end_range_aligned off len : 0 <= off + len ->
  exists ke, (if bump_cond off len Sz then end_range0 off len Sz + Sz else end_range0 off len Sz) = ke * Sz
             /\ (ke - 1) * Sz < off + len <= ke * Sz.
Proof.
  intro H. unfold bump_cond, end_range0.
  pose proof (Z.quot_rem' (off + len) Sz). pose proof (Z.rem_bound_pos _ Sz H HS).
  destruct (Z.gtb_spec (Z.rem (off + len) Sz) 0);
    [exists (Z.quot (off + len) Sz + 1) | exists (Z.quot (off + len) Sz)]; lia.
Qed.

(* lastSubrangeOffset and lastSubrangeLength for a window ending at ke * Sz whose last
   subrange starts inside the object *)
Lemma last_subrange ke size : 0 <= size -> (ke - 1) * Sz < size ->
  (if last_clamp_cond (ke * Sz) size then last_off_clamped size Sz else last_off_default (ke * Sz) Sz)
  = (ke - 1) * Sz
  /\ (if last_clamp_cond (ke * Sz) size then last_len_clamped size ((ke - 1) * Sz) else last_len_default Sz)
     = Z.min (ke * Sz) size - (ke - 1) * Sz.
Proof.
  intros H0 H. unfold last_clamp_cond, last_off_clamped, last_off_default, last_len_clamped, last_len_default.
  destruct (Z.gtb_spec (ke * Sz) size); [|lia].
  rewrite (quot_unique (ke - 1) size) by lia. lia.
Qed.
(* the buffer of a fetch of subranges a .. b-1 has room for exactly the bytes the object has there *)
Lemma buf_size_ok ke size a b : (ke - 1) * Sz < size -> a < b <= ke ->
  (if buf_full_cond ((ke - 1) * Sz) (b * Sz) then buf_size_full (a * Sz) (b * Sz)
   else buf_size_last (a * Sz) (b * Sz) Sz (Z.min (ke * Sz) size - (ke - 1) * Sz))
  = Z.min (b * Sz) size - a * Sz.
Proof.
  intros H Hab. unfold buf_full_cond, buf_size_full, buf_size_last.
  destruct (Z.geb_spec ((ke - 1) * Sz) (b * Sz)) as [E|E]; [lia|].
  apply aligned_lt in E. replace b with ke by lia. lia.
Qed.

(* length of subrange k of a window ending at ke * Sz, as fetchMissingSubranges computes it:
   Sz, except that the last one is clipped to the object *)
Lemma subrange_hi ke size lo k : (ke - 1) * Sz < size -> k < ke ->
  (if k * Sz =? (ke - 1) * Sz then lo + (Z.min (ke * Sz) size - (ke - 1) * Sz) else lo + Sz)
  = lo + (Z.min (k * Sz + Sz) size - k * Sz).
Proof.
  intros H Hk. destruct (Z.eqb_spec (k * Sz) ((ke - 1) * Sz)) as [E|E]; [lia|].
  assert (k <> ke - 1) by congruence. pose proof (aligned_le (k + 1) (ke - 1)). lia.
Qed.
End Aligned.

Section Reader.
Variable obj : bytes.
Variable Sz : Z.
Hypothesis HS : 0 < Sz.
Let size := blen obj.

Definition sub_of (off : Z) : bytes := slice obj off (Z.min (off + Sz) size).

Lemma sub_of_length off : 0 <= off <= size -> blen (sub_of off) = Z.min (off + Sz) size - off.
Proof. intro H. apply slice_length; lia. Qed.

Lemma sub_of_slice off ro n : 0 <= off <= ro -> 0 <= n -> ro + n <= Z.min (off + Sz) size ->
  slice (sub_of off) (ro - off) (ro - off + n) = slice obj ro (ro + n).
Proof. intros H Hn Hr. unfold sub_of. rewrite slice_slice by lia. f_equal; lia. Qed.

(* Each iteration copies up to the end of the subrange holding ro or up to the end of the
   request, so the subrange index grows by one per iteration: fuel is needed only while
   something remains. *)
Lemma read_loop_eq h ks ke :
  (forall k, ks <= k < ke -> hget h (k * Sz) = Some (sub_of (k * Sz))) ->
  0 <= ks ->
  forall fuel ro rem acc,
  ks * Sz <= ro -> 0 <= rem -> ro + rem <= size -> ro + rem <= ke * Sz ->
  (0 < rem -> ke - Z.quot ro Sz < Z.of_nat fuel) ->
  read_loop fuel Sz h ro rem acc = RBytes (acc ++ slice obj ro (ro + rem)).
Proof.
  intros Hh Hks. induction fuel as [|f IH]; intros ro rem acc H1 H2 H3 H4 H5.
  all: destruct (Z.eq_dec rem 0) as [->|Hne]; [rewrite Z.add_0_r, slice_empty, app_nil_r; reflexivity|].
  all: pose proof (aligned_le Sz HS 0 ks Hks) as Hks0.
  all: pose proof (quot_bounds Sz HS ro ltac:(lia)) as Hq.
  all: pose proof (quot_window Sz HS ks ke ro ltac:(lia) ltac:(lia)) as Hk.
  - simpl in H5. lia.
  - set (k := Z.quot ro Sz) in *. pose proof (aligned_le Sz HS ks k ltac:(lia)) as Hk0.
    cbn [read_loop]. destruct (Z.leb_spec rem 0); [lia|].
    fold k. rewrite (Hh k Hk), sub_of_length by lia.
    set (avail := Z.min (k * Sz + Sz) size - k * Sz - (ro - k * Sz)).
    destruct (Z.leb_spec avail 0); [lia|].
    set (n := if rem <? avail then rem else avail).
    assert (Hn : n = Z.min rem avail) by (unfold n; destruct (Z.ltb_spec rem avail); lia).
    rewrite sub_of_slice by lia. rewrite IH; [|lia..|].
    + rewrite <- app_assoc, slice_app by lia. do 3 f_equal. lia.
    + intro Hr. replace (ro + n) with ((k + 1) * Sz) by lia.
      rewrite Z.quot_mul by lia. lia.
Qed.

(* the corollary with fuel assumed whether or not anything remains *)
Lemma read_loop_ok h ks ke :
  (forall k, ks <= k < ke -> hget h (k * Sz) = Some (sub_of (k * Sz))) ->
  0 <= ks ->
  forall fuel ro rem acc,
  ks * Sz <= ro -> 0 <= rem -> ro + rem <= size -> ro + rem <= ke * Sz ->
  ke - Z.quot ro Sz < Z.of_nat fuel ->
  read_loop fuel Sz h ro rem acc = RBytes (acc ++ slice obj ro (ro + rem)).
Proof. intros Hh Hks fuel ro rem acc H1 H2 H3 H4 H5. apply (read_loop_eq h ks ke); auto. Qed.
End Reader.

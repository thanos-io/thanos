(* C29 — proofs about Model/C29.v.
   Everything said of a legal history is an invariant of single events ([prefix_inv]).
   Most invariants speak of one block at a time and do not look at its deletion mark, so
   only the arrival of a compaction result needs an argument ([all_blocks_step]); what
   the guard of that event provides is stated once ([hop_ok_dd_add], [hop_ok_add]).
   Names follow the model: [_dd] is compaction of replicated streams with deduplication (the
   weaker guard [hop_ok_dd], histories [legal_dd], check [dd_ok]); [quiet] is "compaction has
   finished": no two selected blocks of one group overlap in time ([quiet_ok]). *)
From Coq Require Import ZArith NArith List Bool Lia FinFun.
Import ListNotations.
From Verif Require Import Lib.Corr Lib.ListFacts Gen.C29 Model.C29.
From Verif Require Model.C31 Proofs.C31.

Lemma sample_eqb_spec a b : sample_eqb a b = true <-> a = b.
Proof.
  destruct a as [[s t] v], b as [[s' t'] v']. unfold sample_eqb; simpl.
  rewrite !andb_true_iff, N.eqb_eq, !Z.eqb_eq. split; [intros [[? ?] ?]; subst; reflexivity|intros H; inversion H; auto].
Qed.

Section ListSet.
  Context {A} (eqb : A -> A -> bool) (Heq : forall a b, eqb a b = true <-> a = b).

  Lemma mem_In x l : mem eqb x l = true <-> In x l.
  Proof.
    induction l as [|y r IH]; simpl; [split; [discriminate|tauto]|].
    rewrite orb_true_iff, Heq, IH. split; intros [H|H]; auto.
  Qed.

  Lemma subset_In a b : subset eqb a b = true <-> incl a b.
  Proof. unfold subset, incl. rewrite forallb_forall. split; intros H x Hx; apply mem_In, H, Hx. Qed.

  Lemma seteq_In a b : seteq eqb a b = true -> forall x, In x a <-> In x b.
  Proof. unfold seteq. rewrite andb_true_iff, !subset_In. intros [H1 H2] x. split; auto. Qed.

  Lemma disjoint_In a b x : disjoint eqb a b = true -> In x a -> In x b -> False.
  Proof.
    unfold disjoint. rewrite forallb_forall. intros H Ha Hb. apply mem_In in Hb. apply H in Ha.
    rewrite Hb in Ha. discriminate.
  Qed.

  Lemma nodup_NoDup l : nodup eqb l = true <-> NoDup l.
  Proof.
    induction l as [|x r IH]; simpl; [split; [constructor|reflexivity]|].
    rewrite andb_true_iff, negb_true_iff, IH, NoDup_cons_iff, <- mem_In.
    destruct (mem eqb x r); intuition congruence.
  Qed.
End ListSet.

Lemma memN_In x l : memN x l = true <-> In x l.
Proof. apply mem_In, N.eqb_eq. Qed.
Lemma memS_In x l : memS x l = true <-> In x l.
Proof. apply mem_In, sample_eqb_spec. Qed.
Lemma subN_In a b : subN a b = true <-> incl a b.
Proof. apply subset_In, N.eqb_eq. Qed.

Lemma NoDup_concat_map {A B} (f : A -> list B) (l : list A) :
  NoDup l -> (forall x, In x l -> NoDup (f x)) ->
  (forall x y a, In x l -> In y l -> In a (f x) -> In a (f y) -> x = y) ->
  NoDup (concat (map f l)).
Proof.
  induction 1 as [|x r Hni Hnd IH]; intros H1 H2; simpl; [constructor|].
  apply NoDup_app.
  - apply H1. left; reflexivity.
  - apply IH; [intros y Hy; apply H1; right; exact Hy|].
    intros y z a Hy Hz. apply H2; right; assumption.
  - intros a Ha Hc. apply in_concat in Hc as [m [Hm Ham]]. apply in_map_iff in Hm as [y [<- Hy]].
    apply Hni. now rewrite (H2 x y a) by (simpl; auto).
Qed.

Lemma in_concat_map {A B} (f : A -> list B) l y : In y (concat (map f l)) <-> exists x, In x l /\ In y (f x).
Proof. rewrite <- flat_map_concat_map. apply in_flat_map. Qed.

Lemma exists_or_all {A} (P Q : A -> Prop) (l : list A) :
  (forall x, In x l -> P x \/ Q x) -> (exists x, In x l /\ P x) \/ (forall x, In x l -> Q x).
Proof.
  induction l as [|y r IH]; intros H; [right; intros x []|].
  destruct (H y (or_introl eq_refl)) as [Hp|Hq]; [left; exists y; split; [left; reflexivity|exact Hp]|].
  destruct IH as [[x [Hx Hp]]|Hall]; [intros x Hx; apply H; right; exact Hx| |].
  - left. exists x. split; [right; exact Hx|exact Hp].
  - right. intros x [Hx|Hx]; [subst; exact Hq|apply Hall; exact Hx].
Qed.

Lemma find_In st id b : find st id = Some b -> In (id, b) st.
Proof.
  induction st as [|[i x] r IH]; simpl; [discriminate|].
  destruct (N.eqb_spec id i) as [->|]; [intros [= ->]; now left|right; auto].
Qed.

Lemma find_None st id : find st id = None -> ~ In id (map fst st).
Proof.
  induction st as [|[i x] r IH]; simpl; [tauto|].
  destruct (N.eqb_spec id i); [discriminate|]. intros H [H1|H1]; [congruence|]. apply IH; assumption.
Qed.

Lemma In_find st id b : NoDup (map fst st) -> In (id, b) st -> find st id = Some b.
Proof.
  intros K Hin. destruct (find st id) as [b'|] eqn:Hf.
  - apply find_In in Hf. f_equal. exact (f_equal snd (NoDup_map_inj fst st _ _ K Hf Hin eq_refl)).
  - apply find_None in Hf. destruct Hf. exact (in_map fst _ _ Hin).
Qed.

Lemma remove_filter st id : remove st id = filter (fun p => negb (N.eqb id (fst p))) st.
Proof. induction st as [|[i b] r IH]; simpl; [|rewrite IH; destruct (N.eqb id i)]; reflexivity. Qed.

Lemma remove_In st id i b : In (i, b) (remove st id) <-> In (i, b) st /\ i <> id.
Proof. rewrite remove_filter, filter_In. simpl. rewrite negb_true_iff, N.eqb_neq. intuition. Qed.

Lemma set_marked_keys st id : map fst (set_marked st id) = map fst st.
Proof.
  unfold set_marked. rewrite map_map. apply map_ext. intros [i b]. simpl. destruct (N.eqb i id); reflexivity.
Qed.

Definition with_mark (b : mb) : mb :=
  mkmb (m_sources b) (m_samples b) true (m_group b) (m_level b) (m_mint b) (m_maxt b).

Lemma set_marked_In st id i b' :
  In (i, b') (set_marked st id) -> exists b, In (i, b) st /\ (b' = b \/ b' = with_mark b).
Proof.
  unfold set_marked. intros H. apply in_map_iff in H as [[j b] [E Hin]]. simpl in E.
  destruct (N.eqb j id); inversion E; subst; eauto.
Qed.

Lemma set_marked_other st id i b : In (i, b) st -> i <> id -> In (i, b) (set_marked st id).
Proof.
  intros Hin Hne. unfold set_marked. apply in_map_iff. exists (i, b). split; [|exact Hin].
  simpl. apply N.eqb_neq in Hne. rewrite Hne. reflexivity.
Qed.

Lemma parents_In st : forall ps pbs, parents_of st ps = Some pbs -> forall pb, In pb pbs -> exists p, In (p, pb) st.
Proof.
  unfold parents_of. induction ps as [|p r IH]; intros pbs H pb Hin; simpl in H.
  - inversion H; subst. contradiction.
  - destruct (find st p) as [x|] eqn:Hf; [|discriminate].
    destruct (all_some_mb (map (find st) r)) as [y|] eqn:Hr; [|discriminate].
    inversion H; subst. destruct Hin as [<-|Hin]; [exists p; now apply find_In|eauto].
Qed.

Definition new_mb (c : cblk) : mb :=
  mkmb (cb_sources c) (cb_samples c) false (cb_group c) (cb_level c) (cb_mint c) (cb_maxt c).

Lemma hop_ok_dd_add st id c : hop_ok_dd st (HAdd id c) = true ->
  ~ In id (map fst st) /\ NoDup (cb_samples c) /\ exists ps,
    (forall p, In p ps -> exists i, In (i, p) st)
    /\ (forall x, In x (cb_sources c) <-> exists p, In p ps /\ In x (m_sources p))
    /\ (forall s, In s (cb_samples c) -> exists p, In p ps /\ In s (m_samples p))
    /\ (forall p s, In p ps -> In s (m_samples p) -> exists s', In s' (cb_samples c) /\ series_of s' = series_of s).
Proof.
  simpl. destruct (parents_of st (cb_parents c)) as [ps|] eqn:Hp; [|now rewrite andb_false_r].
  intros [Hfr [[[[_ Hsrc]%andb_prop Hsub]%andb_prop Hser]%andb_prop Hnd]%andb_prop]%andb_prop. split; [|split].
  - apply find_None. unfold has in Hfr. now destruct (find st id).
  - now apply (nodup_NoDup sample_eqb sample_eqb_spec).
  - exists ps. split; [exact (parents_In st _ _ Hp)|]. split; [|split].
    + intros x. now rewrite (seteq_In N.eqb N.eqb_eq _ _ Hsrc), in_concat_map.
    + intros s Hs. now apply in_concat_map, (proj1 (subset_In sample_eqb sample_eqb_spec _ _) Hsub).
    + intros p s Hpin Hs. rewrite forallb_forall in Hser.
      assert (Hc : In s (concat (map m_samples ps))) by (apply in_concat_map; eauto).
      apply Hser, existsb_exists in Hc as (s' & Hs' & E). exists s'. now apply N.eqb_eq in E.
Qed.

Lemma hop_ok_add st id c : hop_ok st (HAdd id c) = true -> exists ps,
    (forall p, In p ps -> exists i, In (i, p) st)
    /\ (forall x, In x (cb_sources c) <-> exists p, In p ps /\ In x (m_sources p))
    /\ (forall s, In s (cb_samples c) <-> exists p, In p ps /\ In s (m_samples p))
    /\ (forall p j q, In p ps -> In (j, q) st -> incl (m_sources p) (m_sources q) -> incl (m_sources q) (m_sources p))
    /\ (forall p, In p ps -> m_group p = cb_group c /\ (cb_mint c <= m_mint p)%Z /\ (m_maxt p <= cb_maxt c)%Z).
Proof.
  simpl. destruct (parents_of st (cb_parents c)) as [ps|] eqn:Hp; [|now rewrite andb_false_r].
  intros [_ [[[[[[_ Hsrc]%andb_prop Hsm]%andb_prop _]%andb_prop Hmax]%andb_prop _]%andb_prop Hmeta]%andb_prop]%andb_prop.
  exists ps.
  rewrite forallb_forall in Hmax, Hmeta. split; [exact (parents_In st _ _ Hp)|]. split; [|split; [|split]].
  - intros x. now rewrite (seteq_In N.eqb N.eqb_eq _ _ Hsrc), in_concat_map.
  - intros s. now rewrite (seteq_In sample_eqb sample_eqb_spec _ _ Hsm), in_concat_map.
  - intros p j q Hpin Hq Hsub. specialize (Hmax p Hpin). rewrite forallb_forall in Hmax. specialize (Hmax _ Hq).
    simpl in Hmax. apply subN_In in Hsub. rewrite Hsub in Hmax. now apply subN_In.
  - intros p Hpin. destruct (andb_prop _ _ (Hmeta p Hpin)) as [[Hg%N.eqb_eq H1%Z.leb_le]%andb_prop H2%Z.leb_le]. auto.
Qed.

Lemma hop_ok_dd_of_ok st o : hop_ok st o = true -> hop_ok_dd st o = true.
Proof.
  destruct o as [id c| |]; try easy. simpl.
  destruct (parents_of st (cb_parents c)) as [ps|]; [|easy].
  intros [-> [[[[[[-> ->]%andb_prop [Hsub Hsup]%andb_prop]%andb_prop ->]%andb_prop _]%andb_prop _]%andb_prop _]%andb_prop]%andb_prop.
  unfold subS. rewrite Hsub, andb_true_r. simpl.
  (* a series of the parents is a series of the result, which has all their samples *)
  apply forallb_forall. intros s Hs. apply existsb_exists. exists s. split; [|apply N.eqb_refl].
  exact (proj1 (subset_In sample_eqb sample_eqb_spec _ _) Hsup s Hs).
Qed.

Lemma prefix_inv (ok : state -> hop -> bool) (lg : state -> list hop -> bool) :
  (forall st o r, lg st (o :: r) = ok st o && lg (apply_hop st o) r) ->
  forall I : state -> Prop, (forall st o, I st -> ok st o = true -> I (apply_hop st o)) ->
  forall hist st k, I st -> lg st hist = true -> I (fold_left apply_hop (firstn k hist) st).
Proof.
  intros Hlg I Hstep. induction hist as [|o r IH]; intros st k Hi Hl; destruct k; simpl; try exact Hi.
  rewrite Hlg in Hl. apply andb_true_iff in Hl as [H1 H2]. apply IH; auto.
Qed.

Lemma legal_prefix (I : state -> Prop) : (forall st o, I st -> hop_ok st o = true -> I (apply_hop st o)) ->
  forall hist st k, I st -> legal st hist = true -> I (fold_left apply_hop (firstn k hist) st).
Proof. exact (prefix_inv hop_ok legal (fun _ _ _ => eq_refl) I). Qed.

Lemma legal_dd_prefix (I : state -> Prop) : (forall st o, I st -> hop_ok_dd st o = true -> I (apply_hop st o)) ->
  forall hist st k, I st -> legal_dd st hist = true -> I (fold_left apply_hop (firstn k hist) st).
Proof. exact (prefix_inv hop_ok_dd legal_dd (fun _ _ _ => eq_refl) I). Qed.

Definition all_blocks (P : mb -> Prop) (st : state) : Prop := forall i b, In (i, b) st -> P b.

(* marking leaves everything but the mark, deleting leaves a sub-state: a property of single
   blocks that ignores the mark is kept as soon as it holds of a new block *)
Lemma all_blocks_step (P : mb -> Prop) st o :
  (forall b, P b -> P (with_mark b)) -> (forall id c, o = HAdd id c -> P (new_mb c)) ->
  all_blocks P st -> all_blocks P (apply_hop st o).
Proof.
  intros Hm Hadd H i b' Hin. destruct o as [id c|id|id]; simpl in Hin.
  - apply in_app_or in Hin as [Hin|[[= <- <-]|[]]]; [exact (H _ _ Hin)|exact (Hadd _ _ eq_refl)].
  - apply set_marked_In in Hin as (b & Hin & [->| ->]); [|apply Hm]; exact (H _ _ Hin).
  - apply remove_In in Hin as [Hin _]. exact (H _ _ Hin).
Qed.

Lemma all_blocks_init G init (P : mb -> Prop) :
  (forall o ss, In (o, ss) init ->
     P (mkmb [o] ss false (og (ometa_of G o)) 1 (omint (ometa_of G o)) (omaxt (ometa_of G o)))) ->
  all_blocks P (init_state G init).
Proof. intros H i b Hin. apply in_map_iff in Hin as [[o ss] [[= <- <-] Hin]]. exact (H o ss Hin). Qed.

Definition from_sources (init : list (N * list sample)) (b : mb) : Prop :=
  forall s, In s (m_samples b) -> exists o ss, In (o, ss) init /\ In o (m_sources b) /\ In s ss.

Definition has_sources (init : list (N * list sample)) (b : mb) : Prop :=
  forall o ss s, In (o, ss) init -> In o (m_sources b) -> In s ss -> In s (m_samples b).

Definition has_series (init : list (N * list sample)) (b : mb) : Prop :=
  forall o ss s, In (o, ss) init -> In o (m_sources b) -> In s ss ->
    exists s', In s' (m_samples b) /\ series_of s' = series_of s.

Record wf (init : list (N * list sample)) (st : state) : Prop := {
  wf_keys : NoDup (map fst st);
  wf_cov : forall o ss, In (o, ss) init ->
             exists i b, In (i, b) st /\ m_marked b = false /\ In o (m_sources b);
  wf_sub : all_blocks (from_sources init) st
}.

Lemma wf_init G init : NoDup (map fst init) -> wf init (init_state G init).
Proof.
  intros Hnd. split.
  - unfold init_state. rewrite map_map. exact Hnd.
  - intros o ss Hin. eexists o, _. split; [apply in_map_iff; exists (o, ss); split; [reflexivity|exact Hin]|].
    split; [reflexivity|left; reflexivity].
  - apply all_blocks_init. intros o ss Hin s Hs. exists o, ss. simpl; auto.
Qed.

Lemma wf_step init st o : wf init st -> hop_ok_dd st o = true -> wf init (apply_hop st o).
Proof.
  intros [K Cov Sub] Hok. split.
  - destruct o as [id c|id|id]; simpl.
    + apply hop_ok_dd_add in Hok as [Hfr _]. rewrite map_app.
      apply NoDup_app; [exact K|repeat constructor; intros []|]. intros x Hx [<-|[]]. contradiction.
    + now rewrite set_marked_keys.
    + rewrite remove_filter. now apply NoDup_map_filter.
  - intros o' ss Hin. destruct (Cov o' ss Hin) as (i & b & H1 & H2 & H3).
    destruct o as [id c|id|id]; simpl in *.
    + exists i, b. auto using in_or_app.
    + (* the marked block is contained in an unmarked one *)
      destruct (find st id) as [a|] eqn:Hf; [|discriminate].
      destruct (N.eq_dec i id) as [->|E]; [|exists i, b; auto using set_marked_other].
      rewrite (In_find st id b K H1) in Hf. injection Hf as <-.
      apply existsb_exists in Hok as [[j c] [Hj Hc]]. simpl in Hc.
      apply andb_prop in Hc as [[Hne%negb_true_iff%N.eqb_neq Hun%negb_true_iff]%andb_prop Hsub].
      exists j, c. split; [now apply set_marked_other|]. split; [exact Hun|]. exact (proj1 (subN_In _ _) Hsub _ H3).
    + (* only marked blocks are deleted *)
      exists i, b. split; [|auto]. apply remove_In. split; [exact H1|]. intros ->.
      rewrite (In_find st id b K H1), H2 in Hok. discriminate.
  - apply all_blocks_step; [exact (fun _ H => H)| |exact Sub]. intros id c ->.
    apply hop_ok_dd_add in Hok as (_ & _ & ps & Hps & Hsrc & Hsub & _). intros s Hs.
    destruct (Hsub s Hs) as (p & Hp & Hsp). destruct (Hps p Hp) as [j Hj].
    destruct (Sub j p Hj s Hsp) as (o' & ss & H1 & H2 & H3). exists o', ss. repeat split; auto. apply Hsrc. eauto.
Qed.

Lemma has_sources_step init st o :
  all_blocks (has_sources init) st -> hop_ok st o = true -> all_blocks (has_sources init) (apply_hop st o).
Proof.
  intros H Hok. apply all_blocks_step; [exact (fun _ H => H)| |exact H]. intros id c ->.
  apply hop_ok_add in Hok as (ps & Hps & Hsrc & Hsm & _). intros o ss s Hin Ho Hs.
  apply Hsrc in Ho as (p & Hp & Ho). destruct (Hps p Hp) as [j Hj].
  apply Hsm. exists p. split; [exact Hp|]. exact (H j p Hj o ss s Hin Ho Hs).
Qed.

Lemma has_series_step init st o :
  all_blocks (has_series init) st -> hop_ok_dd st o = true -> all_blocks (has_series init) (apply_hop st o).
Proof.
  intros H Hok. apply all_blocks_step; [exact (fun _ H => H)| |exact H]. intros id c ->.
  apply hop_ok_dd_add in Hok as (_ & _ & ps & Hps & Hsrc & _ & Hser). intros o ss s Hin Ho Hs.
  apply Hsrc in Ho as (p & Hp & Ho). destruct (Hps p Hp) as [j Hj].
  destruct (H j p Hj o ss s Hin Ho Hs) as (s1 & Hs1 & E1).
  destruct (Hser p s1 Hp Hs1) as (s2 & Hs2 & E2). exists s2. split; [exact Hs2|congruence].
Qed.

Definition nodup_b (b : mb) : Prop := NoDup (m_samples b).

Lemma nodup_step st o : all_blocks nodup_b st -> hop_ok_dd st o = true -> all_blocks nodup_b (apply_hop st o).
Proof.
  intros H Hok. apply all_blocks_step; [exact (fun _ H => H)| |exact H]. intros id c ->.
  now apply hop_ok_dd_add in Hok as (_ & Hnd & _).
Qed.

Definition inv init st : Prop := wf init st /\ all_blocks (has_sources init) st.
Definition inv_dd init st : Prop := wf init st /\ all_blocks (has_series init) st.

Lemma inv_init G init : NoDup (map fst init) -> inv init (init_state G init).
Proof.
  intros Hnd. split; [now apply wf_init|]. apply all_blocks_init. intros o ss Hin o' ss' s Hin' [<-|[]] Hs.
  simpl. assert (E : (o, ss) = (o, ss')) by now apply (NoDup_map_inj fst init). now injection E as ->.
Qed.

Lemma inv_step init st o : inv init st -> hop_ok st o = true -> inv init (apply_hop st o).
Proof. intros [Hw Hs] Hok. split; [now apply wf_step, hop_ok_dd_of_ok|now apply has_sources_step]. Qed.

Lemma inv_dd_of_inv init st : inv init st -> inv_dd init st.
Proof. intros [Hw Hs]. split; [exact Hw|]. intros i b Hin o ss s Ho Hb Hss. exists s. split; [eapply Hs; eauto|reflexivity]. Qed.

Lemma inv_dd_step init st o : inv_dd init st -> hop_ok_dd st o = true -> inv_dd init (apply_hop st o).
Proof. intros [Hw Hs] Hok. split; [now apply wf_step|now apply has_series_step]. Qed.

Lemma legal_nodup G init hist k :
  (forall o ss, In (o, ss) init -> NoDup ss) -> legal (init_state G init) hist = true ->
  all_blocks nodup_b (fold_left apply_hop (firstn k hist) (init_state G init)).
Proof.
  intros Hss. apply legal_prefix; [|exact (all_blocks_init G init nodup_b Hss)]. intros st o H Hok. now apply nodup_step, hop_ok_dd_of_ok.
Qed.

Definition serves (init : list (N * list sample)) (st : state) (sel : list N) : Prop :=
  forall o ss s, In (o, ss) init -> In s ss ->
    exists id b, In id sel /\ find st id = Some b /\ In s (m_samples b).

Definition serves_series (init : list (N * list sample)) (st : state) (sel : list N) : Prop :=
  forall o ss s, In (o, ss) init -> In s ss ->
    exists id b s', In id sel /\ find st id = Some b /\ In s' (m_samples b) /\ series_of s' = series_of s.

Definition sound (init : list (N * list sample)) (st : state) (sel : list N) : Prop :=
  forall id, In id sel -> exists b, find st id = Some b /\
    forall s, In s (m_samples b) -> exists o ss, In (o, ss) init /\ In s ss.

Lemma sound_find init st sel id b s :
  sound init st sel -> In id sel -> find st id = Some b -> In s (m_samples b) -> exists o ss, In (o, ss) init /\ In s ss.
Proof. intros H Hid Hf Hs. destruct (H id Hid) as (b' & Hf' & Hb). rewrite Hf in Hf'. injection Hf' as <-. auto. Qed.

Lemma covered_orig init st hide sel o ss : wf init st -> cover_ok st hide sel = true -> In (o, ss) init ->
  exists id b, In id sel /\ find st id = Some b /\ In o (m_sources b).
Proof.
  intros [K Cov _] Hc Hin. unfold cover_ok in Hc. apply andb_true_iff in Hc as [_ Hc]. rewrite forallb_forall in Hc.
  destruct (Cov o ss Hin) as (i & b & H1 & H2 & H3).
  assert (He : In (i, b) (eligible hide st)).
  { apply filter_In. split; [exact H1|]. simpl. now rewrite H2, andb_false_r. }
  apply Hc, existsb_exists in He as (id & Hid & Hsub). simpl in Hsub.
  destruct (find st id) as [b'|] eqn:Hf; [|discriminate]. exists id, b'. repeat split; auto.
  exact (proj1 (subN_In _ _) Hsub o H3).
Qed.

Lemma covered_serves init st hide sel : inv init st -> cover_ok st hide sel = true -> serves init st sel.
Proof.
  intros [Hw Hsup] Hc o ss s Hin Hs. destruct (covered_orig init st hide sel o ss Hw Hc Hin) as (id & b & Hid & Hf & Ho).
  exists id, b. repeat split; auto. exact (Hsup id b (find_In _ _ _ Hf) o ss s Hin Ho Hs).
Qed.

Lemma covered_serves_series init st hide sel :
  inv_dd init st -> cover_ok st hide sel = true -> serves_series init st sel.
Proof.
  intros [Hw Hser] Hc o ss s Hin Hs. destruct (covered_orig init st hide sel o ss Hw Hc Hin) as (id & b & Hid & Hf & Ho).
  destruct (Hser id b (find_In _ _ _ Hf) o ss s Hin Ho Hs) as (s' & Hs' & E). exists id, b, s'. auto.
Qed.

Lemma covered_sound init st hide sel : wf init st -> cover_ok st hide sel = true -> sound init st sel.
Proof.
  intros [K _ Sub] Hc id Hid. unfold cover_ok in Hc. apply andb_true_iff in Hc as [Hc _]. rewrite forallb_forall in Hc.
  apply Hc, memN_In, in_map_iff in Hid as ([i b] & <- & [Hin _]%filter_In).
  exists b. split; [now apply In_find|]. intros s Hs. destruct (Sub i b Hin s Hs) as (o & ss & H1 & _ & H3). eauto.
Qed.

Lemma sound_b init st sel : sound init st sel ->
  forallb (fun id => match find st id with
                     | Some b => forallb (fun s => existsb (fun p => memS s (snd p)) init) (m_samples b)
                     | None => false end) sel = true.
Proof.
  intros H. apply forallb_forall. intros id Hid. destruct (H id Hid) as (b & -> & Hb).
  apply forallb_forall. intros s Hs. destruct (Hb s Hs) as (o & ss & Hin & Hss).
  apply existsb_exists. exists (o, ss). split; [exact Hin|now apply memS_In].
Qed.

Lemma served_ok_of init st sel : serves init st sel -> sound init st sel -> served_ok init st sel = true.
Proof.
  intros H1 H2. unfold served_ok. rewrite (sound_b init st sel H2), andb_true_r.
  apply forallb_forall. intros [o ss] Hin. apply forallb_forall. intros s Hs.
  destruct (H1 o ss s Hin Hs) as (id & b & Hid & Hf & Hb). apply existsb_exists. exists id.
  rewrite Hf. split; [exact Hid|now apply memS_In].
Qed.

Lemma dd_ok_of init st sel : serves_series init st sel -> sound init st sel -> dd_ok init st sel = true.
Proof.
  intros H1 H2. unfold dd_ok. rewrite (sound_b init st sel H2), andb_true_r.
  apply forallb_forall. intros [o ss] Hin. apply forallb_forall. intros s Hs.
  destruct (H1 o ss s Hin Hs) as (id & b & s' & Hid & Hf & Hb & E). apply existsb_exists. exists id.
  rewrite Hf. split; [exact Hid|]. apply existsb_exists. exists s'. split; [exact Hb|now apply N.eqb_eq].
Qed.

Lemma served_from_cover init st hide sel : inv init st -> cover_ok st hide sel = true -> served_ok init st sel = true.
Proof. intros Hi Hc. apply served_ok_of; [exact (covered_serves _ _ _ _ Hi Hc)|exact (covered_sound _ _ _ _ (proj1 Hi) Hc)]. Qed.

Lemma dd_from_cover init st hide sel : inv_dd init st -> cover_ok st hide sel = true -> dd_ok init st sel = true.
Proof. intros Hi Hc. apply dd_ok_of; [exact (covered_serves_series _ _ _ _ Hi Hc)|exact (covered_sound _ _ _ _ (proj1 Hi) Hc)]. Qed.

(* at every crash point of every legal history, whatever covering selection the store
   gateway makes, every original sample is served and nothing else is *)
Lemma crash_safe G init hist k hide sel :
  NoDup (map fst init) -> legal (init_state G init) hist = true ->
  let st := fold_left apply_hop (firstn k hist) (init_state G init) in
  cover_ok st hide sel = true ->
  serves init st sel
  /\ (forall id b s, In id sel -> find st id = Some b -> In s (m_samples b) ->
     exists o ss, In (o, ss) init /\ In s ss).
Proof.
  intros Hnd Hl st Hc. pose proof (legal_prefix _ (inv_step init) hist _ k (inv_init G init Hnd) Hl) as Hi.
  split; [exact (covered_serves init st hide sel Hi Hc)|].
  intros id b s. exact (sound_find init st sel id b s (covered_sound init st hide sel (proj1 Hi) Hc)).
Qed.

(* every block of every legal history holds exactly the samples of its source blocks *)
Lemma merge_exact G init hist k i b :
  NoDup (map fst init) -> legal (init_state G init) hist = true ->
  In (i, b) (fold_left apply_hop (firstn k hist) (init_state G init)) ->
  forall s, In s (m_samples b) <-> exists o ss, In (o, ss) init /\ In o (m_sources b) /\ In s ss.
Proof.
  intros Hnd Hl Hin s.
  destruct (legal_prefix _ (inv_step init) hist _ k (inv_init G init Hnd) Hl) as [[_ _ Sub] Sup]. split.
  - exact (Sub i b Hin s).
  - intros (o & ss & H1 & H2 & H3). exact (Sup i b Hin o ss s H1 H2 H3).
Qed.

Lemma to31_ids (e : state) : map C31.bid (map to31 e) = map Z.of_N (map fst e).
Proof. rewrite !map_map. apply map_ext. intros [i b]. reflexivity. Qed.

Lemma incl_of_N a c : incl (map Z.of_N a) (map Z.of_N c) -> incl a c.
Proof.
  intros H x Hx. apply (in_map Z.of_N), H, in_map_iff in Hx as (y & Ey%N2Z.inj & Hy). now subst.
Qed.

Lemma sg_select_cover st hide : NoDup (map fst st) -> cover_ok st hide (sg_select st hide) = true.
Proof.
  intros K. unfold cover_ok, sg_select.
  set (e := eligible hide st). set (l := map to31 e).
  assert (Kl : NoDup (map C31.bid l)).
  { unfold l. rewrite to31_ids. apply Injective_map_NoDup; [intros a b; apply N2Z.inj|].
    now apply NoDup_map_filter. }
  assert (He : forall i b, In (i, b) e -> find st i = Some b).
  { intros i b [Hp _]%filter_In. now apply In_find. }
  assert (Hsel : forall q, In q e -> C31.hidden l (to31 q) = false ->
            In (fst q) (map fst (filter (fun p => negb (C31.hidden l (to31 p))) e))).
  { intros q Hq Hh. apply in_map, filter_In. now rewrite Hh. }
  apply andb_true_iff. split.
  - apply forallb_forall. intros id Hid. apply memN_In.
    apply in_map_iff in Hid as (p & <- & [Hp _]%filter_In). now apply in_map.
  - (* an eligible block is selected, or hidden behind a selected one: C31.hidden_covered *)
    apply forallb_forall. intros [i b] Hp. apply existsb_exists.
    destruct (C31.hidden l (to31 (i, b))) eqn:Hh.
    + destruct (C31.hidden_covered l _ Kl (in_map to31 e _ Hp) Hh) as (q & Hq & _ & Hk & Hincl).
      apply in_map_iff in Hq as ([j c] & <- & Hq).
      exists j. split; [exact (Hsel _ Hq Hk)|]. rewrite (He j c Hq). now apply subN_In, incl_of_N.
    + exists i. split; [exact (Hsel _ Hp Hh)|]. rewrite (He i b Hp). now apply subN_In.
Qed.

(* cover_ok looks at the selection only through membership *)
Lemma cover_ok_seteq st hide a c : sel_eq a c = true -> cover_ok st hide c = true -> cover_ok st hide a = true.
Proof.
  intros E. pose proof (seteq_In N.eqb N.eqb_eq a c E) as E'. clear E. unfold cover_ok.
  intros [H1 H2]%andb_prop. rewrite forallb_forall in H1, H2. apply andb_true_intro. split; apply forallb_forall.
  - intros id Hid. apply H1, E', Hid.
  - intros p Hp. apply existsb_exists. destruct (proj1 (existsb_exists _ _) (H2 p Hp)) as (id & Hid & H).
    exists id. split; [apply E', Hid|exact H].
Qed.

Lemma sel_cover st hide s : NoDup (map fst st) -> sel_eq s (sg_select st hide) = true -> cover_ok st hide s = true.
Proof. intros K E. exact (cover_ok_seteq _ _ _ _ E (sg_select_cover st hide K)). Qed.

Lemma served_steps_from_sel init : forall steps st,
  inv init st -> legal st (map (fun s => fst (fst s)) steps) = true ->
  sel_steps st steps = true -> served_steps init st steps = true.
Proof.
  induction steps as [|[[o s0] s1] r IH]; intros st Hi Hl Hs; simpl in *; [reflexivity|].
  apply andb_prop in Hl as [Hok Hl]. apply andb_prop in Hs as [[E0 E1]%andb_prop Hs].
  apply (inv_step init) in Hok; [|exact Hi]. pose proof (wf_keys _ _ (proj1 Hok)) as K.
  rewrite (served_from_cover init _ true s0 Hok (sel_cover _ _ _ K E0)),
    (served_from_cover init _ false s1 Hok (sel_cover _ _ _ K E1)). now apply IH.
Qed.

Definition init_in_range_b (G : list (N * ometa)) (init : list (N * list sample)) : bool :=
  forallb (fun p => forallb (in_range (omint (ometa_of G (fst p))) (omaxt (ometa_of G (fst p)))) (snd p)) init.

Lemma corr_ok_hist v G init s0 s1 steps q : corr_ok (CHist v G init s0 s1 steps q) = true ->
  NoDup (map fst init) /\ (forall o ss, In (o, ss) init -> NoDup ss)
  /\ legal (init_state G init) (map (fun s => fst (fst s)) steps) = true
  /\ init_in_range_b G init = true
  /\ sel_eq s0 (sg_select (init_state G init) true) = true /\ sel_eq s1 (sg_select (init_state G init) false) = true
  /\ sel_steps (init_state G init) steps = true.
Proof.
  unfold corr_ok.
  intros [[[[[[[_ Hn]%andb_prop Hs]%andb_prop Hl]%andb_prop Hr]%andb_prop E0]%andb_prop E1]%andb_prop Hss]%andb_prop.
  apply (nodup_NoDup N.eqb N.eqb_eq) in Hn. rewrite forallb_forall in Hs. repeat split; auto.
  intros o ss Hin. exact (proj1 (nodup_NoDup sample_eqb sample_eqb_spec _) (Hs _ Hin)).
Qed.

Lemma corr_served c : corr_ok c = true -> served_all c = true.
Proof.
  destruct c as [v G init s0 s1 steps q|]; [|reflexivity]. intros (Hnd & _ & Hl & _ & E0 & E1 & Hss)%corr_ok_hist.
  pose proof (inv_init G init Hnd) as Hi. pose proof (wf_keys _ _ (proj1 Hi)) as K. simpl.
  rewrite (served_from_cover init _ true s0 Hi (sel_cover _ _ _ K E0)),
    (served_from_cover init _ false s1 Hi (sel_cover _ _ _ K E1)). now apply served_steps_from_sel.
Qed.

(* corr_ok ties the observed selections to the model's filter, whose cover is a theorem:
   the cover checks on the observations add nothing *)
Lemma crash_safe_case c : corr_ok c = true -> cover_all c = true -> served_all c = true.
Proof. intros Hc _. now apply corr_served. Qed.

(* at every crash point of every legal history, what the store gateway's filter chain selects
   (either treatment of deletion marks) serves every original sample and nothing else *)
Lemma crash_safe_filter G init hist k hide :
  NoDup (map fst init) -> legal (init_state G init) hist = true ->
  let st := fold_left apply_hop (firstn k hist) (init_state G init) in
  let sel := sg_select st hide in
  serves init st sel
  /\ (forall id b s, In id sel -> find st id = Some b -> In s (m_samples b) ->
     exists o ss, In (o, ss) init /\ In s ss).
Proof.
  intros Hnd Hl st sel. apply (crash_safe G init hist k hide sel Hnd Hl), sg_select_cover.
  apply (legal_prefix _ (inv_step init) hist _ k (inv_init G init Hnd) Hl).
Qed.

Definition once (st : state) (sel : list N) : Prop :=
  forall i j a c s, In i sel -> In j sel -> find st i = Some a -> find st j = Some c ->
    In s (m_samples a) -> In s (m_samples c) -> i = j.

(* the shape of antichain_ok and quiet_ok *)
Lemma pairwise_ok (R : mb -> mb -> bool) st sel i j a c :
  nodup N.eqb sel &&
  forallb (fun i => forallb (fun j => N.eqb i j ||
     match find st i, find st j with
     | Some a, Some c => R a c
     | _, _ => false
     end) sel) sel = true ->
  In i sel -> In j sel -> find st i = Some a -> find st j = Some c -> i <> j -> R a c = true.
Proof.
  intros [_ H]%andb_prop Hi Hj Ha Hc E. rewrite forallb_forall in H. specialize (H i Hi). rewrite forallb_forall in H. specialize (H j Hj).
  apply N.eqb_neq in E. now rewrite Ha, Hc, E in H.
Qed.

Lemma once_served_list st sel :
  nodup N.eqb sel = true -> once st sel /\ (forall i a, find st i = Some a -> NoDup (m_samples a)) ->
  nodup sample_eqb (served_list st sel) = true.
Proof.
  intros Hn%(nodup_NoDup N.eqb N.eqb_eq) [Ho Hb].
  apply (nodup_NoDup sample_eqb sample_eqb_spec), NoDup_concat_map; [exact Hn| |].
  - intros id _. destruct (find st id) as [b|] eqn:Hf; [eauto|constructor].
  - intros i j s Hi Hj Sa Sc.
    destruct (find st i) as [a|] eqn:Ha; [|contradiction]. destruct (find st j) as [c|] eqn:Hc; [|contradiction]. eauto.
Qed.

Lemma last_view_fold : forall steps st s0 s1,
  fst (fst (last_view st s0 s1 steps)) = fold_left apply_hop (map (fun s => fst (fst s)) steps) st.
Proof. induction steps as [|[[o a] b] r IH]; intros st s0 s1; simpl; [reflexivity|apply IH]. Qed.

(* inputs that share no sample: the source sets of the visible blocks stay nested or disjoint *)
Definition lam2 (a c : list N) : Prop := incl a c \/ incl c a \/ (forall x, In x a -> ~ In x c).

Definition laminar (st : state) : Prop :=
  forall i a j c, In (i, a) st -> In (j, c) st -> lam2 (m_sources a) (m_sources c).

Lemma laminar_init G init : laminar (init_state G init).
Proof.
  intros i a j c [[o ss] [[= <- <-] _]]%in_map_iff [[o' ss'] [[= <- <-] _]]%in_map_iff. simpl.
  destruct (N.eq_dec o o') as [->|E]; [left; apply incl_refl|].
  right. right. intros x [Hx|[]] [Hy|[]]. congruence.
Qed.

Lemma laminar_step st o : laminar st -> hop_ok st o = true -> laminar (apply_hop st o).
Proof.
  intros Hlam Hok. destruct o as [id b|id|id]; simpl.
  - apply hop_ok_add in Hok as (ps & Hps & Hsrc & _ & Hmax & _).
    (* an old block lies inside a parent, hence inside the new block, or is disjoint from all parents *)
    assert (Hold : forall j c, In (j, c) st ->
              incl (m_sources c) (cb_sources b) \/ (forall x, In x (cb_sources b) -> ~ In x (m_sources c))).
    { intros j c Hc.
      destruct (exists_or_all (fun p => incl (m_sources c) (m_sources p))
                  (fun p => forall x, In x (m_sources p) -> ~ In x (m_sources c)) ps) as [(p & Hp & Hsub)|Hdis].
      - intros p Hp. destruct (Hps p Hp) as [i Hi].
        destruct (Hlam i p j c Hi Hc) as [H|[H|H]]; [left; exact (Hmax p j c Hp Hc H)|left; exact H|right; exact H].
      - left. intros x Hx. apply Hsrc. eauto.
      - right. intros x (p & Hp & Hx)%Hsrc. exact (Hdis p Hp x Hx). }
    intros i a j c [Hi|[[= <- <-]|[]]]%in_app_or [Hj|[[= <- <-]|[]]]%in_app_or; simpl.
    + eapply Hlam; eauto.
    + destruct (Hold i a Hi) as [H|H]; [left; exact H|]. right. right. intros x Hx Hy. exact (H x Hy Hx).
    + destruct (Hold j c Hj) as [H|H]; [right; left; exact H|right; right; exact H].
    + left. apply incl_refl.
  - intros i a j c (a0 & Hi & Ea)%set_marked_In (c0 & Hj & Ec)%set_marked_In.
    destruct Ea as [->| ->], Ec as [->| ->]; exact (Hlam _ _ _ _ Hi Hj).
  - intros i a j c [Hi _]%remove_In [Hj _]%remove_In. exact (Hlam _ _ _ _ Hi Hj).
Qed.

Definition orig_disjoint (init : list (N * list sample)) : Prop :=
  forall o ss o' ss' s, In (o, ss) init -> In (o', ss') init -> In s ss -> In s ss' -> o = o'.

Lemma served_once_state init st sel :
  wf init st -> laminar st -> orig_disjoint init -> antichain_ok st sel = true -> once st sel.
Proof.
  intros [K _ Sub] Hlam Hod Hanti i j a c s Hi Hj Ha Hc Hsa Hsc.
  destruct (N.eq_dec i j) as [E|E]; [exact E|exfalso].
  pose proof (pairwise_ok _ _ _ i j a c Hanti Hi Hj Ha Hc E) as H1.
  pose proof (pairwise_ok _ _ _ j i c a Hanti Hj Hi Hc Ha (not_eq_sym E)) as H2.
  apply negb_true_iff in H1, H2. apply find_In in Ha, Hc.
  destruct (Hlam i a j c Ha Hc) as [H|[H|H]]; [apply subN_In in H; congruence..|].
  destruct (Sub i a Ha s Hsa) as (o & ss & O1 & O2 & O3). destruct (Sub j c Hc s Hsc) as (o' & ss' & P1 & P2 & P3).
  apply (H o O2). now rewrite (Hod o ss o' ss' s).
Qed.

(* at every prefix of a legal history over original blocks that share no sample, with a
   non-nested selection: a sample is in at most one selected block, once *)
Lemma served_once G init hist k sel :
  NoDup (map fst init) -> (forall o ss, In (o, ss) init -> NoDup ss) -> orig_disjoint init ->
  legal (init_state G init) hist = true ->
  let st := fold_left apply_hop (firstn k hist) (init_state G init) in
  antichain_ok st sel = true ->
  once st sel
  /\ (forall i a, find st i = Some a -> NoDup (m_samples a)).
Proof.
  intros Hnd Hss Hod Hl st Hanti. split.
  - apply (served_once_state init st sel); try assumption.
    + apply (legal_prefix _ (inv_step init) hist _ k (inv_init G init Hnd) Hl).
    + exact (legal_prefix _ laminar_step hist _ k (laminar_init G init) Hl).
  - intros i a Hf%find_In. exact (legal_nodup G init hist k Hss Hl i a Hf).
Qed.

Lemma orig_disjoint_b_spec init : NoDup (map fst init) -> orig_disjoint_b init = true -> orig_disjoint init.
Proof.
  induction init as [|[k v] r IH]; intros Hnd Hb o ss o' ss' s H1 H2 S1 S2; simpl in *; [contradiction|].
  inversion Hnd as [|? ? Hni Hnd']; subst. apply andb_true_iff in Hb as [Hd Hb].
  rewrite forallb_forall in Hd.
  assert (Hx : forall p t, In p r -> In t v -> In t (snd p) -> False).
  { intros p t Hp. exact (disjoint_In sample_eqb sample_eqb_spec _ _ t (Hd p Hp)). }
  destruct H1 as [[= <- <-]|H1], H2 as [[= <- <-]|H2]; [reflexivity|destruct (Hx _ s H2 S1 S2)|destruct (Hx _ s H1 S2 S1)|].
  exact (IH Hnd' Hb o ss o' ss' s H1 H2 S1 S2).
Qed.

(* the selections after the last event are checked like all others *)
Lemma last_view_antichain : forall steps st s0 s1,
  antichain_ok st s0 = true -> antichain_ok st s1 = true -> cover_steps st steps = true ->
  let '(st', f0, f1) := last_view st s0 s1 steps in antichain_ok st' f0 = true /\ antichain_ok st' f1 = true.
Proof.
  induction steps as [|[[o a] b] r IH]; intros st s0 s1 A0 A1 Hcs; simpl in *; [auto|].
  apply andb_prop in Hcs as [[[_ A0']%andb_prop A1']%andb_prop Hcs]. now apply IH.
Qed.

Lemma once_case c :
  corr_ok c = true -> cover_all c = true ->
  match c with CHist _ _ init _ _ _ _ => orig_disjoint_b init = true | CHistD _ _ _ _ _ _ _ => True end ->
  once_ok c = true.
Proof.
  destruct c as [v G init s0 s1 steps [|]|]; try reflexivity.
  intros (Hnd & Hsn & Hl & _)%corr_ok_hist Hcov Hod%(orig_disjoint_b_spec init Hnd). simpl in *.
  apply andb_prop in Hcov as [[[_ A0]%andb_prop A1]%andb_prop Hcs].
  pose proof (last_view_antichain steps _ s0 s1 A0 A1 Hcs) as HA.
  pose proof (last_view_fold steps (init_state G init) s0 s1) as Hst. rewrite <- (firstn_all (map _ steps)) in Hst.
  destruct (last_view (init_state G init) s0 s1 steps) as [[st f0] f1]. simpl in Hst. subst st. destruct HA as [A0' A1'].
  apply andb_true_iff. split; (apply once_served_list; [|now apply served_once]).
  - exact (proj1 (andb_prop _ _ A0')).
  - exact (proj1 (andb_prop _ _ A1')).
Qed.

(* overlapping inputs: a block's sources lie in its group and its samples in its time range, so
   selected blocks of one group whose ranges do not meet share no sample *)
Definition grp_b (G : list (N * ometa)) (b : mb) : Prop :=
  forall o, In o (m_sources b) -> og (ometa_of G o) = m_group b.

Definition rng_b (b : mb) : Prop :=
  forall s, In s (m_samples b) -> in_range (m_mint b) (m_maxt b) s = true.

Lemma in_range_mono a b a' b' s : (a' <= a)%Z -> (b <= b')%Z -> in_range a b s = true -> in_range a' b' s = true.
Proof.
  unfold in_range. intros H1 H2 [A%Z.leb_le B%Z.ltb_lt]%andb_prop.
  apply andb_true_intro. split; [apply Z.leb_le|apply Z.ltb_lt]; lia.
Qed.

Lemma grp_step G st o : all_blocks (grp_b G) st -> hop_ok st o = true -> all_blocks (grp_b G) (apply_hop st o).
Proof.
  intros H Hok. apply all_blocks_step; [exact (fun _ H => H)| |exact H]. intros id c ->.
  apply hop_ok_add in Hok as (ps & Hps & Hsrc & _ & _ & Hmeta). intros o (p & Hp & Ho)%Hsrc.
  destruct (Hps p Hp) as [j Hj]. simpl. rewrite (H j p Hj o Ho). apply (Hmeta p Hp).
Qed.

Lemma rng_step st o : all_blocks rng_b st -> hop_ok st o = true -> all_blocks rng_b (apply_hop st o).
Proof.
  intros H Hok. apply all_blocks_step; [exact (fun _ H => H)| |exact H]. intros id c ->.
  apply hop_ok_add in Hok as (ps & Hps & _ & Hsm & _ & Hmeta). intros s (p & Hp & Hs)%Hsm.
  destruct (Hps p Hp) as [j Hj]. destruct (Hmeta p Hp) as (_ & H1 & H2).
  exact (in_range_mono _ _ _ _ s H1 H2 (H j p Hj s Hs)).
Qed.

Lemma rng_init G init : init_in_range_b G init = true -> all_blocks rng_b (init_state G init).
Proof.
  intros Hr. unfold init_in_range_b in Hr. rewrite forallb_forall in Hr. apply all_blocks_init.
  intros o ss Hin s Hs. specialize (Hr _ Hin). simpl in Hr. rewrite forallb_forall in Hr. now apply Hr.
Qed.

Lemma grp_init G init : all_blocks (grp_b G) (init_state G init).
Proof. apply all_blocks_init. now intros o ss _ o' [<-|[]]. Qed.

Definition groups_disjoint (G : list (N * ometa)) (init : list (N * list sample)) : Prop :=
  forall o ss o' ss' s, In (o, ss) init -> In (o', ss') init ->
    og (ometa_of G o) <> og (ometa_of G o') -> In s ss -> In s ss' -> False.

Lemma groups_disjoint_b_spec G init : groups_disjoint_b G init = true -> groups_disjoint G init.
Proof.
  unfold groups_disjoint_b. rewrite forallb_forall. intros H o ss o' ss' s H1 H2 Hne.
  specialize (H _ H1). rewrite forallb_forall in H. specialize (H _ H2). simpl in H.
  apply orb_true_iff in H as [H%N.eqb_eq|H]; [contradiction|]. exact (disjoint_In sample_eqb sample_eqb_spec _ _ s H).
Qed.

(* no two selected blocks of one compaction group overlap in time: a sample is in at most one of them *)
Lemma quiet_once_state G init st sel :
  wf init st -> all_blocks (grp_b G) st -> all_blocks rng_b st -> groups_disjoint G init ->
  quiet_ok st sel = true -> once st sel.
Proof.
  intros [K _ Sub] Hg Hr Hgd Hq i j a c s Hi Hj Ha Hc Sa Sc.
  destruct (N.eq_dec i j) as [E|E]; [exact E|exfalso].
  apply (pairwise_ok _ _ _ i j a c) in Hq; auto. apply find_In in Ha, Hc.
  apply orb_true_iff in Hq as [Hq|Hq]; apply negb_true_iff in Hq.
  - apply N.eqb_neq in Hq.
    destruct (Sub i a Ha s Sa) as (o & ss & O1 & O2 & O3). destruct (Sub j c Hc s Sc) as (o' & ss' & P1 & P2 & P3).
    apply (Hgd o ss o' ss' s O1 P1); [|exact O3|exact P3]. now rewrite (Hg i a Ha o O2), (Hg j c Hc o' P2).
  - pose proof (Hr i a Ha s Sa) as R1. pose proof (Hr j c Hc s Sc) as R2.
    unfold in_range in R1, R2. unfold ranges_meet in Hq.
    apply andb_prop in R1 as [A1%Z.leb_le A2%Z.ltb_lt], R2 as [B1%Z.leb_le B2%Z.ltb_lt].
    apply andb_false_iff in Hq as [Hq%Z.ltb_ge|Hq%Z.ltb_ge]; lia.
Qed.

Lemma quiet_once G init hist k sel :
  NoDup (map fst init) -> (forall o ss, In (o, ss) init -> NoDup ss) ->
  init_in_range_b G init = true -> groups_disjoint_b G init = true ->
  legal (init_state G init) hist = true ->
  let st := fold_left apply_hop (firstn k hist) (init_state G init) in
  quiet_ok st sel = true ->
  once st sel
  /\ (forall i a, find st i = Some a -> NoDup (m_samples a)).
Proof.
  intros Hnd Hss Hrg Hgd Hl st Hq. split.
  - apply (quiet_once_state G init st sel); try assumption.
    + apply (legal_prefix _ (inv_step init) hist _ k (inv_init G init Hnd) Hl).
    + exact (legal_prefix _ (grp_step G) hist _ k (grp_init G init) Hl).
    + exact (legal_prefix _ rng_step hist _ k (rng_init G init Hrg) Hl).
    + now apply groups_disjoint_b_spec.
  - intros i a Hf%find_In. exact (legal_nodup G init hist k Hss Hl i a Hf).
Qed.

(* on the case: quiescent final selections without time overlap inside a group are duplicate-free *)
Lemma once_case_quiet c :
  corr_ok c = true -> quiet_all c = true ->
  match c with CHist _ G init _ _ _ _ => groups_disjoint_b G init = true | CHistD _ _ _ _ _ _ _ => True end ->
  once_ok c = true.
Proof.
  destruct c as [v G init s0 s1 steps [|]|]; try reflexivity.
  intros (Hnd & Hsn & Hl & Hrg & _)%corr_ok_hist Hq Hgd. simpl in *.
  pose proof (last_view_fold steps (init_state G init) s0 s1) as Hst. rewrite <- (firstn_all (map _ steps)) in Hst.
  destruct (last_view (init_state G init) s0 s1 steps) as [[st f0] f1]. simpl in Hst. subst st.
  apply andb_true_iff in Hq as [Q0 Q1].
  apply andb_true_iff. split; (apply once_served_list; [|now apply quiet_once]).
  - exact (proj1 (andb_prop _ _ Q0)).
  - exact (proj1 (andb_prop _ _ Q1)).
Qed.

Lemma dd_steps_from_sel init : forall steps st,
  inv_dd init st -> legal_dd st (map (fun s => fst (fst s)) steps) = true ->
  sel_steps st steps = true -> dd_steps init st steps = true.
Proof.
  induction steps as [|[[o s0] s1] r IH]; intros st Hi Hl Hs; simpl in *; [reflexivity|].
  apply andb_prop in Hl as [Hok Hl]. apply andb_prop in Hs as [[E0 E1]%andb_prop Hs].
  apply (inv_dd_step init) in Hok; [|exact Hi]. pose proof (wf_keys _ _ (proj1 Hok)) as K.
  rewrite (dd_from_cover init _ true s0 Hok (sel_cover _ _ _ K E0)),
    (dd_from_cover init _ false s1 Hok (sel_cover _ _ _ K E1)). now apply IH.
Qed.

Lemma corr_dd c : corr_ok c = true -> dd_all c = true.
Proof.
  destruct c as [|ex G init s0 s1 steps q]; [reflexivity|]. unfold corr_ok.
  intros [[[[[[_ Hnd%(nodup_NoDup N.eqb N.eqb_eq)]%andb_prop _]%andb_prop Hl]%andb_prop E0]%andb_prop E1]%andb_prop Hss]%andb_prop.
  pose proof (inv_dd_of_inv init _ (inv_init G init Hnd)) as Hi. pose proof (wf_keys _ _ (proj1 Hi)) as K. simpl.
  rewrite (dd_from_cover init _ true s0 Hi (sel_cover _ _ _ K E0)),
    (dd_from_cover init _ false s1 Hi (sel_cover _ _ _ K E1)). now apply dd_steps_from_sel.
Qed.

(* replicated streams, at every crash point of every legal deduplicating history: what the
   filter chain selects contains only original samples, and a sample of every original series *)
Lemma dedup_safe G init hist k hide :
  NoDup (map fst init) -> legal_dd (init_state G init) hist = true ->
  let st := fold_left apply_hop (firstn k hist) (init_state G init) in
  let sel := sg_select st hide in
  serves_series init st sel
  /\ (forall id b s, In id sel -> find st id = Some b -> In s (m_samples b) ->
     exists o ss, In (o, ss) init /\ In s ss).
Proof.
  intros Hnd Hl st sel.
  pose proof (legal_dd_prefix _ (inv_dd_step init) hist _ k (inv_dd_of_inv init _ (inv_init G init Hnd)) Hl) as Hi.
  pose proof (sg_select_cover _ hide (wf_keys _ _ (proj1 Hi))) as Hc.
  split; [exact (covered_serves_series init _ hide _ Hi Hc)|].
  intros id b s. exact (sound_find init st sel id b s (covered_sound init st hide sel (proj1 Hi) Hc)).
Qed.

(* C35 — proofs about Model/C35.v.
   What a Sync does to the bucket is a sequence of (prefixes of) block uploads
   under the labels of that sync ([ship_ops]); guardedness, hence the block
   invariant at every crash point, follows from that shape alone. The loop of
   Sync is walked once, one iteration at a time ([sync_loop_iter]); from that
   come the shape and which blocks are in the bucket, or recorded as uploaded,
   when it ends ([sync_loop_sound]), and that an undisturbed Sync returns nil
   (Proofs/C35_wedge.v). *)
From Coq Require Import ZArith NArith List Bool Lia Arith String.
Import ListNotations.
From Verif Require Import Lib.Corr Lib.ListFacts Lib.Crash_Store Lib.Crash_Block Lib.Crash_BlockFacts Lib.Crash_BlockProgs.
From Verif Require Import Gen.C35 Model.C35.

Lemma upload_phases_std : upload_phases = Some std_upload.
Proof. vm_compute. reflexivity. Qed.

Opaque upload_phases.

Lemma run_ups_spec f : forall l n b d b' n' d' u,
  run_ups f n b d l = (b', n', d', u) ->
  exists k, d' = d ++ firstn k l /\ b' = bapply_ops b (firstn k l) /\ (u = UDone -> firstn k l = l).
Proof.
  induction l as [|o r IH]; intros n b d b' n' d' u H; simpl in H.
  - inversion H; subst. exists 0%nat. rewrite app_nil_r. auto.
  - destruct (tick f n).
    + apply IH in H as [k [H1 [H2 H3]]]. exists (S k). simpl. split; [|split].
      * rewrite H1, <- app_assoc. reflexivity.
      * exact H2.
      * intros Hu. rewrite (H3 Hu). reflexivity.
    + inversion H; subst. exists 0%nat. rewrite app_nil_r. repeat split; auto. discriminate.
    + inversion H; subst. exists 0%nat. rewrite app_nil_r. repeat split; auto. discriminate.
Qed.

Lemma run_ups_nofault : forall l n b d, run_ups NoFault n b d l = (bapply_ops b l, (n + List.length l)%nat, d ++ l, UDone).
Proof.
  induction l as [|o r IH]; intros n b d; simpl.
  - rewrite Nat.add_0_r, app_nil_r. reflexivity.
  - rewrite IH. rewrite <- app_assoc. simpl. f_equal. f_equal. f_equal. lia.
Qed.

Lemma is_up_firstn (l : list bop) k : forallb (is_up key obj) l = true -> forallb (is_up key obj) (firstn k l) = true.
Proof. apply forallb_firstn. Qed.

(* the mutating operations of a Sync: for blocks known locally, a prefix of the
   block's upload with the shipper's labels, one after the other *)
Inductive ship_ops (U : univ) (L : locals) (lbl : option N) : list bop -> Prop :=
| ship_nil : ship_ops U L lbl []
| ship_cons id order cid lb l k rest :
    lbl = Some lb -> linfo_of L id <> None -> upload_ops std_upload U id order cid lb = Some l ->
    ship_ops U L lbl rest -> ship_ops U L lbl (firstn k l ++ rest).

Lemma ship_app U L lbl a c : ship_ops U L lbl a -> ship_ops U L lbl c -> ship_ops U L lbl (a ++ c).
Proof.
  intros Ha Hc. induction Ha as [|id order cid lb l k rest Hlb Hl Hup _ IH]; [exact Hc|].
  rewrite <- app_assoc. apply (ship_cons U L lbl id order cid lb); assumption.
Qed.

Lemma ship_guarded U L lbl ops :
  wf_univ U -> ship_ops U L lbl ops -> forall b, binv U b -> bguarded U b ops.
Proof.
  intros Hwf Hs. induction Hs as [|id order cid lb l k rest Hlb Hl Hup _ IH]; intros b Hb; [exact I|].
  pose proof (upload_guarded U b id order cid lb l Hwf Hb Hup) as G.
  apply guarded_app. split; [apply guarded_firstn, G|]. apply IH, binv_prefix; assumption.
Qed.

Lemma ship_ops_each U L lbl ops o :
  ship_ops U L lbl ops -> In o ops ->
  is_up key obj o = true /\ meta_lbl_ok lbl o = true /\ linfo_of L (fst (op_key key obj o)) <> None.
Proof.
  intros Hs Ho. induction Hs as [|id order cid lb l k rest Hlb Hl Hup _ IH]; [contradiction|].
  apply in_app_or in Ho as [Ho|Ho]; [|exact (IH Ho)]. apply firstn_In in Ho.
  destruct (upload_ops_ups U id order cid lb l o Hup Ho) as [f [v [-> Hm]]]. repeat split; [|exact Hl].
  rewrite Hlb. destruct f; try reflexivity. destruct (Hm eq_refl) as [files ->]. simpl. apply N.eqb_refl.
Qed.

Lemma ship_ups U L lbl ops : ship_ops U L lbl ops -> forallb (is_up key obj) ops = true.
Proof. intros Hs. apply forallb_forall. intros o Ho. apply (ship_ops_each U L lbl ops o Hs Ho). Qed.

(* block [id] needs no upload: recorded as uploaded before this sync, or visible in the bucket *)
Definition shipped (has : list N) (b : bucket) (id : N) : Prop :=
  memN id has = true \/ bhas b (id, FMeta) = true.

Definition loop_post (U : univ) (L : locals) (c : cfg) (has blocks : list N) (b : bucket)
           (ops : list bop) (up : list N) (errs : nat) (res : sres) : Prop :=
  exists ops',
    r_ops res = ops ++ ops' /\ r_bucket res = bapply_ops b ops' /\ ship_ops U L (c_lbl c) ops'
    /\ (r_ret res = true -> errs = 0%nat /\ forall id i, In id blocks -> linfo_of L id = Some i ->
          eligible c i = true -> shipped has (r_bucket res) id)
    /\ (forall l, r_meta res = Some l -> exists new, l = up ++ new /\
          forall id, In id new -> shipped has (r_bucket res) id).

Lemma loop_post_stop U L c has blocks b ops ops1 up errs :
  ship_ops U L (c_lbl c) ops1 ->
  loop_post U L c has blocks b ops up errs (mksres (bapply_ops b ops1) (ops ++ ops1) None false).
Proof. intros Hs. exists ops1. simpl. repeat split; try assumption; discriminate. Qed.

Lemma loop_post_stop0 U L c has blocks b ops up errs :
  loop_post U L c has blocks b ops up errs (mksres b ops None false).
Proof.
  pose proof (loop_post_stop U L c has blocks b ops [] up errs (ship_nil U L _)) as H.
  rewrite app_nil_r in H. exact H.
Qed.

Lemma loop_post_end U L c has b ops up errs :
  loop_post U L c has [] b ops up errs (mksres b ops (Some up) (Nat.eqb errs 0)).
Proof.
  exists []. simpl. rewrite app_nil_r. split; [reflexivity|]. split; [reflexivity|]. split; [constructor|]. split.
  - intros Hr. split; [apply Nat.eqb_eq, Hr|intros id i []].
  - intros l Hl. inversion Hl; subst. exists []. rewrite app_nil_r. split; [reflexivity|intros id []].
Qed.

(* one more block in front: its upload issued [ops1]; it raised the error count, or else is
   shipped if eligible; it was appended to the list for the meta file only if shipped *)
Lemma loop_post_cons U L c has id r b ops ops1 up up' errs errs' res :
  ship_ops U L (c_lbl c) ops1 ->
  loop_post U L c has r (bapply_ops b ops1) (ops ++ ops1) up' errs' res ->
  errs' = S errs \/ errs' = errs /\ (forall i, linfo_of L id = Some i -> eligible c i = true ->
                                      shipped has (bapply_ops b ops1) id) ->
  up' = up \/ up' = up ++ [id] /\ shipped has (bapply_ops b ops1) id ->
  loop_post U L c has (id :: r) b ops up errs res.
Proof.
  intros S1 [ops' [H1 [H2 [H3 [H4 H5]]]]] Herr Hup.
  assert (Hmono : forall j, shipped has (bapply_ops b ops1) j -> shipped has (r_bucket res) j).
  { intros j [Hj|Hj]; [left; exact Hj|right]. rewrite H2. apply bhas_mono; [exact (ship_ups _ _ _ _ H3)|exact Hj]. }
  exists (ops1 ++ ops'). split; [rewrite H1, app_assoc; reflexivity|].
  split; [rewrite H2, bapply_ops_app; reflexivity|]. split; [apply ship_app; assumption|]. split.
  - intros Hr. destruct (H4 Hr) as [He Hel]. destruct Herr as [->|[-> Hid]]; [discriminate|].
    split; [exact He|]. intros j i [<-|Hin] Hl Hel'; [apply Hmono, (Hid i Hl Hel')|exact (Hel j i Hin Hl Hel')].
  - intros l Hl. destruct (H5 l Hl) as [new [-> Hn]]. destruct Hup as [->|[-> Hid]].
    + exists new. split; [reflexivity|exact Hn].
    + exists (id :: new). split; [rewrite <- app_assoc; reflexivity|].
      intros j [<-|Hj]; [apply Hmono, Hid|apply Hn, Hj].
Qed.

(* Sync goes on after a failure only for these reasons *)
Definition excused (c : cfg) : Prop := c_fault c <> NoFault \/ c_lbl c = None.

(* One iteration of the loop, on block [id] in bucket [b]: it issues [ops1]; then Sync gives
   up - excused, or stopped by the overlap check - or goes on with the next block, having
   raised the error count or else shipped the block if it is eligible. The last premise of
   [iter_next], where the checker's cache comes from, serves Proofs/C35_wedge.v only. *)
Inductive loop_iter U L c has id r b n ops up errs ck res : Prop :=
| iter_stop i ops1 :
    linfo_of L id = Some i -> ship_ops U L (c_lbl c) ops1 ->
    res = mksres (bapply_ops b ops1) (ops ++ ops1) None false ->
    excused c \/ bhas b (id, FMeta) = false /\ overlap_gate L c b (S n) ck i = GStop ->
    loop_iter U L c has id r b n ops up errs ck res
| iter_next i ops1 n' up' errs' cids' ck' ords' :
    linfo_of L id = Some i -> ship_ops U L (c_lbl c) ops1 ->
    sync_loop std_upload U L c has r (bapply_ops b ops1) n' (ops ++ ops1) up' errs' cids' ck' ords' = Some res ->
    errs' = S errs /\ excused c \/ errs' = errs /\ (eligible c i = true -> shipped has (bapply_ops b ops1) id) ->
    up' = up \/ up' = up ++ [id] /\ shipped has (bapply_ops b ops1) id ->
    ck' = ck \/ bhas b (id, FMeta) = false /\ (exists n1, overlap_gate L c b (S n) ck i = GGo n1 ck') ->
    loop_iter U L c has id r b n ops up errs ck res.

Arguments iter_stop {U L c has id r b n ops up errs ck res} i ops1.
Arguments iter_next {U L c has id r b n ops up errs ck res} i ops1 {n' up' errs' cids' ck' ords'}.

Lemma sync_loop_iter U L c has id r b n ops up errs cids ck ords res :
  sync_loop std_upload U L c has (id :: r) b n ops up errs cids ck ords = Some res ->
  loop_iter U L c has id r b n ops up errs ck res.
Proof.
  intros H. rewrite <- (app_nil_r ops) in H. simpl in H.
  destruct (linfo_of L id) as [i|] eqn:Hli; [|discriminate]. destruct (ublock U id) as [bl|] eqn:Hu; [|discriminate].
  destruct (memN id has) eqn:Hmem.
  { apply (iter_next i [] Hli (ship_nil U L _) H); [right|right|left]; auto.
    - split; [reflexivity|]. left. exact Hmem.
    - split; [reflexivity|]. left. exact Hmem. }
  destruct (negb (l_nonempty i)) eqn:Hne.
  { apply (iter_next i [] Hli (ship_nil U L _) H); [right|left|left]; auto.
    split; [reflexivity|]. unfold eligible. destruct (l_nonempty i); discriminate. }
  destruct (negb (N.leb (l_level i) 1) && negb (c_uc c)) eqn:Hlv.
  { apply (iter_next i [] Hli (ship_nil U L _) H); [right|left|left]; auto.
    split; [reflexivity|]. unfold eligible. destruct (N.leb (l_level i) 1), (c_uc c), (l_nonempty i); discriminate. }
  assert (Hfault : tick (c_fault c) n <> OpOk -> excused c)
    by (intros Hm; left; intros E; rewrite E in Hm; apply Hm; reflexivity).
  destruct (tick (c_fault c) n) eqn:Ht;
    try (inversion H; apply (iter_stop i [] Hli (ship_nil U L _) eq_refl); left; apply Hfault; discriminate).
  destruct (bhas b (id, FMeta)) eqn:Hhas.
  { apply (iter_next i [] Hli (ship_nil U L _) H); [right|right|left]; auto.
    - split; [reflexivity|]. right. exact Hhas.
    - split; [reflexivity|]. right. exact Hhas. }
  destruct (overlap_gate L c b (S n) ck i) as [|n1 ck'] eqn:Hgate.
  { inversion H. apply (iter_stop i [] Hli (ship_nil U L _) eq_refl). right. split; assumption. }
  assert (Hck : ck' = ck \/ bhas b (id, FMeta) = false /\ exists n2, overlap_gate L c b (S n) ck i = GGo n2 ck')
    by (right; split; [exact Hhas|exists n1; exact Hgate]).
  destruct (c_lbl c) as [lbl|] eqn:Hlbl.
  - destruct (c_conc c && match c_fault c with FailAt _ => true | _ => false end); [discriminate|].
    destruct (upload_ops std_upload U id _ (hd 0%N cids) lbl) as [l|] eqn:Hl; [|discriminate].
    destruct (run_ups (c_fault c) n1 b [] l) as [[[b' n'] done] u] eqn:Hrun.
    destruct (run_ups_spec _ _ _ _ _ _ _ _ _ Hrun) as [k [Hd [Hb' Hfull]]]. simpl in Hd. subst done b'.
    rewrite app_nil_r in H.
    assert (S1 : ship_ops U L (c_lbl c) (firstn k l)).
    { rewrite <- (app_nil_r (firstn k l)), Hlbl.
      eapply (ship_cons U L _ id _ _ lbl); [reflexivity|congruence|exact Hl|constructor]. }
    assert (Hf : u <> UDone -> excused c)
      by (intros Hu'; left; intros E; rewrite E, run_ups_nofault in Hrun; inversion Hrun; congruence).
    destruct u.
    + assert (Hm : shipped has (bapply_ops b (firstn k l)) id).
      { right. rewrite (Hfull eq_refl). apply bhas_true. rewrite (upload_final U b id _ _ lbl l bl Hu Hl). discriminate. }
      apply (iter_next i _ Hli S1 H); [right|right|exact Hck]; auto.
    + destruct (c_ooo c).
      * apply (iter_next i _ Hli S1 H); [left|left|exact Hck]; auto.
        split; [reflexivity|apply Hf; discriminate].
      * inversion H. apply (iter_stop i _ Hli S1 eq_refl). left. apply Hf. discriminate.
    + inversion H. apply (iter_stop i _ Hli S1 eq_refl). left. apply Hf. discriminate.
  - destruct (c_ooo c).
    + apply (iter_next i [] Hli (ship_nil U L _) H); [left|left|exact Hck]; auto.
      split; [reflexivity|right; exact Hlbl].
    + inversion H. apply (iter_stop i [] Hli (ship_nil U L _) eq_refl). left. right. exact Hlbl.
Qed.

Lemma sync_loop_sound U L c has : forall blocks b n ops up errs cids ck ords res,
  sync_loop std_upload U L c has blocks b n ops up errs cids ck ords = Some res ->
  loop_post U L c has blocks b ops up errs res.
Proof.
  induction blocks as [|id r IH]; intros b n ops up errs cids ck ords res H.
  - simpl in H. destruct (tick (c_fault c) n); inversion H; [apply loop_post_end|apply loop_post_end|apply loop_post_stop0].
  - destruct (sync_loop_iter U L c has id r b n ops up errs cids ck ords res H)
      as [i ops1 Hli S1 -> _|i ops1 n' up' errs' cids' ck' ords' Hli S1 H' He Hup _].
    + apply loop_post_stop, S1.
    + apply IH in H'. apply (loop_post_cons U L c has id r b ops ops1 up up' errs errs' res S1 H'); [|exact Hup].
      destruct He as [[-> _]|[-> He]]; [left; reflexivity|right; split; [reflexivity|]].
      intros i' Hi'. rewrite Hli in Hi'. inversion Hi'; subst i'. exact He.
Qed.

Lemma insert_by_In L id l x : In x (insert_by L id l) <-> id = x \/ In x l.
Proof.
  induction l as [|j r IH]; simpl; [tauto|].
  destruct (Z.leb _ _); simpl; rewrite ?IH; tauto.
Qed.

Lemma sort_blocks_In L ids x : In x (sort_blocks L ids) <-> In x ids.
Proof.
  induction ids as [|i r IH]; simpl; [tauto|]. rewrite insert_by_In, IH. tauto.
Qed.

Definition mf_next (old : option (list N)) (res : sres) : option (list N) :=
  match r_meta res with Some l => Some l | None => old end.

Definition recorded_visible (b : bucket) (mf : option (list N)) : Prop :=
  forall id, In id (mf_list mf) -> bhas b (id, FMeta) = true.

Lemma sync_sound U L c mf b res :
  sync U L c mf b = Some res ->
  let b' := bapply_ops b (r_ops res) in
  ship_ops U L (c_lbl c) (r_ops res)
  /\ (r_ret res = true -> forall id i, In id (c_present c) -> linfo_of L id = Some i -> eligible c i = true ->
        shipped (mf_list mf) b' id)
  /\ (forall id, In id (mf_list (mf_next mf res)) -> shipped (mf_list mf) b' id).
Proof.
  intros H. unfold sync in H. rewrite upload_phases_std in H. fold (mf_list mf) in H.
  destruct ((match c_corrupt c with [] => false | _ => true end) && negb (c_skip c)) eqn:Hcor.
  { inversion H; subst res. simpl. split; [constructor|]. split; [discriminate|].
    intros id Hin. left. apply memN_In, Hin. }
  apply sync_loop_sound in H. destruct H as [ops' [H1 [H2 [H3 [H4 H5]]]]].
  simpl in H1. cbv zeta. rewrite H1, <- H2. split; [exact H3|]. split.
  - intros Hr id i Hin Hl He. destruct (H4 Hr) as [Hlen Hel].
    destruct (c_corrupt c); [|discriminate]. apply (Hel id i); [|exact Hl|exact He].
    apply sort_blocks_In, filter_In. split; [exact Hin|reflexivity].
  - intros id Hin. unfold mf_next in Hin. destruct (r_meta res) as [l|] eqn:Hm.
    + destruct (H5 l eq_refl) as [new [-> Hn]]. apply Hn, Hin.
    + left. apply memN_In, Hin.
Qed.

Lemma sync_states U L c mf b res :
  wf_univ U -> binv U b -> sync U L c mf b = Some res ->
  (forall b', In b' (bstates b (r_ops res)) -> binv U b')
  /\ forallb (meta_lbl_ok (c_lbl c)) (r_ops res) = true
  /\ (forall id, recorded_visible b mf -> shipped (mf_list mf) (bapply_ops b (r_ops res)) id ->
        bhas (bapply_ops b (r_ops res)) (id, FMeta) = true).
Proof.
  intros Hwf Hb Hs. destruct (sync_sound U L c mf b res Hs) as [Hship _]. split; [|split].
  - apply (binv_states U b _ Hwf Hb), (ship_guarded U L (c_lbl c)); assumption.
  - apply forallb_forall. intros o Ho. apply (ship_ops_each U L _ _ o Hship Ho).
  - intros id Hrv [H|H]; [|exact H]. apply bhas_mono; [exact (ship_ups _ _ _ _ Hship)|]. apply Hrv, memN_In, H.
Qed.

Lemma nlist_eqb_spec a b : nlist_eqb a b = true <-> a = b.
Proof. exact (bytes_eqb_eq a b). Qed.

Lemma option_nlist_eqb_spec a b : option_eqb nlist_eqb a b = true <-> a = b.
Proof. apply option_eqb_spec, nlist_eqb_spec. Qed.

Definition sync_state (st : state) (res : sres) : state :=
  (bapply_ops (fst st) (r_ops res), mf_next (snd st) res).

Lemma corr_step_inv U L st c ret ops snaps mf st' :
  corr_step U L st (c, ret, ops, snaps, mf) = Some st' ->
  exists res, sync U L c (snd st) (fst st) = Some res /\ st' = sync_state st res
    /\ ret = r_ret res /\ ops = r_ops res /\ snaps = tl (bstates (fst st) (r_ops res))
    /\ mf = mf_next (snd st) res.
Proof.
  unfold corr_step. destruct (sync U L c (snd st) (fst st)) as [res|]; [|discriminate].
  destruct (_ && _) eqn:Hchk; [|discriminate]. intros Hc. inversion Hc. exists res.
  apply andb_true_iff in Hchk as [Hchk Hmf]. apply andb_true_iff in Hchk as [Hchk Hret].
  apply andb_true_iff in Hchk as [Hops Hsn].
  apply ops_eqb_spec in Hops. apply buckets_eqb_spec in Hsn. apply Bool.eqb_prop in Hret.
  apply option_nlist_eqb_spec in Hmf. auto 7.
Qed.

Lemma step_sound U L st s st' :
  wf_univ U -> binv U (fst st) -> corr_step U L st s = Some st' ->
  binv U (fst st') /\ pred_step L st s = (true, st').
Proof.
  intros Hwf Hst Hc. destruct s as [[[[c ret] ops] snaps] mf].
  apply corr_step_inv in Hc as [res [Hs [-> [-> [-> [-> ->]]]]]].
  destruct (sync_sound U L c (snd st) (fst st) res Hs) as [_ [Hel Hrec]].
  destruct (sync_states U L c (snd st) (fst st) res Hwf Hst Hs) as [Hall [Hlb _]].
  split; [apply Hall, states_last|].
  unfold pred_step. rewrite blast_states. f_equal.
  assert (Hvis : forallb visible_complete_b (tl (bstates (fst st) (r_ops res))) = true).
  { apply forallb_forall. intros b' Hb'. apply (binv_visible_complete U), Hall, tl_In, Hb'. }
  rewrite Hvis, Hlb, andb_true_r. simpl.
  apply andb_true_iff. split.
  - destruct (r_ret res); [|reflexivity]. apply forallb_forall. intros id Hin.
    destruct (linfo_of L id) as [i|] eqn:Hl; [|reflexivity].
    destruct (eligible c i) eqn:He; [|reflexivity]. simpl.
    destruct (Hel eq_refl id i Hin Hl He) as [H|H]; rewrite H; [reflexivity|apply orb_true_r].
  - apply forallb_forall. intros id Hin.
    destruct (Hrec id Hin) as [H|H]; rewrite H; [reflexivity|apply orb_true_r].
Qed.

Lemma steps_sound U L : forall steps st,
  wf_univ U -> binv U (fst st) -> corr_steps U L st steps = true -> pred_steps L st steps = true.
Proof.
  induction steps as [|s r IH]; intros st Hwf Hst Hc; simpl in *; [reflexivity|].
  destruct (corr_step U L st s) as [st'|] eqn:Hs; [|discriminate].
  destruct (step_sound U L st s st' Hwf Hst Hs) as [Hst' Hp]. rewrite Hp. simpl.
  apply IH; assumption.
Qed.

Lemma corr_implies_pred c : corr_ok c = true -> pred_core c = true.
Proof.
  destruct c as [U L steps]. simpl. intros H. apply andb_true_iff in H as [Hwf Hc].
  apply (steps_sound U L steps ([], None) (wf_univ_b_spec U Hwf)); [|exact Hc].
  apply binv_empty.
Qed.

(* block id is in the bucket with its meta.json and every file of the block, right sizes *)
Definition published (U : univ) (b : bucket) (id : N) : Prop :=
  exists bl cid lbl, ublock U id = Some bl
    /\ bget b (id, FMeta) = Some (MetaO cid (files_of bl) lbl)
    /\ all_data_present b id bl.

Lemma binv_published U b id : binv U b -> bhas b (id, FMeta) = true -> published U b id.
Proof.
  intros [_ Hco] Hh. apply bhas_true in Hh. destruct (bget b (id, FMeta)) as [o|] eqn:Hg; [|congruence].
  destruct (Hco _ _ Hg) as [bl [cid [lbl [Hu [Ho Hall]]]]]. subst o. exists bl, cid, lbl. auto.
Qed.

(* the state invariant of a history: the bucket satisfies the block invariant and every
   block recorded in the meta file is visible in the bucket. (The case predicate accepts
   "recorded before this sync" in place of "visible", so [step_sound] above needs the block
   invariant only.) *)
Definition good (U : univ) (st : state) : Prop :=
  binv U (fst st) /\ recorded_visible (fst st) (snd st).

Lemma sync_complete U L c st res :
  wf_univ U -> good U st -> sync U L c (snd st) (fst st) = Some res ->
  (forall b', In b' (bstates (fst st) (r_ops res)) -> binv U b')
  /\ (r_ret res = true -> forall id i, In id (c_present c) -> linfo_of L id = Some i -> eligible c i = true ->
        published U (bapply_ops (fst st) (r_ops res)) id)
  /\ (forall id cid files lbl, In (Up (id, FMeta) (MetaO cid files lbl)) (r_ops res) -> c_lbl c = Some lbl)
  /\ good U (sync_state st res).
Proof.
  intros Hwf [Hb Hrv] Hs.
  destruct (sync_sound U L c (snd st) (fst st) res Hs) as [_ [Hel Hrec]].
  destruct (sync_states U L c (snd st) (fst st) res Hwf Hb Hs) as [Hall [Hlb Hvis]].
  assert (Hb' : binv U (bapply_ops (fst st) (r_ops res))) by apply Hall, states_last.
  split; [exact Hall|]. split; [|split].
  - intros Hr id i Hin Hl He. apply binv_published; [exact Hb'|]. apply Hvis; [exact Hrv|]. exact (Hel Hr id i Hin Hl He).
  - intros id cid files lbl Hin. rewrite forallb_forall in Hlb. specialize (Hlb _ Hin). simpl in Hlb.
    destruct (c_lbl c) as [l'|]; [|discriminate]. apply N.eqb_eq in Hlb. subst. reflexivity.
  - split; [exact Hb'|]. intros id Hin. apply Hvis; [exact Hrv|]. exact (Hrec id Hin).
Qed.

(* any history of syncs, each with any fault *)
Fixpoint after_syncs (U : univ) (L : locals) (st : state) (cs : list cfg) : option state :=
  match cs with
  | [] => Some st
  | c :: r =>
      match sync U L c (snd st) (fst st) with
      | Some res => after_syncs U L (sync_state st res) r
      | None => None
      end
  end.

Lemma after_syncs_good U L : forall cs st st',
  wf_univ U -> good U st -> after_syncs U L st cs = Some st' -> good U st'.
Proof.
  induction cs as [|c r IH]; intros st st' Hwf Hg H; simpl in H.
  - inversion H; subst. exact Hg.
  - destruct (sync U L c (snd st) (fst st)) as [res|] eqn:Hs; [|discriminate].
    eapply IH; [exact Hwf| |exact H]. eapply sync_complete; eauto.
Qed.

Lemma good_empty U : good U ([], None).
Proof. split; [apply binv_empty|]. intros id []. Qed.

Lemma history_good U L cs st :
  wf_univ_b U = true -> after_syncs U L ([], None) cs = Some st -> wf_univ U /\ good U st.
Proof.
  intros Hwf Ha. apply wf_univ_b_spec in Hwf. split; [exact Hwf|].
  exact (after_syncs_good U L cs _ _ Hwf (good_empty U) Ha).
Qed.

Lemma crash_then_sync U L cs c st res :
  wf_univ_b U = true ->
  after_syncs U L ([], None) cs = Some st ->
  sync U L c (snd st) (fst st) = Some res -> r_ret res = true ->
  forall id i, In id (c_present c) -> linfo_of L id = Some i -> eligible c i = true ->
    published U (bapply_ops (fst st) (r_ops res)) id.
Proof.
  intros Hwf Ha Hs. destruct (history_good U L cs st Hwf Ha) as [Hwf' Hg].
  apply (sync_complete U L c st res Hwf' Hg Hs).
Qed.

Lemma uploaded_sound U L cs st :
  wf_univ_b U = true -> after_syncs U L ([], None) cs = Some st ->
  forall id, In id (mf_list (snd st)) -> published U (fst st) id.
Proof.
  intros Hwf Ha id Hin. destruct (history_good U L cs st Hwf Ha) as [_ [Hb Hrv]].
  apply binv_published; [exact Hb|]. apply Hrv. exact Hin.
Qed.

(* property C28 for the shipper: at every crash point of every sync of any history *)
Lemma sync_visible_complete U L cs c st res :
  wf_univ_b U = true -> after_syncs U L ([], None) cs = Some st ->
  sync U L c (snd st) (fst st) = Some res ->
  forall k, visible_complete (bapply_ops (fst st) (firstn k (r_ops res))).
Proof.
  intros Hwf Ha Hs k. destruct (history_good U L cs st Hwf Ha) as [Hwf' Hg].
  apply (binv_visible U), (sync_complete U L c st res Hwf' Hg Hs), states_prefix.
Qed.

(* every input on which the model is defined yields an accepted case *)
Fixpoint model_steps (U : univ) (L : locals) (st : state) (cs : list cfg) : option (list step) :=
  match cs with
  | [] => Some []
  | c :: r =>
      match sync U L c (snd st) (fst st) with
      | None => None
      | Some res =>
          match model_steps U L (sync_state st res) r with
          | Some rest => Some ((c, r_ret res, r_ops res, tl (bstates (fst st) (r_ops res)), mf_next (snd st) res) :: rest)
          | None => None
          end
      end
  end.

Lemma model_steps_corr U L : forall cs st steps,
  model_steps U L st cs = Some steps -> corr_steps U L st steps = true.
Proof.
  induction cs as [|c r IH]; intros st steps H; simpl in H.
  - inversion H; subst. reflexivity.
  - destruct (sync U L c (snd st) (fst st)) as [res|] eqn:Hs; [|discriminate].
    destruct (model_steps U L (sync_state st res) r) as [rest|] eqn:Hr; [|discriminate].
    inversion H; subst steps. clear H. simpl. rewrite Hs.
    rewrite (proj2 (ops_eqb_spec _ _) eq_refl), (proj2 (buckets_eqb_spec _ _) eq_refl), Bool.eqb_reflx.
    unfold mf_next in *. rewrite (proj2 (option_nlist_eqb_spec _ _) eq_refl). simpl.
    apply IH. exact Hr.
Qed.

Lemma model_case_ok U L cs steps :
  wf_univ_b U = true -> model_steps U L ([], None) cs = Some steps ->
  corr_ok (CSync U L steps) = true /\ pred_core (CSync U L steps) = true.
Proof.
  intros Hwf H. assert (Hc : corr_ok (CSync U L steps) = true).
  { simpl. rewrite Hwf. simpl. eapply model_steps_corr; eauto. }
  split; [exact Hc|apply corr_implies_pred; exact Hc].
Qed.

(* C02 — proofs: counter deduplication never fabricates counter resets.
   Three ingredients from Lib: Dedup_Counter (values never decrease along
   Next / Seek when the replicas' values never decrease), Dedup_Sim (counter mode
   takes the same decisions as non-counter mode, so timestamps and exhaustion are
   the same) and Dedup_Refine (the non-counter iterator is a reader of the
   specification-level penalty merge). *)
From Coq Require Import ZArith List Bool Lia.
Import ListNotations.
From Verif Require Import Lib.Corr Lib.Dedup_Iter Lib.Dedup_SpecFacts Lib.Dedup_Refine Lib.Dedup_Counter Lib.Dedup_Sim.
From Verif Require Import Gen.C02 Model.C02.
Open Scope Z_scope.

Lemma source_shape : adjust_shape_ok = true.
Proof. vm_compute. reflexivity. Qed.

Section CounterReaders.
  Variables o1 o2 : iobj.
  Variable V : vcontract o1.
  Variable C : contract o2.
  Variable SM : sim o1 o2.

  (* The counter iterator x1 runs beside its non-counter twin x2 on the same
     replicas. The twin is a reader of a plain list, in the reader state
     (st, cur, futl) of [rel]: started or not, current sample, samples to come;
     it tells when x1 is valid and when Seek is covered by the contracts.
     lo is the last value shown to the reader, kept across exhaustion. *)
  Lemma run_ops_nondecr : forall ops x1 x2 st cur futl lo,
    VInv V x1 -> Inv C x2 -> s_rel SM x1 x2 -> rel o2 C x2 st cur futl ->
    (st = false -> VFresh V x1) ->
    (if valid o1 x1 then lo = Some (val o1 x1) else st = true \/ lo = None) ->
    proto_ok st cur futl ops = true ->
    obs_nondecr_from lo (obs_vals (run_ops o1 x1 ops)) = true.
  Proof.
    induction ops as [|p ops IH]; intros x1 x2 st cur futl lo Hv Hi HR Hrel Hfr Hlo Hp; [reflexivity|].
    cbn [run_ops proto_ok] in *. apply andb_true_iff in Hp as [Hp1 Hp2].
    pose proof (s_valid SM _ _ HR) as Hval.
    (* the non-counter twin makes the step of a list reader *)
    destruct (step_settled o2 C p x2 st cur futl Hi Hrel Hp1) as [Hi' Hs'].
    assert (Hv' : VInv V (step o1 p x1)).
    { destruct p as [|t]; cbn [step]; [apply (v_next_inv V); exact Hv|].
      apply (v_seek_inv V); [exact Hv|]. rewrite Hval.
      destruct cur as [c|]; [left; exact (proj1 Hrel)|].
      destruct st; [|right; apply Hfr; reflexivity].
      destruct Hrel as (_ & _ & _ & Hex). rewrite (Hex eq_refl) in Hp1. discriminate. }
    assert (HR' : s_rel SM (step o1 p x1) (step o2 p x2))
      by (destruct p; [apply (s_next SM)|apply (s_seek SM)]; exact HR).
    pose proof (s_valid SM _ _ HR') as Hval'.
    pose proof (rel_of_settled _ _ _ _ Hs') as Hrel'.
    pose proof (settled_valid _ _ _ _ Hs') as Hvl.
    set (l := match p with ONext => futl | OSeek t => drop_lt t (lstream cur futl) end) in *.
    unfold observe at 1. rewrite Hval', Hvl.
    destruct l as [|s f] eqn:El; cbn [nonempty obs_vals map option_map obs_nondecr_from].
    - eapply IH; try eassumption.
      + discriminate.
      + rewrite Hval', Hvl. left. reflexivity.
    - apply andb_true_iff. split.
      + destruct lo as [w|]; [|reflexivity]. apply Z.leb_le.
        destruct (valid o1 x1) eqn:Ev1.
        * inversion Hlo; subst w.
          assert (Hv1' : valid o1 (step o1 p x1) = true) by (rewrite Hval', Hvl; reflexivity).
          destruct p; cbn [step] in *; [apply (v_next_mono V)|apply (v_seek_mono V)]; assumption.
        * destruct Hlo as [Hst|Hlo]; [|discriminate]. subst st.
          (* started, invalid: the list reader is exhausted, so no sample can come *)
          exfalso. unfold rel in Hrel. destruct cur as [c|].
          -- destruct Hrel as [Hx _]. congruence.
          -- destruct Hrel as (_ & _ & _ & Hex). specialize (Hex eq_refl). subst futl.
             destruct p; [discriminate El|]. simpl in Hp1. discriminate.
      + eapply IH; try eassumption.
        * discriminate.
        * rewrite Hval', Hvl. reflexivity.
  Qed.
End CounterReaders.

Definition values_never_decrease (l : list sample) : Prop := nondecr (map snd l) = true.

Lemma vmono_forallb reps :
  forallb (fun l => nondecr (map snd l)) reps = true -> Forall vmono reps.
Proof. intro H. apply Forall_forall. intros l Hl. exact (proj1 (forallb_forall _ _) H l Hl). Qed.

Lemma counter_drain f r :
  exists out, drain (counter_iter f r) = Some out /\ map ts out = map ts (pmerge_all cfg f r).
Proof.
  apply tower_counter_same_timestamps. apply tower_drain.
Qed.

Lemma counter_monotone f r :
  Forall values_never_decrease (f :: r) ->
  exists out, drain (counter_iter f r) = Some out /\ values_never_decrease out
              /\ map ts out = map ts (pmerge_all cfg f r).
Proof.
  intro H. destruct (counter_drain f r) as (out & Hd & Hts).
  exists out. split; [exact Hd|]. split; [|exact Hts].
  eapply tower_counter_monotone; [exact H|exact Hd].
Qed.

Lemma counter_reader_monotone f r ops :
  Forall values_never_decrease (f :: r) ->
  proto_ok false None (pmerge_all cfg f r) ops = true ->
  obs_nondecr_from None (obs_vals (run_prog (counter_iter f r) ops)) = true.
Proof.
  intros H Hp.
  destruct (tower_vcontract cfg f r H) as (V & Hv & Hvf).
  destruct (tower_contract cfg f r) as (C & Hi & Hf & Hfut).
  destruct (tower_sim cfg f r) as (SM & HR).
  unfold run_prog, counter_iter.
  eapply (run_ops_nondecr _ _ V C SM) with (st := false) (cur := None); try eassumption.
  - unfold rel. repeat split; auto. exact (c_fresh C _ Hf). discriminate.
  - intros _. exact Hvf.
  - rewrite (s_valid SM _ _ HR), (c_fresh C _ Hf). right. reflexivity.
Qed.

Lemma model_pred f r ops :
  proto_ok false None (pmerge_all cfg f r) ops = true ->
  exists full reader,
    drain (counter_iter f r) = Some full /\ run_prog (counter_iter f r) ops = reader /\
    corr_ok (CInt (f :: r) ops full reader) = true /\
    pred_ok (CInt (f :: r) ops full reader) = true.
Proof.
  intro Hp. destruct (counter_drain f r) as (out & Hd & Hts).
  exists out, (run_prog (counter_iter f r) ops).
  split; [exact Hd|]. split; [reflexivity|]. split.
  - cbn [corr_ok]. rewrite Hd. apply andb_true_iff. split; [apply samples_eqb_refl|apply obs_list_eqb_refl].
  - cbn [pred_ok]. destruct (forallb (fun l => nondecr (map snd l)) (f :: r)) eqn:E; [|reflexivity].
    apply vmono_forallb in E. apply andb_true_iff. split.
    + eapply tower_counter_monotone; [exact E|exact Hd].
    + apply counter_reader_monotone; assumption.
Qed.

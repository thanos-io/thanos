(* C40 — proofs about aggrChunkIterator.toChunk (repaired) on an iterator that reads a
   plain list of samples: it takes exactly the samples up to maxTime that are
   not before minTime and leaves the iterator AT the first later sample. *)
From Coq Require Import ZArith List Bool Lia.
Import ListNotations.
From Verif Require Import Lib.Corr Lib.ListFacts Lib.Dedup_Iter Lib.Dedup_SpecFacts Lib.Dedup_Refine Gen.C40 Model.C40.
Open Scope Z_scope.

Fixpoint take_le (m : Z) (l : list sample) : list sample :=
  match l with [] => [] | s :: r => if ts s >? m then [] else s :: take_le m r end.
Fixpoint drop_le (m : Z) (l : list sample) : list sample :=
  match l with [] => [] | s :: r => if ts s >? m then l else drop_le m r end.
Definition keep_ge (m : Z) (l : list sample) : list sample := filter (fun s => ts s >=? m) l.

Section Loop.
  Variable o : iobj.
  Variable C : contract o.
  Variables mint maxt : Z.

  Lemma loop_spec : forall fuel x racc,
    Inv C x -> settled o (fut C) x (str o (fut C) x) -> (length (str o (fut C) x) < fuel)%nat ->
    exists x', to_chunk_loop o fuel x mint maxt racc
               = (x', rev (keep_ge mint (take_le maxt (str o (fut C) x))) ++ racc)
      /\ Inv C x' /\ settled o (fut C) x' (drop_le maxt (str o (fut C) x)).
  Proof.
    induction fuel as [|f IH]; intros x racc Hi Hs Hlen; [lia|].
    cbn [to_chunk_loop]. unfold str in *. destruct (valid o x) eqn:Hv.
    - cbn [take_le drop_le].
      destruct (ts (at_ o x) >? maxt) eqn:Hgt.
      + exists x. split; [reflexivity|]. split; [exact Hi|exact Hs].
      + destruct (c_next C x Hi) as [Hi' Hs'].
        pose proof (settled_str _ _ _ _ Hs') as Hstr. unfold str in Hstr.
        assert (Hs'' : settled o (fut C) (next o x) (if valid o (next o x) then at_ o (next o x) :: fut C (next o x) else fut C (next o x)))
          by (rewrite Hstr; exact Hs').
        destruct (IH (next o x) (if ts (at_ o x) >=? mint then at_ o x :: racc else racc) Hi' Hs'') as (x' & He & Hi2 & Hs2).
        { rewrite Hstr. simpl in Hlen. lia. }
        exists x'. rewrite He, Hstr. split; [|split; [exact Hi2|rewrite Hstr in Hs2; exact Hs2]].
        f_equal. unfold keep_ge. cbn [filter].
        destruct (ts (at_ o x) >=? mint); [|reflexivity].
        cbn [rev]. rewrite <- app_assoc. reflexivity.
    - assert (Hf : fut C x = []).
      { destruct (fut C x) as [|s r] eqn:E; [reflexivity|]. simpl in Hs. destruct Hs as [H _]. congruence. }
      rewrite Hf in *. exists x. split; [reflexivity|]. split; [exact Hi|exact Hs].
  Qed.
End Loop.

(* an aggregate's state reads the stream R: a contract-satisfying iterator, not yet
   advanced and about to yield R, or positioned on the head of R *)
Definition areads (st : astate) (R : list sample) : Prop :=
  exists C : contract (io (a_it st)),
    Inv C (ist (a_it st)) /\
    match a_started st return Prop with
    | true => settled (io (a_it st)) (fut C) (ist (a_it st)) R
    | false => Fresh C (ist (a_it st)) /\ fut C (ist (a_it st)) = R
    end.

Definition chunk_of (counter : bool) (l : list sample) : option (list sample) :=
  match l with
  | [] => None
  | _ => Some (if counter then l ++ [last l (0, 0)] else l)
  end.

Lemma rev_chunk (counter : bool) (racc : list sample) :
  match racc with
  | [] => None
  | l :: _ => Some (rev (if counter then l :: racc else racc))
  end = chunk_of counter (rev racc).
Proof.
  destruct racc as [|l r]; [reflexivity|].
  unfold chunk_of. destruct (rev (l :: r)) eqn:E.
  - apply (f_equal (@length sample)) in E. rewrite rev_length in E. discriminate.
  - rewrite <- E. f_equal. destruct counter; [|reflexivity].
    cbn [rev]. f_equal. f_equal. rewrite last_last. reflexivity.
Qed.

Lemma to_chunk_spec counter st R mint maxt :
  areads st R ->
  exists st', to_chunk counter st mint maxt = (st', chunk_of counter (keep_ge mint (take_le maxt R)))
              /\ areads st' (drop_le maxt R).
Proof.
  destruct st as [started [o x]]. unfold areads. cbn [a_it a_started io ist].
  intros (C & Hi & Hst). unfold to_chunk. cbn [a_it a_started io ist]. cbv zeta.
  assert (H0 : Inv C (if started then x else next o x) /\
               settled o (fut C) (if started then x else next o x) R).
  { destruct started.
    - split; assumption.
    - destruct Hst as [Hf HR]. destruct (c_next C x Hi) as [H1 H2]. rewrite HR in H2. split; assumption. }
  destruct H0 as [Hi0 Hs0].
  generalize dependent (if started then x else next o x). intros x0 Hi0 Hs0.
  pose proof (settled_str _ _ _ _ Hs0) as Hstr.
  pose proof (c_size C x0 Hi0) as Hsz.
  destruct (loop_spec o C mint maxt (S (size o x0)) x0 []) as (x' & He & Hi' & Hs').
  - exact Hi0.
  - rewrite Hstr. exact Hs0.
  - lia.
  - rewrite Hstr in *. rewrite He. rewrite app_nil_r.
    eexists. split.
    + f_equal. rewrite rev_chunk. rewrite rev_involutive. reflexivity.
    + exists C. cbn. split; assumption.
Qed.

Lemma take_drop_app m : forall P Q,
  (forall s, In s P -> ts s <= m) -> (match Q with [] => True | q :: _ => m < ts q end) ->
  take_le m (P ++ Q) = P /\ drop_le m (P ++ Q) = Q.
Proof.
  induction P as [|p P IH]; intros Q HP HQ; simpl.
  - destruct Q as [|q Q]; [split; reflexivity|]. simpl.
    assert (E : (ts q >? m) = true) by (apply Z.gtb_lt; lia). rewrite E. split; reflexivity.
  - assert (E : (ts p >? m) = false).
    { destruct (Z.gtb_spec (ts p) m); [|reflexivity]. specialize (HP p (or_introl eq_refl)). lia. }
    rewrite E. destruct (IH Q) as [H1 H2]; [intros s Hs; apply HP; right; exact Hs|exact HQ|].
    rewrite H1, H2. split; reflexivity.
Qed.

Lemma keep_ge_all m l : (forall s, In s l -> m <= ts s) -> keep_ge m l = l.
Proof.
  intro H. unfold keep_ge. apply filter_all. intros s Hs. specialize (H s Hs).
  apply Z.geb_le. lia.
Qed.

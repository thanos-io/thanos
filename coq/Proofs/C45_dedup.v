(* C45 — dedupGroups / dedupRules and the composed GRPCClient.Rules pipeline.
   The three stages (filterRulesByMatchers, dedupGroups, dedupRules) are followed
   through [rules_of_key]: the rules an input or intermediate list of groups
   holds under one group key. *)
From Coq Require Import NArith ZArith List Bool Lia Permutation Sorted.
Import ListNotations.
From Verif Require Lib.ListFacts.
From Verif Require Import Lib.Corr Lib.Misc_Cmp Gen.C45 Model.C45 Proofs.C45.

Lemma kind_cmp_good : good_cmp kind_cmp.
Proof.
  constructor.
  - intros []; reflexivity.
  - intros [] []; reflexivity.
  - intros [] [] []; simpl; congruence.
  - intros [] [] []; simpl; congruence.
Qed.

Lemma label_cmp_good : good_cmp label_cmp.
Proof. apply lex_cmp_good; apply on_cmp_good; apply str_cmp_good. Qed.

Lemma labels_cmp_good : good_cmp labels_cmp.
Proof. apply list_cmp_good, label_cmp_good. Qed.

Lemma label_cmp_eq a b : label_cmp a b = Eq -> a = b.
Proof.
  intro H. apply lex_cmp_eq in H as [H1 H2]. unfold on_cmp in *.
  apply str_cmp_eq in H1, H2. destruct a, b. simpl in *. congruence.
Qed.

Lemma labels_cmp_eq a b : labels_cmp a b = Eq -> a = b.
Proof. apply list_cmp_eq. exact label_cmp_eq. Qed.

(* Rule.Compare is a lexicographic product: the duration only counts between
   alerting rules, and the kinds are equal when it is reached *)
Definition eff_dur (r : rule) : Z := if is_alert r then r_dur r else 0%Z.

Definition rule_cmp_lex : rule -> rule -> comparison :=
  lex_cmp (on_cmp r_kind kind_cmp)
    (lex_cmp (on_cmp r_name str_cmp)
       (lex_cmp (on_cmp r_labels labels_cmp)
          (lex_cmp (on_cmp r_query str_cmp) (on_cmp eff_dur Z.compare)))).

Lemma rule_cmp_is_lex r1 r2 : rule_cmp r1 r2 = rule_cmp_lex r1 r2.
Proof.
  unfold rule_cmp, rule_cmp_lex, lex_cmp, on_cmp, eff_dur, is_alert.
  destruct (r_kind r1), (r_kind r2); simpl; try reflexivity;
    destruct (str_cmp (r_name r1) (r_name r2)); try reflexivity;
    destruct (labels_cmp (r_labels r1) (r_labels r2)); try reflexivity;
    destruct (str_cmp (r_query r1) (r_query r2)); reflexivity.
Qed.

Lemma rule_cmp_good : good_cmp rule_cmp.
Proof.
  apply (good_cmp_ext _ _ rule_cmp_is_lex).
  repeat apply lex_cmp_good; apply on_cmp_good;
    first [apply kind_cmp_good | apply str_cmp_good | apply labels_cmp_good | apply Z_compare_good].
Qed.

Lemma group_cmp_good : good_cmp group_cmp.
Proof. apply (on_cmp_good g_key str_cmp), str_cmp_good. Qed.

Lemma group_cmp_eq a b : group_cmp a b = Eq -> g_key a = g_key b.
Proof. apply str_cmp_eq. Qed.

Definition clt {A} (c : A -> A -> comparison) (x y : A) : Prop := c x y = Lt.

Lemma no_dup_by_strict {A} (c : A -> A -> comparison) l :
  StronglySorted (clt c) l -> no_dup_by c l = true.
Proof.
  induction 1 as [|x l Hs IH Hall]; simpl; [reflexivity|].
  rewrite IH, andb_true_r. apply forallb_forall. intros y Hy.
  rewrite Forall_forall in Hall. rewrite (Hall y Hy). reflexivity.
Qed.

Lemma sorted_drop_second {A} (R : A -> A -> Prop) x y l :
  StronglySorted R (x :: y :: l) -> StronglySorted R (x :: l).
Proof.
  intro H. inversion H as [|? ? Hs Hall]; subst. inversion Hs as [|? ? Hs' Hall']; subst.
  constructor; [exact Hs'|]. inversion Hall; subst. assumption.
Qed.

Lemma dedup_loop_In cur rest x : In x (dedup_loop cur rest) -> In x (cur :: rest).
Proof.
  revert cur. induction rest as [|r rest IH]; intros cur H; simpl in H.
  - exact H.
  - destruct (negb (is_eq (rule_cmp cur r))).
    + destruct H as [H|H]; [left; exact H|]. right. apply IH. exact H.
    + destruct (younger cur r).
      * right. apply IH. exact H.
      * apply IH in H. destruct H as [H|H]; [left; exact H | right; right; exact H].
Qed.

(* every rule is represented by an equal one: the loop only ever replaces [cur]
   by a rule equal to it *)
Lemma dedup_loop_rep cur rest x :
  In x (cur :: rest) -> exists r', In r' (dedup_loop cur rest) /\ rule_cmp x r' = Eq.
Proof.
  pose proof rule_cmp_good as G.
  revert cur x. induction rest as [|r rest IH]; intros cur x H.
  - destruct H as [H|[]]. subst. exists x. split; [left; reflexivity | apply (gc_refl _ G)].
  - simpl. destruct (is_eq (rule_cmp cur r)) eqn:E; simpl.
    + apply is_eq_true in E.
      destruct (younger cur r).
      * destruct H as [H|H]; [|apply IH; exact H].
        subst x. destruct (IH r r (or_introl eq_refl)) as [r' [Hin Hr]].
        exists r'. split; [exact Hin|]. eapply (gc_eq_trans _ G); eauto.
      * destruct H as [H|[H|H]]; [apply IH; left; exact H | | apply IH; right; exact H].
        subst x. destruct (IH cur cur (or_introl eq_refl)) as [r' [Hin Hr]].
        exists r'. split; [exact Hin|]. eapply (gc_eq_trans _ G); [|exact Hr].
        apply (gc_eq_sym _ G). exact E.
    + destruct H as [H|H].
      * subst x. exists cur. split; [left; reflexivity | apply (gc_refl _ G)].
      * destruct (IH r x H) as [r' [Hin Hr]]. exists r'. split; [right; exact Hin | exact Hr].
Qed.

Lemma dedup_loop_strict cur rest :
  StronglySorted (cle rule_cmp) (cur :: rest) -> StronglySorted (clt rule_cmp) (dedup_loop cur rest).
Proof.
  revert cur. induction rest as [|r rest IH]; intros cur H; simpl.
  - constructor; constructor.
  - destruct (is_eq (rule_cmp cur r)) eqn:E; simpl.
    + destruct (younger cur r); apply IH; [inversion H; assumption | eapply sorted_drop_second; exact H].
    + apply is_eq_false in E. pose proof (sorted_head_lt _ rule_cmp_good _ _ _ H E) as Hlt.
      constructor; [apply IH; inversion H; assumption|].
      rewrite Forall_forall in *. intros x Hx. apply Hlt, (dedup_loop_In _ _ _ Hx).
Qed.

Lemma dedup_rules_In replica rs x :
  In x (dedup_rules replica rs) -> exists r, In r rs /\ x = strip replica r.
Proof.
  unfold dedup_rules. intro H.
  assert (Hin : In x (isort rule_cmp (map (strip replica) rs))).
  { destruct (isort rule_cmp (map (strip replica) rs)) as [|r rest]; [destruct H|].
    apply dedup_loop_In. exact H. }
  apply isort_In in Hin. apply in_map_iff in Hin as [r [E Hr]]. exists r. split; [exact Hr | congruence].
Qed.

Lemma dedup_rules_rep replica rs r :
  In r rs -> exists r', In r' (dedup_rules replica rs) /\ rule_cmp (strip replica r) r' = Eq.
Proof.
  intro H. unfold dedup_rules.
  assert (Hin : In (strip replica r) (isort rule_cmp (map (strip replica) rs))).
  { apply isort_In. apply in_map. exact H. }
  destruct (isort rule_cmp (map (strip replica) rs)) as [|r0 rest]; [destruct Hin|].
  apply dedup_loop_rep. exact Hin.
Qed.

Lemma dedup_rules_strict replica rs : StronglySorted (clt rule_cmp) (dedup_rules replica rs).
Proof.
  unfold dedup_rules.
  pose proof (isort_sorted rule_cmp rule_cmp_good (map (strip replica) rs)) as Hs.
  destruct (isort rule_cmp (map (strip replica) rs)) as [|r0 rest]; [constructor|].
  apply dedup_loop_strict. exact Hs.
Qed.

Lemma rules_of_key_cons k g gs :
  rules_of_key k (g :: gs)
  = if str_eqb (g_key g) k then g_rules g ++ rules_of_key k gs else rules_of_key k gs.
Proof. unfold rules_of_key. simpl. destruct (str_eqb (g_key g) k); reflexivity. Qed.

Lemma rules_of_key_In k gs r :
  In r (rules_of_key k gs) <-> exists g, In g gs /\ g_key g = k /\ In r (g_rules g).
Proof.
  unfold rules_of_key. rewrite in_concat. split.
  - intros [l [Hl Hr]]. apply in_map_iff in Hl as [g [E Hg]]. subst l.
    apply filter_In in Hg as [Hg Hk]. apply str_eqb_eq in Hk.
    exists g. repeat split; assumption.
  - intros [g [Hg [Hk Hr]]]. exists (g_rules g). split; [|exact Hr].
    apply in_map. apply filter_In. split; [exact Hg|]. apply str_eqb_eq. exact Hk.
Qed.

Lemma merge_loop_rules k rest : forall cur,
  rules_of_key k (merge_loop cur rest) = rules_of_key k (cur :: rest).
Proof.
  induction rest as [|g rest IH]; intro cur; [reflexivity|]. simpl merge_loop.
  destruct (is_eq (group_cmp g cur)) eqn:E.
  - apply is_eq_true, group_cmp_eq in E. rewrite IH, !rules_of_key_cons. simpl. rewrite E.
    destruct (str_eqb (g_key cur) k); [symmetry; apply app_assoc | reflexivity].
  - rewrite !(rules_of_key_cons k cur), IH. reflexivity.
Qed.

Lemma merge_loop_keys (P : str -> Prop) rest : forall cur,
  Forall (fun g => P (g_key g)) (cur :: rest) -> Forall (fun g => P (g_key g)) (merge_loop cur rest).
Proof.
  induction rest as [|g rest IH]; intros cur H; simpl; [exact H|].
  inversion H as [|? ? Hc Hr]; subst.
  destruct (is_eq (group_cmp g cur)).
  - apply IH. constructor; [exact Hc | inversion Hr; assumption].
  - constructor; [exact Hc | apply IH, Hr].
Qed.

Lemma merge_loop_strict cur rest :
  StronglySorted (cle group_cmp) (cur :: rest) -> StronglySorted (clt group_cmp) (merge_loop cur rest).
Proof.
  revert cur. induction rest as [|g rest IH]; intros cur H; simpl.
  - constructor; constructor.
  - destruct (is_eq (group_cmp g cur)) eqn:E.
    + (* the merged group compares like [cur]: same key *)
      apply IH. apply sorted_drop_second in H.
      inversion H as [|? ? Hs Hall]; subst. constructor; [exact Hs | exact Hall].
    + constructor; [apply IH; inversion H; assumption|].
      apply (merge_loop_keys (fun k => str_cmp (g_key cur) k = Lt)).
      apply (sorted_head_lt _ group_cmp_good _ _ _ H).
      intro E'. apply (gc_eq_sym _ group_cmp_good) in E'. rewrite E' in E. discriminate.
Qed.

Lemma dedup_groups_rules k gs r :
  In r (rules_of_key k (dedup_groups gs)) <-> In r (rules_of_key k gs).
Proof.
  transitivity (In r (rules_of_key k (isort group_cmp gs))).
  - unfold dedup_groups.
    destruct (isort group_cmp gs); [reflexivity | rewrite merge_loop_rules; reflexivity].
  - rewrite !rules_of_key_In. setoid_rewrite (isort_In group_cmp). reflexivity.
Qed.

Lemma dedup_groups_strict gs : StronglySorted (clt group_cmp) (dedup_groups gs).
Proof.
  unfold dedup_groups.
  pose proof (isort_sorted group_cmp group_cmp_good gs) as Hs.
  destruct (isort group_cmp gs) as [|g0 rest]; [constructor|].
  apply merge_loop_strict. exact Hs.
Qed.

Lemma rules_of_key_nonempty k gs :
  rules_of_key k (filter (fun g => negb (is_nil (g_rules g))) gs) = rules_of_key k gs.
Proof.
  induction gs as [|g gs IH]; simpl; [reflexivity|].
  destruct (g_rules g) eqn:E; simpl; rewrite !rules_of_key_cons, IH, E; [|reflexivity].
  destruct (str_eqb (g_key g) k); reflexivity.
Qed.

Lemma rules_of_key_filter k (p : rule -> bool) gs :
  rules_of_key k (map (fun g => Group (g_key g) (filter p (g_rules g))) gs)
  = filter p (rules_of_key k gs).
Proof.
  induction gs as [|g gs IH]; simpl; [reflexivity|]. rewrite !rules_of_key_cons, IH. simpl.
  destruct (str_eqb (g_key g) k); [rewrite filter_app|]; reflexivity.
Qed.

Section F.
  Variable re : str -> str -> bool.
  Variable templ : str -> bool.

  Lemma spec_match_nil ls : spec_match re templ [] ls = true.
  Proof. reflexivity. Qed.

  Lemma filter_rules_rules k sets gs :
    rules_of_key k (filter_rules re templ sets gs)
    = filter (fun r => spec_match re templ sets (r_labels r)) (rules_of_key k gs).
  Proof.
    destruct sets as [|s0 sets].
    - symmetry. apply ListFacts.filter_all. intros. apply spec_match_nil.
    - rewrite filter_rules_spec by discriminate.
      rewrite rules_of_key_nonempty. apply rules_of_key_filter.
  Qed.
End F.

Lemma rule_eqb_refl r : rule_eqb r r = true.
Proof.
  unfold rule_eqb, kind_eqb, label_eqb.
  rewrite !str_eqb_refl, !Z.eqb_refl.
  rewrite ListFacts.list_eqb_refl by (intros [a b]; simpl; rewrite !str_eqb_refl; reflexivity).
  destruct (r_kind r); reflexivity.
Qed.

Lemma strict_map_key (h : group -> group) l :
  (forall g, g_key (h g) = g_key g) ->
  StronglySorted (clt group_cmp) l -> StronglySorted (clt group_cmp) (map h l).
Proof.
  intros Hk H. apply (ListFacts.StronglySorted_map_in _ _ h l H).
  intros x y _ _. unfold clt, group_cmp. now rewrite !Hk.
Qed.

Section Api.
  Variable re : str -> str -> bool.
  Variable templ : str -> bool.
  Variable sets : list (list matcher).
  Variable replica : list str.
  Variable gs : list group.

  Let out := rules_api re templ sets replica gs.

  (* a rule of the input is selected when its labels pass the OR-of-ANDs specification *)
  Definition selected (r : rule) : Prop := spec_match re templ sets (r_labels r) = true.

  Lemma api_groups_distinct : StronglySorted (clt group_cmp) out.
  Proof.
    unfold out, rules_api. apply strict_map_key; [reflexivity|]. apply dedup_groups_strict.
  Qed.

  Lemma api_rules_distinct g' : In g' out -> StronglySorted (clt rule_cmp) (g_rules g').
  Proof.
    unfold out, rules_api. intro H. apply in_map_iff in H as [g [E _]]. subst g'. simpl.
    apply dedup_rules_strict.
  Qed.

  (* the rules under key [k] before dedupRules: the selected input rules under [k] *)
  Lemma staged_rules k r :
    In r (rules_of_key k (dedup_groups (filter_rules re templ sets gs)))
    <-> In r (rules_of_key k gs) /\ selected r.
  Proof. rewrite dedup_groups_rules, filter_rules_rules. apply filter_In. Qed.

  Lemma api_sound g' r' :
    In g' out -> In r' (g_rules g') ->
    exists g r, In g gs /\ g_key g = g_key g' /\ In r (g_rules g) /\ selected r /\ r' = strip replica r.
  Proof.
    unfold out, rules_api. intros Hg Hr. apply in_map_iff in Hg as [g1 [<- Hg1]]. simpl in *.
    apply dedup_rules_In in Hr as [r [Hr ->]].
    destruct (proj1 (staged_rules (g_key g1) r)) as [H Hsel].
    { apply rules_of_key_In. exists g1. auto. }
    apply rules_of_key_In in H as [g [Hg [Hk Hrg]]]. exists g, r. auto.
  Qed.

  Lemma api_complete g r :
    In g gs -> In r (g_rules g) -> selected r ->
    exists g' r', In g' out /\ g_key g' = g_key g /\ In r' (g_rules g') /\ rule_cmp (strip replica r) r' = Eq.
  Proof.
    intros Hg Hr Hsel.
    destruct (proj1 (rules_of_key_In (g_key g) (dedup_groups (filter_rules re templ sets gs)) r))
      as [g1 [Hg1 [Hk1 Hr1]]].
    { apply staged_rules. split; [|exact Hsel]. apply rules_of_key_In. exists g. auto. }
    destruct (dedup_rules_rep replica _ _ Hr1) as [r' [Hr' Hc]].
    exists (Group (g_key g1) (dedup_rules replica (g_rules g1))), r'.
    split; [|auto]. exact (in_map _ _ g1 Hg1).
  Qed.

  Lemma api_pred_holds : api_pred re templ sets replica gs out = true.
  Proof.
    unfold api_pred. repeat (apply andb_true_iff; split).
    - apply no_dup_by_strict, api_groups_distinct.
    - apply forallb_forall. intros g' Hg'. apply no_dup_by_strict, api_rules_distinct, Hg'.
    - apply forallb_forall. intros g' Hg'. apply forallb_forall. intros r' Hr'.
      destruct (api_sound _ _ Hg' Hr') as [g [r [Hg [Hk [Hr [Hsel E]]]]]].
      apply existsb_exists. exists r. split.
      + apply rules_of_key_In. exists g. repeat split; assumption.
      + unfold selected in Hsel. rewrite Hsel. subst r'. simpl. apply rule_eqb_refl.
    - apply forallb_forall. intros g Hg. apply forallb_forall. intros r Hr.
      destruct (spec_match re templ sets (r_labels r)) eqn:Hsel; simpl; [|reflexivity].
      destruct (api_complete g r Hg Hr Hsel) as [g' [r' [Hg' [Hk [Hr' Hc]]]]].
      apply existsb_exists. exists g'. split; [exact Hg'|].
      apply andb_true_iff. split; [apply str_eqb_eq; exact Hk|].
      apply existsb_exists. exists r'. split; [exact Hr' | apply is_eq_true; exact Hc].
  Qed.
End Api.

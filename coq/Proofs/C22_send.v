(* C22 — sendWrites / worker pools / wg.Wait / close(responses): every
   destination produces exactly one response, all of them before the channel is
   closed, the WaitGroup counter never goes negative, nothing is sent on the
   closed channel and the channel's capacity is never exceeded. *)
From Coq Require Import ZArith List Bool Lia Permutation String.
Import ListNotations.
From Verif Require Import Lib.Corr Gen.C22 Model.C22 Proofs.C22 Proofs.C22_dist.
Open Scope Z_scope.

(* tie T: the bookkeeping calls of sendWrites, tryWrite, sendWrite,
   prepareRemoteWrite, buildWork, RemoteWriteAsync, TryRemoteWriteAsync and of
   fanoutForward's sender goroutine are in the modelled order (Gen/C22.v) *)
Lemma send_shape_holds : send_shape_ok = true.
Proof. vm_compute. reflexivity. Qed.

Definition dest_dec : forall a b : dest, {a = b} + {a <> b}.
Proof. decide equality; apply Nat.eq_dec. Defined.

Definition cnt (l : list dest) (x : dest) : nat := count_occ dest_dec l x.

Lemma cnt_app : forall l1 l2 x, cnt (l1 ++ l2) x = (cnt l1 x + cnt l2 x)%nat.
Proof. intros. unfold cnt. apply count_occ_app. Qed.

Lemma cnt_cons : forall d l x, cnt (d :: l) x = ((if dest_dec d x then 1 else 0) + cnt l x)%nat.
Proof. intros. unfold cnt. cbn [count_occ]. destruct (dest_dec d x); lia. Qed.

Lemma cnt_snoc : forall l d x, cnt (l ++ [d]) x = (cnt l x + (if dest_dec d x then 1 else 0))%nat.
Proof. intros. rewrite cnt_app, cnt_cons. cbn. lia. Qed.

Lemma remove_one_cnt : forall d l l', remove_one d l = Some l' ->
  (forall x, cnt l x = ((if dest_dec d x then 1 else 0) + cnt l' x)%nat) /\ List.length l = S (List.length l').
Proof.
  intros d l. induction l as [|y l IH]; intros l' H; [discriminate|].
  cbn [remove_one] in H. destruct (dest_eqb y d) eqn:E.
  - inversion H; subst. apply dest_eqb_eq in E. subst. split; [intro x; apply cnt_cons|reflexivity].
  - destruct (remove_one d l) as [r'|] eqn:R; [|discriminate]. inversion H; subst.
    destruct (IH r' eq_refl) as [Hc Hl]. split.
    + intro x. rewrite !cnt_cons, Hc. lia.
    + cbn [List.length]. lia.
Qed.

Definition todo_of (p : sphase) : list dest := match p with P1 t | P2 t => t | _ => [] end.

Definition sinv (D : list dest) (s : sstate) : Prop :=
  sbad s = false
  /\ swg s = Z.of_nat (List.length (srunning s) + List.length (ssent s))
  /\ (forall x, (cnt (todo_of (sph s)) x + cnt (sdeferred s) x + cnt (srunning s) x + cnt (schan s) x = cnt D x)%nat)
  /\ (forall x, (cnt (ssent s) x <= cnt (schan s) x)%nat)
  /\ match sph s with
     | P1 _ => True
     | P2 _ | PWait => sdeferred s = []
     | PClosed => sdeferred s = [] /\ srunning s = [] /\ ssent s = []
     end.

Lemma sinv_init : forall D, sinv D (sinit D).
Proof.
  intro D. unfold sinv, sinit; cbn. repeat split; auto. intro x. unfold cnt. cbn. lia.
Qed.

Lemma sstep_inv : forall D s l s', sinv D s -> sstep s l = Some s' -> sinv D s'.
Proof.
  intros D [ph def wg run sent chan bad] l s' [Hb [Hw [Hc [Hs Hp]]]] H.
  cbn [sbad swg srunning ssent schan sph sdeferred] in *. subst bad.
  destruct l as [ | | | | | | | |d|d| ]; cbn [sstep sph sdeferred swg srunning ssent schan sbad] in H.
  1-8: (* the sender's own steps: the phase must fit the label; a destination moves from
          one list to another, which changes two summands of a count *)
    destruct ph as [[|d t]|[|d t]| |]; try discriminate; injection H as <-;
    unfold sinv; cbn [sbad swg srunning ssent schan sph sdeferred todo_of List.length]; repeat split; auto; try lia;
    intro x; specialize (Hc x); specialize (Hs x); cbn [todo_of] in Hc; rewrite ?cnt_cons, ?cnt_snoc in *; lia.
  - assert (H' : match remove_one d run with
                 | Some r' => Some (mk_sstate ph def wg r' (d :: sent) (chan ++ [d]) (false || is_closed ph))
                 | None => None end = Some s') by (destruct ph as [[|? ?]|[|? ?]| |]; exact H).
    clear H. destruct (remove_one d run) as [r'|] eqn:R; [|discriminate]. injection H' as <-.
    destruct (remove_one_cnt d run r' R) as [Rc Rl].
    assert (Hcl : is_closed ph = false).
    { destruct ph; try reflexivity. destruct Hp as [_ [Hr _]]. subst run. discriminate R. }
    unfold sinv; cbn [sbad swg srunning ssent schan sph sdeferred List.length]. rewrite Hcl. repeat split; auto.
    + lia.
    + intro x. specialize (Hc x). specialize (Rc x). rewrite cnt_snoc. lia.
    + intro x. specialize (Hs x). rewrite cnt_cons, cnt_snoc. lia.
    + destruct ph; auto. discriminate Hcl.
  - assert (H' : match remove_one d sent with
                 | Some t' => Some (mk_sstate ph def (wg - 1) run t' chan (false || (wg - 1 <? 0)))
                 | None => None end = Some s') by (destruct ph as [[|? ?]|[|? ?]| |]; exact H).
    clear H. destruct (remove_one d sent) as [t'|] eqn:R; [|discriminate]. injection H' as <-.
    destruct (remove_one_cnt d sent t' R) as [Rc Rl]. subst wg.
    unfold sinv; cbn [sbad swg srunning ssent schan sph sdeferred]. repeat split; auto.
    + destruct (Z.ltb_spec (Z.of_nat (List.length run + List.length sent) - 1) 0); [lia|reflexivity].
    + lia.
    + intro x. specialize (Hs x). specialize (Rc x). lia.
    + destruct ph; auto. destruct Hp as [Hd [Hr Hse]]. subst sent. discriminate R.
  - destruct ph as [t|t| |]; try discriminate.
    destruct (Z.eqb_spec wg 0) as [E|E]; [|discriminate]. injection H as <-. rewrite Hw in E.
    unfold sinv; cbn [sbad swg srunning ssent schan sph sdeferred todo_of]. repeat split; auto.
    + destruct run; [reflexivity|cbn [List.length] in E; lia].
    + destruct sent; [reflexivity|]. cbn [List.length] in E. lia.
Qed.

Lemma srun_inv : forall D ls s s', sinv D s -> srun s ls = Some s' -> sinv D s'.
Proof.
  intros D ls. induction ls as [|l ls IH]; intros s s' Hi Hr; cbn [srun] in Hr.
  - inversion Hr; subst; exact Hi.
  - destruct (sstep s l) as [s1|] eqn:E; [|discriminate].
    exact (IH s1 s' (sstep_inv D s l s1 Hi E) Hr).
Qed.

Lemma cnt_length_le : forall l D, (forall x, (cnt l x <= cnt D x)%nat) -> (List.length l <= List.length D)%nat.
Proof.
  induction l as [|a l IH]; intros D H; [cbn; lia|].
  assert (Ha : (1 <= cnt D a)%nat) by (specialize (H a); rewrite cnt_cons in H; destruct (dest_dec a a); [lia|congruence]).
  assert (Hin : In a D) by (apply (count_occ_In dest_dec); unfold cnt in Ha; lia).
  apply in_split in Hin as [l1 [l2 ->]].
  cbn [List.length]. rewrite app_length. cbn [List.length].
  assert ((List.length l <= List.length (l1 ++ l2))%nat).
  { apply IH. intro x. specialize (H x). rewrite cnt_cons, !cnt_app, cnt_cons in *. lia. }
  rewrite app_length in H0. lia.
Qed.

(* every run of the sender and of the pool workers, in any interleaving *)
Lemma sender_safe : forall D ls s, srun (sinit D) ls = Some s ->
  sbad s = false /\ 0 <= swg s
  /\ (List.length (schan s) <= List.length D)%nat
  /\ (sph s = PClosed -> Permutation (schan s) D).
Proof.
  intros D ls s Hr. destruct (srun_inv D ls (sinit D) s (sinv_init D) Hr) as [Hb [Hw [Hc [Hs Hp]]]].
  split; [exact Hb|]. split; [lia|]. split.
  - apply cnt_length_le. intro x. specialize (Hc x). lia.
  - intro Hcl. rewrite Hcl in Hp, Hc. destruct Hp as [Hd [Hru Hse]]. rewrite Hd, Hru in Hc.
    apply (Permutation_count_occ dest_dec). intro x. exact (Hc x).
Qed.

(* a response is on the channel before its completion callback (wg.Done) runs *)
Lemma sender_response_before_done : forall D ls s, srun (sinit D) ls = Some s ->
  forall x, (cnt (ssent s) x <= cnt (schan s) x)%nat.
Proof. intros D ls s Hr. destruct (srun_inv D ls (sinit D) s (sinv_init D) Hr) as [_ [_ [_ [Hs _]]]]. exact Hs. Qed.

(* a first pass in which every pool accepts *)
Fixpoint complete_run (ds : list dest) : list slabel :=
  match ds with
  | [] => []
  | d :: r => S1Accept :: complete_run r
  end.

(* the protocol can always be completed: for every destination list the run
   in which every pool accepts at once, then each worker sends and finishes,
   closes the channel *)
Lemma closing_run_exists : forall D, exists ls s, srun (sinit D) ls = Some s /\ sph s = PClosed.
Proof.
  intro D.
  assert (G : forall t run chan, exists ls s,
            srun (mk_sstate (P1 t) [] (Z.of_nat (List.length run)) run [] chan false) ls = Some s /\ sph s = PClosed).
  { induction t as [|d t IH]; intros run chan.
    - (* first pass over: second pass is empty; drain the running works one by one *)
      revert chan. induction run as [|d run IHr]; intro chan.
      + exists [S1End; S2End; SClose]. eexists. cbn. split; reflexivity.
      + destruct (IHr (chan ++ [d])) as [ls [s [Hs Hc]]].
        exists (SWorkSend d :: SWorkDone d :: ls), s. split; [|exact Hc].
        cbn [srun sstep sph srunning remove_one]. rewrite dest_eqb_refl.
        cbn [srun sstep sph ssent remove_one]. rewrite dest_eqb_refl.
        cbn [sdeferred swg srunning ssent schan sbad orb is_closed].
        replace (Z.of_nat (List.length (d :: run)) - 1) with (Z.of_nat (List.length run)) by (cbn [List.length]; lia).
        destruct (Z.ltb_spec (Z.of_nat (List.length run)) 0); [lia|]. exact Hs.
    - destruct (IH (d :: run) chan) as [ls [s [Hs Hc]]]. exists (S1Accept :: ls), s. split; [|exact Hc].
      cbn [srun sstep sph sdeferred swg srunning ssent schan sbad].
      replace (Z.of_nat (List.length run) + 1) with (Z.of_nat (List.length (d :: run))) by (cbn [List.length]; lia).
      exact Hs. }
  exact (G D [] []).
Qed.

(* the hypothesis "one response per replica for every series" of the request
   theorem, discharged: the responses are the channel content of a complete
   run of the sender over the groups of the distribution *)
Lemma sender_gives_one_response_per_replica : forall rf rep place ws ls s, 0 <= rf ->
  srun (sinit (keys (distribute place (replicas_of rf rep)))) ls = Some s ->
  sph s = PClosed -> schan s = map write_dest ws ->
  forall x, (x < List.length place)%nat -> responses_of x (resps_of place ws) = n_replicas rf rep.
Proof.
  intros rf rep place ws ls s Hrf Hr Hcl Hch x Hx.
  destruct (sender_safe _ ls s Hr) as [_ [_ [_ Hp]]]. specialize (Hp Hcl). rewrite Hch in Hp.
  rewrite (one_response_per_replica place (replicas_of rf rep) ws (replicas_of_nodup rf rep) Hp x Hx).
  apply replicas_of_length. exact Hrf.
Qed.

Lemma handle_pred_sender : forall rf rep place ws ls s, 1 <= rf -> 0 <= rep ->
  srun (sinit (keys (distribute place (replicas_of rf rep)))) ls = Some s ->
  sph s = PClosed -> schan s = map write_dest ws ->
  exists o, handle rf rep place ws = Some o
    /\ (o = OAck -> rep <= rf ->
        quorum_everywhere (List.length place) (success_threshold rf rep) (resps_of place ws) = true
        /\ exists k, (k <= List.length ws)%nat /\ forall d hg obs obsr, (k <= d)%nat ->
             pred_ok (CAck rf rep place ws hg obs obsr 200 d) = true)
    /\ (o = OFail -> quorum_everywhere (List.length place) (success_threshold rf rep) (resps_of place ws) = false).
Proof.
  intros rf rep place ws ls s Hrf Hrep Hr Hcl Hch. apply handle_pred; [exact Hrf|exact Hrep|].
  apply (sender_gives_one_response_per_replica rf rep place ws ls s); [lia|exact Hr|exact Hcl|exact Hch].
Qed.

(* C44 — proofs about Model/C44.v: the shard matcher puts every series on exactly one
   shard, whatever the hash; the analyzer folds [scope] over the grouping scopes of the
   query, and [compatible] with the scopes seen so far is the invariant of that fold. *)
From Coq Require Import ZArith NArith List Bool Lia.
Import ListNotations.
From Verif Require Import Lib.Corr Lib.ListFacts Gen.C44 Model.C44.

Lemma str_eqb_eq a b : str_eqb a b = true <-> a = b.
Proof. exact (bytes_eqb_eq a b). Qed.

Lemma mem_in x l : mem x l = true <-> In x l.
Proof.
  unfold mem. rewrite existsb_exists. split.
  - intros (y & Hy & E). apply str_eqb_eq in E. subst. exact Hy.
  - intro H. exists x. split; [exact H | apply str_eqb_eq; reflexivity].
Qed.

Lemma mem_false x l : mem x l = false <-> ~ In x l.
Proof. rewrite <- mem_in. symmetry. apply not_true_iff_false. Qed.

Lemma subset_spec a b : subset a b = true <-> (forall x, In x a -> In x b).
Proof. unfold subset. rewrite forallb_forall. split; intros H x Hx; [apply mem_in | apply mem_in]; auto. Qed.

Lemma disjoint_spec a b : disjoint a b = true <-> (forall x, In x a -> ~ In x b).
Proof.
  unfold disjoint. rewrite forallb_forall. split; intros H x Hx.
  - apply mem_false. apply negb_true_iff. auto.
  - apply negb_true_iff. apply mem_false. auto.
Qed.

Lemma inter_in x a b : In x (inter a b) <-> In x a /\ In x b.
Proof. unfold inter. rewrite filter_In, mem_in. tauto. Qed.

Lemma minus_in x a b : In x (minus a b) <-> In x a /\ ~ In x b.
Proof. unfold minus. rewrite filter_In, negb_true_iff, mem_false. tauto. Qed.

Lemma union_in x a b : In x (union a b) <-> In x a \/ In x b.
Proof.
  unfold union. rewrite in_app_iff, minus_in. split; [tauto|].
  intros [H|H]; [auto|]. destruct (mem x a) eqn:E; [left; apply mem_in; auto | right; split; [auto | apply mem_false; auto]].
Qed.

Lemma shard_buf_filter by_ set ls :
  shard_buf by_ set ls =
  flat_map (fun l => fst l ++ sep :: snd l ++ [sep]) (filter (fun l => selected by_ set (fst l)) ls).
Proof.
  unfold shard_buf. induction ls as [|l ls IH]; [reflexivity|].
  change (flat_map ?f (l :: ls)) with (f l ++ flat_map f ls). cbn beta. rewrite IH.
  cbn [filter]. destruct l as [a b]. cbn [fst snd]. destruct (selected by_ set a); reflexivity.
Qed.

Theorem same_projection_same_shard (H : str -> N) by_ set n ls1 ls2 :
  filter (fun l => selected by_ set (fst l)) ls1 = filter (fun l => selected by_ set (fst l)) ls2 ->
  shard_of H by_ set n ls1 = shard_of H by_ set n ls2.
Proof. intro E. unfold shard_of. rewrite !shard_buf_filter, E. reflexivity. Qed.

Theorem exactly_one_shard (H : str -> N) by_ set n ls : (0 < n)%N ->
  let i := shard_of H by_ set n ls in
  (i < n)%N /\ matches H by_ set n i ls = true /\ (forall j, matches H by_ set n j ls = true -> j = i).
Proof.
  intro Hn. cbv zeta. split; [|split].
  - unfold shard_of. apply N.mod_lt. lia.
  - unfold matches. apply N.eqb_refl.
  - intros j Hj. unfold matches in Hj. apply N.eqb_eq in Hj. auto.
Qed.

Lemma count_eq_seq (k : N) m :
  count_true (map (fun i => N.eqb k (N.of_nat i)) (seq 0 m)) = if (N.to_nat k <? m)%nat then 1%nat else 0%nat.
Proof.
  unfold count_true. induction m as [|m IH]; [reflexivity|].
  rewrite seq_S, map_app, filter_app, app_length, IH. cbn [Nat.add map filter].
  destruct (N.eqb_spec k (N.of_nat m)), (Nat.ltb_spec (N.to_nat k) m), (Nat.ltb_spec (N.to_nat k) (S m)); cbn; lia.
Qed.

Theorem shard_pred (H : str -> N) by_ set n ls tbl : (0 < n)%N ->
  let m := map (fun i => matches H by_ set n (N.of_nat i) ls) (seq 0 (N.to_nat n)) in
  pred_ok (CShard by_ set n ls tbl m m) = true.
Proof.
  intro Hn. cbn zeta. cbn [pred_ok]. rewrite (list_eqb_refl _ eqb_reflx), andb_true_r.
  unfold matches. rewrite count_eq_seq.
  pose proof (N.mod_lt (H (shard_buf by_ set ls)) n) as B. fold (shard_of H by_ set n ls) in B.
  rewrite (proj2 (Nat.ltb_lt _ _)) by lia. reflexivity.
Qed.

Lemma compatible_cons L b ss by_ S :
  compatible ((L, b) :: ss) by_ S
  = (if by_ then (if b then subset S L else disjoint S L) else negb b && subset L S) && compatible ss by_ S.
Proof. destruct by_; reflexivity. Qed.

Lemma compatible_app ss1 ss2 by_ ls : compatible (ss1 ++ ss2) by_ ls = compatible ss1 by_ ls && compatible ss2 by_ ls.
Proof. unfold compatible. destruct by_; apply forallb_app. Qed.

Lemma compatible_by_anti ss S S' : (forall x, In x S' -> In x S) -> compatible ss true S = true -> compatible ss true S' = true.
Proof.
  intros Hsub. unfold compatible. rewrite !forallb_forall. intros H s Hs. specialize (H s Hs).
  destruct (snd s).
  - apply subset_spec. intros x Hx. rewrite subset_spec in H. auto.
  - apply disjoint_spec. intros x Hx. rewrite disjoint_spec in H. auto.
Qed.

Lemma compatible_without_mono ss S S' : (forall x, In x S -> In x S') -> compatible ss false S = true -> compatible ss false S' = true.
Proof.
  intros Hsub. unfold compatible. rewrite !forallb_forall. intros H s Hs. specialize (H s Hs).
  apply andb_true_iff in H as [H1 H2]. apply andb_true_iff. split; [exact H1|].
  apply subset_spec. intros x Hx. rewrite subset_spec in H2. auto.
Qed.

Lemma scope_step seen by_ S L b : compatible seen by_ S = true ->
  exists by' S', scope (St by_ S) (L, b) = St by' S' /\ compatible (seen ++ [(L, b)]) by' S' = true.
Proof.
  intro C. destruct by_, b; cbn [scope].
  - exists true, (inter S L). split; [reflexivity|]. rewrite compatible_app. apply andb_true_iff. split.
    + eapply compatible_by_anti; [|exact C]. intros x Hx. apply inter_in in Hx. tauto.
    + cbn. rewrite andb_true_r. apply subset_spec. intros x Hx. apply inter_in in Hx. tauto.
  - exists true, (minus S L). split; [reflexivity|]. rewrite compatible_app. apply andb_true_iff. split.
    + eapply compatible_by_anti; [|exact C]. intros x Hx. apply minus_in in Hx. tauto.
    + cbn. rewrite andb_true_r. apply disjoint_spec. intros x Hx. apply minus_in in Hx. tauto.
  - exists true, (minus L S). split; [reflexivity|]. rewrite compatible_app. apply andb_true_iff. split.
    + (* everything seen so far was a without-scope inside S, so disjoint from L \ S *)
      unfold compatible in *. rewrite forallb_forall in *. intros s Hs. specialize (C s Hs).
      apply andb_true_iff in C as [C1 C2]. apply negb_true_iff in C1. rewrite C1.
      apply disjoint_spec. intros x Hx. apply minus_in in Hx. rewrite subset_spec in C2. intro K. apply Hx. auto.
    + cbn. rewrite andb_true_r. apply subset_spec. intros x Hx. apply minus_in in Hx. tauto.
  - exists false, (union S L). split; [reflexivity|]. rewrite compatible_app. apply andb_true_iff. split.
    + eapply compatible_without_mono; [|exact C]. intros x Hx. apply union_in. auto.
    + cbn. rewrite andb_true_r. apply subset_spec. intros x Hx. apply union_in. auto.
Qed.

Lemma fold_scope_compatible : forall ss seen by_ S,
  compatible seen by_ S = true ->
  exists by' S', fold_left scope ss (St by_ S) = St by' S' /\ compatible (seen ++ ss) by' S' = true.
Proof.
  induction ss as [|[L b] ss IH]; intros seen by_ S C.
  - exists by_, S. rewrite app_nil_r. auto.
  - cbn [fold_left]. destruct (scope_step seen by_ S L b C) as (by1 & S1 & E & C1). rewrite E.
    destruct (IH _ _ _ C1) as (by2 & S2 & E2 & C2). exists by2, S2. rewrite <- app_assoc in C2. auto.
Qed.

Lemma compatible_first L b : compatible [(L, b)] b L = true.
Proof.
  unfold compatible. destruct b; cbn; rewrite andb_true_r; apply subset_spec; auto.
Qed.

Theorem analyze_compatible e by_ S : analyze e = St by_ S -> compatible (all_scopes e) by_ S = true.
Proof.
  unfold analyze. destruct (unshardable e); [discriminate|].
  destruct (all_scopes e) as [|[L b] ss]; [cbn; discriminate|]. cbn [fold_left scope].
  intro E. destruct (fold_scope_compatible ss [(L, b)] b L (compatible_first L b)) as (by' & S' & E' & C).
  rewrite E' in E. inversion E; subst. exact C.
Qed.

Theorem analyze_pred e : forall by_ S, analyze e = St by_ S ->
  pred_ok (CAnalyze e (shardable (analyze e)) by_ S) = true.
Proof.
  intros by_ S E. cbn [pred_ok]. destruct (shardable (analyze e)); [|reflexivity].
  apply analyze_compatible. exact E.
Qed.

Theorem compatible_in ss by_ S L b : compatible ss by_ S = true -> In (L, b) ss ->
  if by_ then (if b then forall x, In x S -> In x L else forall x, In x S -> ~ In x L)
  else b = false /\ forall x, In x L -> In x S.
Proof.
  unfold compatible. intros C Hin. destruct by_; rewrite forallb_forall in C; specialize (C _ Hin); cbn [fst snd] in C.
  - destruct b; [apply subset_spec | apply disjoint_spec]; exact C.
  - apply andb_true_iff in C as [C1 C2]. apply negb_true_iff in C1. split; [exact C1 | apply subset_spec; exact C2].
Qed.

(* C13 — lemmas for the cache key builders. A key is a sequence of fields, and
   two things let it be read back in one way only: a field is followed by a
   separator that cannot occur in it (':' after a block id or a hash, an
   operator after an unquoted name) — [span_unique] — or it is quoted, and
   quoting is prefix-free — [quote_ok]. Then the matchers cache under
   concurrent lookups. *)
From Coq Require Import String.
From Coq Require Import NArith Arith List Bool Lia.
Import ListNotations.
From Verif Require Import Lib.Corr Gen.C13 Model.C13.
Open Scope N_scope.

Lemma str_eqb_spec a b : str_eqb a b = true <-> a = b.
Proof. exact (bytes_eqb_eq a b). Qed.

Definition no_colon (s : str) : Prop := ~ In colon s.

Definition quote_ok (quote : str -> str) : Prop :=
  (forall a b x y, quote a ++ x = quote b ++ y -> a = b /\ x = y) /\ (forall a, exists r, quote a = dquote :: r).

Definition hash_ok (H : str -> str) : Prop :=
  (forall a b, H a = H b -> a = b) /\ (forall a, no_colon (H a)).

(* items of the index cache: ULID block strings have no ':'; the positive theorem needs
   label names without ':' for postings items *)
Definition valid_item (i : item) : Prop :=
  match i with
  | IPostings b n _ _ => no_colon b /\ no_colon n
  | IExpanded b _ _ => no_colon b
  | ISeries b _ => no_colon b
  | IMatcher _ => True
  end.

Definition stops {A} (P : A -> Prop) (x : list A) : Prop :=
  match x with [] => True | c :: _ => ~ P c end.

Lemma span_unique {A} (P : A -> Prop) : forall a b x y : list A,
  Forall P a -> Forall P b -> stops P x -> stops P y -> a ++ x = b ++ y -> a = b /\ x = y.
Proof.
  induction a as [|c a IH]; intros [|c' b] x y Ha Hb Hx Hy E; cbn [app] in E.
  - auto.
  - subst x. destruct (Hx (Forall_inv Hb)).
  - subst y. destruct (Hy (Forall_inv Ha)).
  - injection E as -> E.
    destruct (IH b x y (Forall_inv_tail Ha) (Forall_inv_tail Hb) Hx Hy E) as [-> ->]. auto.
Qed.

Definition not_colon (c : N) : Prop := c <> colon.

Lemma no_colon_Forall s : no_colon s -> Forall not_colon s.
Proof. intro H. apply Forall_forall. intros c Hin ->. exact (H Hin). Qed.

Lemma colon_stops r : stops not_colon (colon :: r).
Proof. intro H. exact (H eq_refl). Qed.

Lemma split_colon a a' r r' : no_colon a -> no_colon a' ->
  a ++ colon :: r = a' ++ colon :: r' -> a = a' /\ r = r'.
Proof.
  intros Ha Ha' E.
  apply (span_unique not_colon) in E as [-> E]; auto using no_colon_Forall, colon_stops.
  injection E as ->. auto.
Qed.

Lemma suffix_inv h1 h2 c1 c2 : no_colon h1 -> no_colon h2 ->
  h1 ++ suffix c1 = h2 ++ suffix c2 -> h1 = h2 /\ c1 = c2.
Proof.
  assert (S : forall c, stops not_colon (suffix c)) by (intros [|x c]; [exact I|apply colon_stops]).
  intros N1 N2 E. apply (span_unique not_colon) in E as [-> E]; auto using no_colon_Forall.
  destruct c1, c2; try discriminate E; [auto|]. injection E as -> ->. auto.
Qed.

(* an unquoted name ends where the operator begins *)
Definition is_op (c : N) : Prop := c = 61 \/ c = 33.
Definition not_op (c : N) : Prop := ~ is_op c.

Lemma legacy_not_op f c : legacy_char f c = true -> not_op c /\ c <> dquote.
Proof. intro H. split; [intros [-> | ->] | intros ->]; destruct f; discriminate H. Qed.

Lemma legacy_Forall : forall s f, all_legacy f s = true -> Forall not_op s.
Proof.
  induction s as [|c s IH]; intros f H; constructor; cbn [all_legacy] in H; apply andb_true_iff in H as [Hc Hs].
  - exact (proj1 (legacy_not_op f c Hc)).
  - exact (IH false Hs).
Qed.

Lemma type_str_stops t r : stops not_op (type_str t ++ r).
Proof. destruct t; intro H; apply H; unfold is_op; auto. Qed.

Lemma type_str_span t1 t2 x y : type_str t1 ++ dquote :: x = type_str t2 ++ dquote :: y -> t1 = t2 /\ x = y.
Proof. destruct t1, t2; intro E; try discriminate E; injection E as ->; auto. Qed.

Section Quote.
  Variable quote : str -> str.
  Hypothesis Hq : quote_ok quote.

  Lemma type_value_inv t1 t2 v1 v2 r1 r2 :
    type_str t1 ++ quote v1 ++ r1 = type_str t2 ++ quote v2 ++ r2 -> t1 = t2 /\ v1 = v2 /\ r1 = r2.
  Proof.
    intro E. assert (t1 = t2) as ->.
    { destruct (proj2 Hq v1) as [q1 E1]. destruct (proj2 Hq v2) as [q2 E2].
      rewrite E1, E2 in E. apply type_str_span in E. tauto. }
    apply app_inv_head, (proj1 Hq) in E. tauto.
  Qed.

  Lemma unquoted_facts n : should_quote n = false -> all_legacy true n = true /\ exists c r, n = c :: r /\ c <> dquote.
  Proof.
    unfold should_quote. intro E. apply orb_false_iff in E as [E1 E2]. apply negb_false_iff in E1. split; [exact E1|].
    destruct n as [|c r]; [discriminate|]. exists c, r. split; [reflexivity|].
    cbn [all_legacy] in E1. apply andb_true_iff in E1 as [E1 _]. exact (proj2 (legacy_not_op _ _ E1)).
  Qed.

  (* a quoted name begins with a double quote, an unquoted one does not *)
  Lemma quoted_not_unquoted n1 n2 x y : should_quote n2 = false -> quote n1 ++ x <> n2 ++ y.
  Proof.
    intros Q E. destruct (proj2 Hq n1) as [q E1]. apply unquoted_facts in Q as (_ & c & r & -> & Hc).
    rewrite E1 in E. injection E as E _. congruence.
  Qed.

  (* Matcher.String followed by anything: name (quoted or not), operator, quoted value *)
  Lemma matcher_parse m1 m2 r1 r2 :
    matcher_string quote m1 ++ r1 = matcher_string quote m2 ++ r2 -> m1 = m2 /\ r1 = r2.
  Proof.
    unfold matcher_string. rewrite <- !app_assoc. intro E.
    destruct m1 as [t1 n1 v1], m2 as [t2 n2 v2]. cbn [mname mt mvalue] in *.
    assert (Hnt : n1 = n2 /\ type_str t1 ++ quote v1 ++ r1 = type_str t2 ++ quote v2 ++ r2).
    { destruct (should_quote n1) eqn:Q1, (should_quote n2) eqn:Q2.
      - exact (proj1 Hq _ _ _ _ E).
      - destruct (quoted_not_unquoted _ _ _ _ Q2 E).
      - destruct (quoted_not_unquoted _ _ _ _ Q1 (eq_sym E)).
      - apply unquoted_facts in Q1 as (L1 & _). apply unquoted_facts in Q2 as (L2 & _).
        exact (span_unique not_op _ _ _ _ (legacy_Forall _ _ L1) (legacy_Forall _ _ L2)
                 (type_str_stops _ _) (type_str_stops _ _) E). }
    destruct Hnt as [-> E']. apply type_value_inv in E' as (-> & -> & ->). auto.
  Qed.

  Lemma mts_cons m r : matchers_to_string quote (m :: r) =
    matcher_string quote m ++ match r with [] => [] | _ => semicolon :: matchers_to_string quote r end.
  Proof. destruct r; cbn [matchers_to_string]; [rewrite app_nil_r|]; reflexivity. Qed.

  Lemma mts_nonempty m r : matchers_to_string quote (m :: r) <> [].
  Proof.
    rewrite mts_cons. unfold matcher_string. rewrite <- !app_assoc. intro E.
    apply app_eq_nil in E as [_ E]. destruct (mt m); discriminate E.
  Qed.

  Lemma matchers_string_inj : forall l1 l2,
    matchers_to_string quote l1 = matchers_to_string quote l2 -> l1 = l2.
  Proof.
    induction l1 as [|m1 r1 IH]; intros [|m2 r2] E.
    - reflexivity.
    - destruct (mts_nonempty m2 r2 (eq_sym E)).
    - destruct (mts_nonempty m1 r1 E).
    - rewrite !mts_cons in E. apply matcher_parse in E as [-> E]. f_equal.
      destruct r1 as [|a1 r1], r2 as [|a2 r2]; try discriminate; [reflexivity|].
      injection E as E. apply IH. exact E.
  Qed.

  Lemma matcher_key_inj m1 m2 :
    matcher_cache_key quote true m1 = matcher_cache_key quote true m2 -> m1 = m2.
  Proof.
    unfold matcher_cache_key. destruct m1 as [t1 n1 v1], m2 as [t2 n2 v2]. cbn [mt mname mvalue].
    intro E. apply type_value_inv in E as (-> & -> & ->). reflexivity.
  Qed.
End Quote.

Lemma kinds_disjoint H quote dec i1 i2 : index_item i1 = true -> index_item i2 = true ->
  key_of H quote dec true i1 = key_of H quote dec true i2 ->
  match i1, i2 with
  | IPostings _ _ _ _, IPostings _ _ _ _ | IExpanded _ _ _, IExpanded _ _ _ | ISeries _ _, ISeries _ _ => True
  | _, _ => False
  end.
Proof. destruct i1, i2; cbn; intros; try discriminate; auto. Qed.

Section Keys.
  Variable H : str -> str.
  Variable quote : str -> str.
  Variable dec : N -> str.
  Hypothesis HH : hash_ok H.        (* collision resistance of blake2b-256; base64url alphabet *)
  Hypothesis Hq : quote_ok quote.
  Hypothesis dec_inj : forall a b, dec a = dec b -> a = b.

  (* "P:" / "EP:" / "S:", the block id, ':', the rest *)
  Lemma block_inv tag b1 b2 p1 p2 : no_colon b1 -> no_colon b2 ->
    tag ++ b1 ++ [colon] ++ p1 = tag ++ b2 ++ [colon] ++ p2 -> b1 = b2 /\ p1 = p2.
  Proof. intros N1 N2 E. apply app_inv_head in E. exact (split_colon _ _ _ _ N1 N2 E). Qed.

  (* the hash, then ':' and the compression name if there is one *)
  Lemma hashed_inv a1 a2 c1 c2 : H a1 ++ suffix c1 = H a2 ++ suffix c2 -> a1 = a2 /\ c1 = c2.
  Proof.
    intro E. apply suffix_inv in E as [E ->]; [|apply HH..]. split; [exact (proj1 HH _ _ E)|reflexivity].
  Qed.

  Lemma keys_inj i1 i2 : valid_item i1 -> valid_item i2 -> same_cache i1 i2 = true ->
    key_of H quote dec true i1 = key_of H quote dec true i2 -> i1 = i2.
  Proof.
    intros V1 V2 S E. pose proof (kinds_disjoint H quote dec i1 i2) as K.
    destruct i1, i2; try discriminate S; try (destruct (K eq_refl eq_refl E)); clear K;
      cbn [key_of valid_item] in *.
    - destruct V1, V2. apply block_inv in E as [-> E]; auto. apply hashed_inv in E as [E ->].
      apply split_colon in E as [-> ->]; auto.
    - apply block_inv in E as [-> E]; auto. apply hashed_inv in E as [E ->].
      apply (matchers_string_inj quote Hq) in E as ->. reflexivity.
    - apply block_inv in E as [-> E]; auto. apply dec_inj in E as ->. reflexivity.
    - apply (matcher_key_inj quote Hq) in E as ->. reflexivity.
  Qed.
End Keys.

Lemma mtype_eqb_spec a b : mtype_eqb a b = true <-> a = b.
Proof. destruct a, b; cbn; split; congruence. Qed.

Lemma matcher_eqb_spec a b : matcher_eqb a b = true <-> a = b.
Proof.
  destruct a as [t1 n1 v1], b as [t2 n2 v2]. unfold matcher_eqb. cbn [mt mname mvalue].
  rewrite !andb_true_iff, mtype_eqb_spec, !str_eqb_spec. split; [intros [[-> ->] ->]; reflexivity|].
  intro E; inversion E; auto.
Qed.

Lemma item_eqb_spec a b : item_eqb a b = true <-> a = b.
Proof.
  destruct a, b; cbn [item_eqb]; try (split; [discriminate|intro E; inversion E]).
  - rewrite !andb_true_iff, !str_eqb_spec. split; [intros [[[-> ->] ->] ->]; reflexivity|intro E; inversion E; auto].
  - rewrite !andb_true_iff, !str_eqb_spec, (list_eqb_spec matcher_eqb matcher_eqb_spec).
    split; [intros [[-> ->] ->]; reflexivity|intro E; inversion E; auto].
  - rewrite andb_true_iff, str_eqb_spec, N.eqb_eq. split; [intros [-> ->]; reflexivity|intro E; inversion E; auto].
  - rewrite matcher_eqb_spec. split; [intros ->; reflexivity|intro E; inversion E; auto].
Qed.

Lemma keys_pred H quote dec : hash_ok H -> quote_ok quote -> (forall a b, dec a = dec b -> a = b) ->
  forall i1 i2 oH oQ oD, valid_item i1 -> valid_item i2 ->
  pred_ok (CPair i1 i2 (key_of H quote dec true i1) (key_of H quote dec true i2) oH oQ oD) = true.
Proof.
  intros HH Hq Hd i1 i2 oH oQ oD V1 V2. cbn [pred_ok].
  destruct (same_cache i1 i2) eqn:S; [|reflexivity].
  destruct (item_eqb i1 i2) eqn:E; [reflexivity|]. cbn [negb andb].
  apply negb_true_iff. destruct (str_eqb _ _) eqn:K; [|reflexivity].
  apply str_eqb_spec, (keys_inj H quote dec HH Hq Hd i1 i2 V1 V2 S), item_eqb_spec in K. congruence.
Qed.

(* "a:b","c" against "a","b:c": for every hash function and every block/compression *)
Lemma postings_collision H b comp :
  key_postings H b [97; 58; 98] [99] comp = key_postings H b [97] [98; 58; 99] comp
  /\ item_eqb (IPostings b [97; 58; 98] [99] comp) (IPostings b [97] [98; 58; 99] comp) = false.
Proof.
  split; [reflexivity|]. cbn [item_eqb].
  change (str_eqb [97; 58; 98] [97]) with false. rewrite andb_false_r. reflexivity.
Qed.

Lemma postings_pred_refuted H quote dec b comp oH oQ oD :
  let i1 := IPostings b [97; 58; 98] [99] comp in
  let i2 := IPostings b [97] [98; 58; 99] comp in
  pred_ok (CPair i1 i2 (key_of H quote dec true i1) (key_of H quote dec true i2) oH oQ oD) = false.
Proof.
  cbn zeta. cbn [pred_ok same_cache index_item Bool.eqb key_of].
  destruct (postings_collision H b comp) as [E1 E2]. rewrite E2, E1. cbn [negb andb].
  rewrite (proj2 (str_eqb_spec _ _) eq_refl). reflexivity.
Qed.

(* matchers cache key before C13-fix.patch: a=~"b=~c" against a=~b=~"c" *)
Lemma matcher_key_unfixed_collision quote :
  matcher_cache_key quote false (mkM MRe [97] [98; 61; 126; 99]) =
  matcher_cache_key quote false (mkM MRe [97; 61; 126; 98] [99])
  /\ matcher_cache_key quote false (mkM MEq [97] [126; 98]) = matcher_cache_key quote false (mkM MRe [97] [98]).
Proof. split; reflexivity. Qed.

Lemma source_shape :
  cacheKeyStringAssigns =
    ["lbl := c.Key.(CacheKeyPostings)";
     "lblHash := blake2b.Sum256([]byte(lbl.Name + "":"" + lbl.Value))";
     "key := ""P:"" + c.Block + "":"" + base64.RawURLEncoding.EncodeToString(lblHash[0:])";
     "key += "":"" + c.Compression";
     "matchers := c.Key.(CacheKeyExpandedPostings)";
     "matchersHash := blake2b.Sum256([]byte(matchers))";
     "key := ""EP:"" + c.Block + "":"" + base64.RawURLEncoding.EncodeToString(matchersHash[0:])";
     "key += "":"" + c.Compression"]%string /\
  cacheKeyStringReturns =
    ["key"; "key"; """S:"" + c.Block + "":"" + strconv.FormatUint(uint64(c.Key.(CacheKeySeries)), 10)"; """"""]%string /\
  matcherCacheKeyWrites =
    ["typeStr := t.String()"; "name := strconv.Quote(m.GetName())"; "WriteString(typeStr)"; "WriteString(name)";
     "WriteString(m.GetValue())"]%string /\
  labelMatchersToStringEvents =
    [("for", "range"); ("call", "lbl.String"); ("call", "sb.WriteString"); ("call", "len");
     ("if", "i < len(matchers)-1"); ("call", "sb.WriteRune"); ("endif", ""); ("endfor", "");
     ("call", "sb.String"); ("return", "sb.String()")]%string.
Proof. repeat split; reflexivity. Qed.

(* a ':'-free injective stand-in for the hash: every character moved above ':' *)
Definition shift_up (s : str) : str := map (fun c => c + 59) s.

Lemma shift_up_ok : hash_ok shift_up.
Proof.
  split.
  - induction a as [|c a IH]; intros [|c' b] E; try discriminate E; [reflexivity|].
    injection E as Ec E. apply N.add_cancel_r in Ec. f_equal; auto.
  - intros a Hin. apply in_map_iff in Hin as (c & E & _). unfold colon in E. lia.
Qed.

Lemma app_inv_length {A} : forall (a b x y : list A), length a = length b -> a ++ x = b ++ y -> a = b /\ x = y.
Proof.
  induction a as [|c a IH]; intros [|c' b] x y L E; cbn in *; try discriminate; [auto|].
  inversion E as [[E1 E2]]. destruct (IH b x y ltac:(lia) E2) as [-> ->]. auto.
Qed.

Lemma repeat_sep : forall n m (r r' : str), repeat 1 n ++ 0 :: r = repeat 1 m ++ 0 :: r' -> n = m /\ r = r'.
Proof.
  induction n as [|n IH]; intros [|m] r r' E; cbn in E; try discriminate.
  - injection E as ->. auto.
  - injection E as E. destruct (IH m r r' E) as [-> ->]. auto.
Qed.

(* the stand-in for strconv.Quote of the model (a double quote, the length in unary, a 0, the text) *)
Lemma uquote_ok : quote_ok uquote_m.
Proof.
  split; [|intro a; eexists; reflexivity].
  intros a b x y E. unfold uquote_m in E. injection E as E. rewrite <- !app_assoc in E.
  apply repeat_sep in E as [L E]. exact (app_inv_length a b x y L E).
Qed.

Definition udec (n : N) : str := repeat 49 (N.to_nat n).

Lemma udec_inj a b : udec a = udec b -> a = b.
Proof.
  unfold udec. intro E. apply (f_equal (@length N)) in E. rewrite !repeat_length in E. lia.
Qed.

Lemma hypotheses_satisfiable :
  exists H quote dec, hash_ok H /\ quote_ok quote /\ (forall a b : N, dec a = dec b -> a = b) /\
    (* and with them a concrete pair of distinct expanded-postings items gets distinct keys *)
    key_of H quote dec true (IExpanded [48] [mkM MEq [97] [98; 59; 99]] []) <>
    key_of H quote dec true (IExpanded [48] [mkM MEq [97] [98]; mkM MEq [99] []] []).
Proof.
  exists shift_up, uquote_m, udec. split; [exact shift_up_ok|].
  split; [exact uquote_ok|]. split; [exact udec_inj|].
  vm_compute. discriminate.
Qed.

Lemma assoc_s_in {A} : forall (l : list (str * A)) k v, assoc_s k l = Some v -> In (k, v) l.
Proof.
  induction l as [|[k' v'] l IH]; intros k v H; cbn [assoc_s] in H; [discriminate|].
  destruct (str_eqb k' k) eqn:E; [|right; exact (IH k v H)].
  apply str_eqb_spec in E. injection H as ->. subst k'. left. reflexivity.
Qed.

Section FlightProofs.
  Variables sfk lruk : matcher -> str.
  Variable items : list matcher.
  (* the two key functions separate the different items of the history *)
  Hypothesis sfk_inj : forall a b, In a items -> In b items -> sfk a = sfk b -> a = b.
  Hypothesis lruk_inj : forall a b, In a items -> In b items -> lruk a = lruk b -> a = b.

  (* what the state of lookup i may be: it waits only for a call with its own singleflight
     key, and has returned only its own item *)
  Definition ls_ok (i : nat) (s : lstate) : Prop :=
    match s with
    | LWait j => exists mi mj, nth_error items i = Some mi /\ nth_error items j = Some mj /\ sfk mi = sfk mj
    | LDone r => nth_error items i = Some r
    | _ => True
    end.

  Definition finv (st : fstate) : Prop :=
    (forall k m, In (k, m) (f_lru st) -> In m items /\ k = lruk m) /\
    (forall k j, In (k, j) (f_fl st) -> exists mj, nth_error items j = Some mj /\ k = sfk mj) /\
    (forall i, ls_ok i (f_ls st i)).

  Lemma upd_ls_ok f i v : (forall x, ls_ok x (f x)) -> ls_ok i v -> forall x, ls_ok x (upd_ls f i v x).
  Proof. intros Hf Hv x. unfold upd_ls. destruct (Nat.eqb_spec x i) as [->|_]; auto. Qed.

  Lemma fstep_inv st e : finv st -> finv (fstep sfk lruk items st e).
  Proof.
    intros Inv. pose proof Inv as (I1 & I2 & I3). destruct e as [i|i]; cbn [fstep].
    - destruct (f_ls st i); try exact Inv. destruct (nth_error items i) as [m|] eqn:Ei; [|exact Inv].
      destruct (assoc_s (sfk m) (f_fl st)) as [j|] eqn:Af; [|destruct (assoc_s (lruk m) (f_lru st)) as [r|] eqn:Al].
      + (* waits for the call in flight under its key *)
        split; [exact I1|split; [exact I2|]]. apply upd_ls_ok; [exact I3|].
        destruct (I2 _ _ (assoc_s_in _ _ _ Af)) as (mj & Ej & Ek). exists m, mj. auto.
      + (* cache hit: the cached item has the same LRU key, hence is the same item *)
        split; [exact I1|split; [exact I2|]]. apply upd_ls_ok; [exact I3|].
        destruct (I1 _ _ (assoc_s_in _ _ _ Al)) as (Hr & Ek).
        rewrite (lruk_inj r m Hr (nth_error_In _ _ Ei) (eq_sym Ek)). exact Ei.
      + (* converts, and is in flight under its key *)
        split; [exact I1|split]; cbn [f_fl f_ls]; [|apply upd_ls_ok; [exact I3|exact I]].
        intros k j [Hx|Hx]; [injection Hx as <- <-; eauto|exact (I2 _ _ Hx)].
    - destruct (f_ls st i); try exact Inv. destruct (nth_error items i) as [m|] eqn:Ei; [|exact Inv].
      pose proof (nth_error_In _ _ Ei) as Hm.
      (split; [|split]); cbn [f_lru f_fl f_ls].
      + intros k m' [Hx|Hx]; [injection Hx as <- <-; auto|exact (I1 _ _ Hx)].
      + intros k j Hx. apply filter_In in Hx as [Hx _]. exact (I2 _ _ Hx).
      + intro x. destruct (Nat.eqb_spec x i) as [->|_]; [exact Ei|].
        specialize (I3 x). destruct (f_ls st x) as [| |j|r]; try exact I3.
        destruct (Nat.eqb_spec j i) as [->|_]; [|exact I3].
        (* a waiter of i has the same singleflight key as i: it is the same item *)
        destruct I3 as (mi & mj & Ex & Ej & Ek). rewrite Ei in Ej. injection Ej as <-.
        cbn [ls_ok]. rewrite Ex. f_equal. exact (sfk_inj _ _ (nth_error_In _ _ Ex) Hm Ek).
  Qed.

  Lemma frun_inv : forall evs st, finv st -> finv (fold_left (fstep sfk lruk items) evs st).
  Proof. induction evs as [|e r IH]; intros st I; cbn [fold_left]; [exact I|]. apply IH. apply fstep_inv. exact I. Qed.

  (* for EVERY interleaving of begin / finish events, every lookup that returns gets the
     matcher of its own item *)
  Lemma inflight_own_item evs i r : f_ls (frun sfk lruk items evs) i = LDone r -> nth_error items i = Some r.
  Proof.
    intro H. assert (Inv : finv finit) by (repeat split; cbn; intros; contradiction).
    destruct (frun_inv evs finit Inv) as (_ & _ & I3). specialize (I3 i). unfold frun in H. rewrite H in I3. exact I3.
  Qed.
End FlightProofs.

(* the converse: if the singleflight key conflates two different items, the interleaving
   "begin 0, begin 1, finish 0" answers lookup 1 with item 0 — whatever the LRU key is *)
Lemma inflight_conflated sfk lruk m0 m1 : sfk m0 = sfk m1 ->
  f_ls (frun sfk lruk [m0; m1] [FBegin 0; FBegin 1; FFinish 0]) 1 = LDone m0.
Proof.
  intro E. unfold frun. cbn [fold_left fstep finit f_ls f_fl f_lru nth_error assoc_s upd_ls Nat.eqb].
  rewrite <- E, (proj2 (str_eqb_spec _ _) eq_refl). reflexivity.
Qed.

Lemma flight_key_inj a b : flight_key a = flight_key b -> a = b.
Proof. exact (matcher_key_inj uquote_m uquote_ok a b). Qed.

Lemma flight_results_own items evs i r :
  nth_error (flight_results flight_key flight_key items evs) i = Some (Some r) -> nth_error items i = Some r.
Proof.
  unfold flight_results. intro H. rewrite nth_error_map in H.
  destruct (nth_error (seq 0 (length items)) i) as [n0|] eqn:E; [|discriminate].
  assert (Hi : (i < length (seq 0 (length items)))%nat) by (apply nth_error_Some; congruence).
  rewrite seq_length in Hi. apply (nth_error_nth _ _ 0%nat) in E. rewrite seq_nth in E by exact Hi. cbn in E. subst n0.
  cbn [option_map] in H.
  destruct (f_ls (frun flight_key flight_key items evs) i) eqn:L; inversion H; subst.
  exact (inflight_own_item flight_key flight_key items (fun a b _ _ => flight_key_inj a b)
           (fun a b _ _ => flight_key_inj a b) evs i r L).
Qed.

(* tie T: the singleflight key, the LRU lookup key and the LRU store key are the same expression *)
Lemma get_or_set_keys :
  getOrSetKeys = ["key := cacheKey(m)"; "c.sf.Do(key)"; "c.cache.Get(key)"; "c.cache.Add(key)"]%string.
Proof. reflexivity. Qed.

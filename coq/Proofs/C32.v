(* C32 — when retention marks, the cleaner deletes and the partial-upload cleanup removes,
   each characterised exactly from the generated comparisons; the counterexample to the
   former whole-second expression; getOldestModifiedTime under listing faults. *)
From Coq Require Import ZArith List Bool Lia.
Import ListNotations.
From Verif Require Import Lib.Corr Gen.C32 Model.C32.
Open Scope Z_scope.

(* the decisions are compositions of the generated comparisons: [unf] exposes them *)
Ltac unf := unfold retention_marks, retention_disabled, retention_due, retention_maxTime,
  cleaner_deletes, cleaner_due, partial_deleted, partial_young, partial_skips_marked,
  ret_pred, clean_pred, partial_pred, ns_per_ms, ns_per_s, PartialUploadThresholdAge in *.

(* the retention decision is exact to the millisecond of MaxTime *)
Lemma retention_marks_iff now maxt ret :
  retention_marks now maxt ret = true <-> ret <> 0 /\ now - maxt * ns_per_ms > ret.
Proof.
  unf. destruct (Z.eqb_spec ret 0); [split; [discriminate | tauto]|].
  rewrite Z.gtb_ltb, Z.ltb_lt. split; [split|]; lia.
Qed.

Lemma retention_only_when_older now maxt ret :
  retention_marks now maxt ret = true -> ret <> 0 /\ now - (maxt - 1) * ns_per_ms > ret.
Proof. intros H. apply retention_marks_iff in H. unfold ns_per_ms in *. split; [tauto | lia]. Qed.

Lemma retention_zero_disables now maxt : retention_marks now maxt 0 = false.
Proof. reflexivity. Qed.

Lemma retention_marks_when_older now maxt ret :
  ret <> 0 -> now - maxt * ns_per_ms > ret -> retention_marks now maxt ret = true.
Proof. intros. now apply retention_marks_iff. Qed.

Lemma cleaner_only_after_delay now mark delay :
  cleaner_deletes now mark delay = true <-> now - mark * ns_per_s > delay.
Proof. unf. rewrite Z.gtb_ltb, Z.ltb_lt. lia. Qed.

Lemma partial_deleted_iff now lm marked :
  partial_deleted now lm marked = true <-> marked = false /\ now - lm > PartialUploadThresholdAge.
Proof.
  unf. destruct marked; simpl; [split; [discriminate | intros []; discriminate]|].
  rewrite negb_true_iff, Z.leb_gt. split; [split|]; lia.
Qed.

Lemma partial_only_after_threshold now lm marked :
  partial_deleted now lm marked = true -> marked = false /\ now - lm > PartialUploadThresholdAge.
Proof. apply partial_deleted_iff. Qed.

Lemma partial_skips_marked_blocks now lm : partial_deleted now lm true = false.
Proof. reflexivity. Qed.

Lemma model_preds t now :
  t <= now ->
  (forall maxt ret, ret_pred now maxt ret (retention_marks t maxt ret) = true) /\
  (forall mark delay, clean_pred now mark delay (cleaner_deletes t mark delay) = true) /\
  (forall lm marked, partial_pred now lm marked (partial_deleted t lm marked) = true).
Proof.
  intros Ht. repeat split; intros.
  - destruct (retention_marks t maxt ret) eqn:E; [|reflexivity].
    destruct (retention_only_when_older _ _ _ E) as [Hz Hgt]. unfold ret_pred.
    apply andb_true_iff. split; [apply negb_true_iff, Z.eqb_neq, Hz | apply Z.ltb_lt; lia].
  - destruct (cleaner_deletes t mark delay) eqn:E; unfold clean_pred; auto.
    apply cleaner_only_after_delay in E. apply Z.ltb_lt. lia.
  - destruct (partial_deleted t lm marked) eqn:E; unfold partial_pred; auto.
    destruct (partial_only_after_threshold _ _ _ E) as [-> Hgt]. simpl. apply Z.ltb_lt. lia.
Qed.

(* The expression used before the repair, time.Unix(MaxTime/1000, 0): the
   truncation to whole seconds marks blocks up to 999 ms early. *)
Definition old_maxTime (maxt : Z) : Z := Z.quot maxt 1000 * ns_per_s.

Lemma second_truncation_refuted :
  exists now maxt ret, ret <> 0 /\ now > old_maxTime maxt + ret /\ ~ (now - (maxt - 1) * ns_per_ms > ret).
Proof.
  exists 11500000000, 1999, 10000000000. unfold old_maxTime, ns_per_s, ns_per_ms. split; [lia|]. split; vm_compute; congruence.
Qed.

Lemma fold_max_ge l a : a <= fold_left Z.max l a /\ Forall (fun t => t <= fold_left Z.max l a) l.
Proof.
  revert a. induction l as [|x l IH]; intros a; simpl; [split; [lia|constructor]|].
  destruct (IH (Z.max a x)) as [H1 H2]. split; [lia|]. constructor; [lia|exact H2].
Qed.

Lemma fold_max_in l a : fold_left Z.max l a = a \/ In (fold_left Z.max l a) l.
Proof.
  revert a. induction l as [|x l IH]; intros a; simpl; auto.
  destruct (IH (Z.max a x)) as [H|H]; [|right; right; exact H].
  rewrite H. destruct (Z.max_spec a x) as [[_ E]|[_ E]]; rewrite E; auto.
Qed.

(* a young partial upload — creation time in the ULID and every object's last-modified time
   within the threshold — is never removed: for every listing outcome (complete, no times
   reported, failed before the first object, failed after k objects) *)
Lemma young_partial_never_deleted now ulid_t lms fault marked :
  now - ulid_t <= PartialUploadThresholdAge ->
  Forall (fun t => now - t <= PartialUploadThresholdAge) lms ->
  partial_deleted_listing now ulid_t lms fault marked = false.
Proof.
  intros Hu Hl. unfold partial_deleted_listing, partial_deleted.
  destruct (marked && partial_skips_marked); auto.
  apply negb_false_iff. unfold partial_young. apply Z.leb_le.
  unfold time_used. destruct fault as [k|].
  - unfold oldest_time_on_error. exact Hu.
  - cbv zeta. destruct (seen_max lms =? zero_time) eqn:E; [exact Hu|].
    apply Z.eqb_neq in E. unfold seen_max in *. destruct (fold_max_in lms zero_time) as [H|H]; [congruence|].
    rewrite Forall_forall in Hl. exact (Hl _ H).
Qed.

Lemma listing_ok_pred t now ulid_t lms marked :
  t <= now -> Forall (fun x => zero_time < x) lms ->
  partial_pred_listing now ulid_t lms marked (partial_deleted_listing t ulid_t lms None marked) = true.
Proof.
  intros Ht Hz. destruct (partial_deleted_listing t ulid_t lms None marked) eqn:E; [|reflexivity].
  unfold partial_deleted_listing in E. destruct (partial_only_after_threshold _ _ _ E) as [-> Hgt].
  unfold partial_pred_listing. simpl. unfold time_used, seen_max in Hgt. cbv zeta in Hgt.
  destruct lms as [|x r]; [cbn [fold_left] in Hgt; rewrite Z.eqb_refl in Hgt; apply Z.ltb_lt; lia|].
  destruct (fold_max_ge (x :: r) zero_time) as [_ Hall].
  assert (Hne : fold_left Z.max (x :: r) zero_time <> zero_time).
  { inversion Hz; subst. inversion Hall; subst. lia. }
  apply Z.eqb_neq in Hne. rewrite Hne in Hgt.
  apply forallb_forall. intros y Hy. rewrite Forall_forall in Hall. specialize (Hall y Hy). apply Z.ltb_lt. lia.
Qed.

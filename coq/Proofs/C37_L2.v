(* C37 — proofs, second level (structural part): the counter chunk written by
   downsampleFloatAggrBatch for a part of first-level chunks has the documented format and
   retains the part's first and last RAW values; reading the second-level chunks
   therefore stitches them like first-level chunks. *)
From Coq Require Import ZArith List Bool Lia Sorted.
Import ListNotations.
From Verif Require Import Lib.Corr Lib.ListFacts Lib.Downsample_Core Lib.Downsample_Batch Lib.Downsample_Raw
  Lib.Downsample_Windows Lib.Downsample_Aggr Lib.Downsample_Iter Lib.Downsample_Counter Gen.C37 Model.C37
  Proofs.C37.
Open Scope Z_scope.

Lemma concat_concat {A} (l : list (list (list A))) : concat (map (@concat A) l) = concat (concat l).
Proof. induction l as [|x l IH]; [reflexivity|]. cbn [map concat]. rewrite concat_app, IH. reflexivity. Qed.

(* a part of consecutive first-level batches, as downsampleAggrLoop cuts them *)
Definition part_ok (p : list (list (Z * Z))) : Prop :=
  p <> [] /\ Forall counter_batch p /\ StronglySorted Z.lt (map fst (concat p)).

Lemma parts_ok : forall parts : list (list (list (Z * Z))),
  Forall (fun p => p <> []) parts -> Forall counter_batch (concat parts) ->
  StronglySorted Z.lt (map fst (concat (concat parts))) -> Forall part_ok parts.
Proof.
  induction parts as [|p r IH]; intros Hne Hcb Hs; [constructor|].
  apply Forall_cons_iff in Hne as [Hp Hne]. cbn [concat] in Hcb, Hs. apply Forall_app in Hcb as [Hcp Hcr].
  rewrite concat_app, map_app in Hs. destruct (StronglySorted_app_inv _ _ _ Hs) as (S1 & S2 & _).
  constructor; [repeat split; assumption|apply IH; assumption].
Qed.

Lemma part_nonempty p : part_ok p -> concat p <> [] /\ last (concat p) (0, 0) = last (last p []) (0, 0).
Proof.
  intros (Hne & Hcb & _).
  assert (Hbs : Forall (fun b : list (Z * Z) => b <> []) p).
  { eapply Forall_impl; [|exact Hcb]. intros b ([H _] & _). exact H. }
  split; [|apply last_concat; assumption].
  destruct p as [|b r]; [congruence|]. apply Forall_inv in Hbs. cbn [concat]. destruct b; [congruence|discriminate].
Qed.

Section Part.
Variables res1 res2 : Z.
Hypothesis res1_pos : 0 < res1.
Hypothesis res2_pos : 0 < res2.

(* what the inner iterator of downsampleFloatAggrBatch emits for a part of first-level batches *)
Definition emitted_of (Bp : list (list (Z * Z))) : list (Z * Z) := expect None (map (q_of res1) Bp).

(* they are the part's adjusted counter at increasing timestamps, from the part's first sample
   to its last timestamp: a batch for the second level *)
Lemma emitted_facts Bp : part_ok Bp ->
  q_chain None (map (q_of res1) Bp) /\
  Forall (fun e => snd e = adj_at (concat Bp) (fst e)) (emitted_of Bp) /\
  counter_batch (emitted_of Bp) /\
  hd (0, 0) (emitted_of Bp) = hd (0, 0) (concat Bp) /\ last_t (emitted_of Bp) = last_t (concat Bp).
Proof.
  intros Hp. destruct (part_nonempty Bp Hp) as [Hdne _]. destruct Hp as (Hne & Hcb & Hs).
  destruct (stitched_exact _ _ (batches_exact res1 res1_pos Bp Hcb) Hs) as (Hch & (A & ES & _ & L) & Hl).
  fold (emitted_of Bp) in *. destruct (L Hdne) as (Hene & _). specialize (Hl Hdne).
  assert (Hhd : hd (0, 0) (emitted_of Bp) = hd (0, 0) (concat Bp)).
  { destruct Bp as [|b0 r0]; [congruence|]. apply Forall_inv in Hcb. destruct Hcb as ([Hb0 _] & _).
    destruct b0 as [|[t0 v0] b0']; [congruence|]. reflexivity. }
  assert (Hv : Forall (fun s : Z * Z => 0 <= snd s) (concat Bp)).
  { apply Forall_concat. eapply Forall_impl; [|exact Hcb]. intros b (_ & _ & H). exact H. }
  assert (Ht0 : 0 <= fst (hd (0, 0) (concat Bp))).
  { destruct Bp as [|b0 r0]; [congruence|]. apply Forall_inv in Hcb. destruct Hcb as ([Hb0 [_ Hnn]] & _).
    destruct b0 as [|s0 b0']; [congruence|]. apply Forall_inv in Hnn. exact Hnn. }
  split; [exact Hch|]. split; [exact A|]. split; [|split; [exact Hhd|exact Hl]].
  rewrite <- Hhd in Ht0. destruct (emitted_of Bp) as [|e0 E']; [congruence|]. cbn [hd] in Ht0.
  split; [split; [discriminate|split]|split].
  - apply sorted_lt_le, ES.
  - cbn [map] in ES. apply StronglySorted_inv in ES as [_ H]. constructor; [exact Ht0|].
    rewrite Forall_map in H. eapply Forall_impl; [|exact H]. intros s Hs'; cbv beta in Hs'. lia.
  - exact ES.
  - eapply Forall_impl; [|exact A]. intros s Hs'; cbv beta in Hs'. rewrite Hs'. apply adj_at_nonneg, Hv.
Qed.

Lemma part_read Bp : part_ok Bp ->
  exists fin,
    acr_run (S (length (toks_of (present k_counter (map (float_batch cw res1) Bp)))))
            (toks_of (present k_counter (map (float_batch cw res1) Bp))) acr0
    = Some (emitted_of Bp, fin) /\
    c_lastV fin = snd (last (last Bp []) (0, 0)).
Proof.
  intros Hp. destruct (emitted_facts Bp Hp) as (Hch & _). destruct Hp as (_ & Hcb & _).
  rewrite (present_counters res1 res1_pos Bp Hcb).
  pose proof (run_chunks _ Hch) as R. unfold RUN in R.
  destruct (acr_run _ _ acr0) as [[out fin]|]; [|discriminate]. injection R as -> F.
  exists fin. split; [reflexivity|]. rewrite F, map_map.
  exact (last_map (fun b => q_vl (q_of res1 b)) Bp []).
Qed.

(* the second-level counter chunk of a part, as a cchunk: format data of the re-downsampled
   emitted samples, but the LAST RAW value of the part's last first-level chunk *)
Definition q2_of (Bp : list (list (Z * Z))) : cchunk :=
  let qb := q_of res2 (emitted_of Bp) in
  mkQ (q_t0 qb) (q_v0 qb) (q_mids qb) (snd (last (last Bp []) (0, 0))).

Lemma part_chunk Bp : part_ok Bp ->
  exists k2,
    float_aggr_batch cw res2 (map (float_batch cw res1) Bp) = Some k2 /\
    k_counter k2 = Some (q_samples (q2_of Bp)) /\
    chunk_spans (q2_of Bp) (concat Bp).
Proof.
  intros Hp. destruct (part_read Bp Hp) as (fin & Erun & Efin).
  destruct (emitted_facts Bp Hp) as (_ & _ & Hecb & Ehd & Elast).
  destruct (part_nonempty Bp Hp) as [Hdne Hdl].
  destruct (q_of_ok res2 res2_pos _ Hecb) as (Hqok & Hqend & Hk & _).
  pose proof Hecb as ([Hene [Hes Henn]] & _ & _).
  pose proof (float_aggr_batch_counter cw res2 (map (float_batch cw res1) Bp)) as F.
  rewrite Erun, (expand_xor_id _ 0 Henn Hes) in F. destruct F as (k2 & Ek & Hk2).
  exists k2. split; [exact Ek|].
  (* the chunk differs from float_batch's on the emitted samples only in its last value *)
  unfold float_batch in Hk. unfold q2_of, q_samples, q_end, q_of in *. cbn [q_t0 q_v0 q_mids q_vl] in *.
  destruct (emitted_of Bp) as [|e0 erest]; [congruence|].
  destruct (downsample_batch cw res2 (e0 :: erest)) as [out lastT].
  cbn [k_counter hd fst snd] in *. injection Hk as Hh Htl. apply app_inv_head in Htl. injection Htl as HlT.
  split; [rewrite Hk2, Efin, HlT, <- Hh; reflexivity|].
  split; [exact Hqok|]. split; [exact Hdne|]. cbn [hd] in Ehd.
  split; [rewrite <- Ehd; destruct e0; reflexivity|]. split; [rewrite <- Elast; exact Hqend|].
  rewrite Hdl. reflexivity.
Qed.

End Part.

Section Level2.
Variables res1 res2 : Z.
Hypothesis res1_pos : 0 < res1.
Hypothesis res2_pos : 0 < res2.

Lemma loop_parts bs : (1 <= bs)%nat -> forall fuel batches out,
  aggr_loop cw fuel res2 bs (map (float_batch cw res1) batches) = Some out ->
  Forall counter_batch batches -> StronglySorted Z.lt (map fst (concat batches)) ->
  exists parts,
    concat parts = batches /\ Forall (fun p : list (list (Z * Z)) => p <> []) parts /\
    present k_counter out = map (fun p => q_samples (q2_of res1 res2 p)) parts.
Proof.
  intros Hb. induction fuel as [|f IH]; intros batches out E Hcb Hs.
  - destruct batches; cbn in E; [injection E as <-; exists []; repeat split; constructor|discriminate].
  - destruct batches as [|b0 r0]; [cbn in E; injection E as <-; exists []; repeat split; constructor|].
    cbn [map aggr_loop] in E.
    change (float_batch cw res1 b0 :: map (float_batch cw res1) r0) with (map (float_batch cw res1) (b0 :: r0)) in E.
    rewrite map_length in E.
    set (j := Nat.min bs (length (b0 :: r0))) in *.
    rewrite firstn_map, skipn_map in E.
    assert (Hpne : firstn j (b0 :: r0) <> []) by (destruct j eqn:Ej; [cbn [length] in j; lia|discriminate]).
    rewrite <- (firstn_skipn j (b0 :: r0)) in Hcb, Hs. apply Forall_app in Hcb as [Hc1 Hc2].
    rewrite concat_app, map_app in Hs. destruct (StronglySorted_app_inv _ _ _ Hs) as (S1 & S2 & _).
    destruct (part_chunk res1 res2 res1_pos res2_pos _ (conj Hpne (conj Hc1 S1))) as (k2 & Ek & Hk & _).
    rewrite Ek in E.
    destruct (aggr_loop cw f res2 bs (map (float_batch cw res1) (skipn j (b0 :: r0)))) as [rest|] eqn:Er; [|discriminate].
    injection E as <-. destruct (IH _ _ Er Hc2 S2) as (parts & Hcat & Hne & Hpres).
    exists (firstn j (b0 :: r0) :: parts). split; [cbn [concat]; rewrite Hcat; apply firstn_skipn|].
    split; [constructor; assumption|].
    unfold present in *. cbn [flat_map map]. rewrite Hk, Hpres. reflexivity.
Qed.

(* Level 2 (structure): the 1h counter chunks keep, per part of 5m chunks, the part's first
   raw sample and last raw value in the documented format and are time-ordered; reading them
   therefore yields the stitched values *)
Lemma level2_structure nc1 nc2 data l1 l2 :
  valid_counter res1 data ->
  level1 res1 nc1 data = Some l1 -> level2 res2 nc2 l1 = Some l2 ->
  exists batches parts,
    l1 = map (float_batch cw res1) batches /\ concat batches = keep_nonnan data /\
    concat parts = batches /\ Forall (fun p : list (list (Z * Z)) => p <> []) parts /\
    present k_counter l2 = map (fun p => q_samples (q2_of res1 res2 p)) parts /\
    q_chain None (map (q2_of res1 res2) parts) /\
    read_counter l2 = Some (expect None (map (q2_of res1 res2) parts)) /\
    Forall counter_batch batches /\ seps cw res1 batches.
Proof.
  intros Hv E1 E2. pose proof Hv as (_ & Hstrict & _). apply keep_nonnan_sorted_lt in Hstrict.
  destruct (level1_structure res1 res1_pos nc1 data Hv) as (batches & E1' & Hcat & Hcb & Hsep).
  rewrite E1 in E1'. injection E1' as ->. rewrite <- Hcat in Hstrict.
  unfold level2, downsample_aggr in E2.
  destruct (loop_parts _ (Nat.le_max_r (length (map (float_batch cw res1) batches) / nc2) 1) _ _ _ E2 Hcb Hstrict)
    as (parts & Hcp & Hne & Hpres).
  exists batches, parts. split; [reflexivity|]. split; [exact Hcat|]. split; [exact Hcp|]. split; [exact Hne|].
  split; [exact Hpres|].
  assert (Hch : q_chain None (map (q2_of res1 res2) parts)).
  { rewrite <- Hcp in Hcb, Hstrict. apply (chunks_chain _ (map (@concat _) parts)); [|rewrite concat_concat; exact Hstrict|exact I].
    apply Forall2_maps. eapply Forall_impl; [|exact (parts_ok parts Hne Hcb Hstrict)].
    intros p Hp. destruct (part_chunk res1 res2 res1_pos res2_pos p Hp) as (_ & _ & _ & H). exact H. }
  split; [exact Hch|]. split; [|split; assumption].
  apply read_counter_chunks; [|exact Hch]. rewrite Hpres. symmetry. apply map_map.
Qed.

End Level2.

(* C26 — every level of the translation (labels, exemplars, series, request)
   equals its specification guarded by one range check over the references
   below it; the properties of [translate] and [handle_v2] are read off that. *)
From Coq Require Import ZArith NArith List Bool Lia String.
Import ListNotations.
From Verif Require Import Lib.Corr Lib.ListFacts Gen.C26 Model.C26.
Open Scope Z_scope.

(* tie T: what the current source does, by computation on Gen/C26.v: v2Labels
   checks every reference before any lookup and translateV2ToV1 reaches the
   table only through it; a failed translation is answered with a 4xx; the v2
   path reads no handler field and no package variable. *)
Lemma refs_are_checked : refs_checked = true.
Proof. vm_compute. reflexivity. Qed.

Lemma v2_path_is_stateless : v2_path_stateless = true.
Proof. vm_compute. reflexivity. Qed.

Lemma bad_ref_status_is_client_error : 400 <= v2_bad_ref_status < 500.
Proof. unfold v2_bad_ref_status. lia. Qed.

(* the i += 2 loop of v2Labels resolves the j-th pair of references *)
Lemma spec_labels_step : forall symbols a b r,
  spec_labels symbols (a :: b :: r) = (sym symbols a, sym symbols b) :: spec_labels symbols r.
Proof.
  intros symbols a b r. unfold spec_labels.
  cbn [List.length Nat.div2]. cbn [seq map].
  f_equal. rewrite <- seq_shift, map_map. apply map_ext. intro j.
  replace (2 * S j)%nat with (S (S (2 * j))) by lia. reflexivity.
Qed.

(* both sides step by two references: the statement is carried for the list
   and for the list with one more reference in front *)
Lemma pair_up_spec : forall symbols refs, pair_up symbols refs = spec_labels symbols refs.
Proof.
  intros symbols.
  enough (H : forall refs, pair_up symbols refs = spec_labels symbols refs
                 /\ forall a, pair_up symbols (a :: refs) = spec_labels symbols (a :: refs))
    by (intro refs; apply H).
  induction refs as [|b r [IH1 IH2]]; [split; reflexivity|].
  split; [apply IH2|]. intro a. cbn [pair_up]. rewrite spec_labels_step, IH1. reflexivity.
Qed.

Lemma v2_labels_eq : forall symbols refs,
  v2_labels symbols refs
  = if forallb (in_range symbols) refs then Some (spec_labels symbols refs) else None.
Proof. intros symbols refs. unfold v2_labels. rewrite pair_up_spec. reflexivity. Qed.

Lemma tr_exemplars_eq : forall symbols es,
  tr_exemplars symbols es
  = if forallb (in_range symbols) (flat_map (fun e => fst (fst e)) es)
    then Some (map (fun e => match e with (r, v, t) => (spec_labels symbols r, v, t) end) es)
    else None.
Proof.
  intros symbols es. induction es as [|[[refs v] t] es IH]; [reflexivity|].
  cbn [tr_exemplars flat_map fst map]. rewrite forallb_app, v2_labels_eq, IH.
  destruct (forallb (in_range symbols) refs); [|reflexivity].
  destruct (forallb _ _); reflexivity.
Qed.

Lemma tr_series_eq : forall symbols s,
  tr_series symbols s
  = if forallb (in_range symbols) (series_refs s) then Some (spec_series symbols s) else None.
Proof.
  intros symbols [[[refs samples] exemplars] hists]. cbn [tr_series series_refs spec_series].
  rewrite forallb_app, v2_labels_eq, tr_exemplars_eq.
  destruct (forallb (in_range symbols) refs); [|reflexivity].
  destruct (forallb _ _); reflexivity.
Qed.

Lemma translate_eq : forall symbols ss,
  translate symbols ss
  = if forallb (in_range symbols) (all_refs ss) then Some (map (spec_series symbols) ss) else None.
Proof.
  intros symbols ss. induction ss as [|s ss IH]; [reflexivity|].
  cbn [translate all_refs flat_map map]. fold (all_refs ss). rewrite forallb_app, tr_series_eq, IH.
  destruct (forallb (in_range symbols) (series_refs s)); [|reflexivity].
  destruct (forallb (in_range symbols) (all_refs ss)); reflexivity.
Qed.

Lemma in_range_all : forall symbols refs,
  forallb (in_range symbols) refs = true <-> Forall (fun r => (r < N.of_nat (List.length symbols))%N) refs.
Proof.
  intros symbols refs. rewrite forallb_forall, Forall_forall.
  split; intros H r Hin; apply N.ltb_lt, H, Hin.
Qed.

Lemma translate_faithful : forall symbols ss out, translate symbols ss = Some out ->
  out = map (spec_series symbols) ss /\ Forall (fun r => (r < N.of_nat (List.length symbols))%N) (all_refs ss).
Proof.
  intros symbols ss out H. rewrite translate_eq in H.
  destruct (forallb (in_range symbols) (all_refs ss)) eqn:Hr; [|discriminate].
  inversion H. split; [reflexivity|]. apply in_range_all, Hr.
Qed.

Lemma translate_accepts : forall symbols ss,
  Forall (fun r => (r < N.of_nat (List.length symbols))%N) (all_refs ss) ->
  translate symbols ss = Some (map (spec_series symbols) ss).
Proof. intros symbols ss H. apply in_range_all in H. rewrite translate_eq, H. reflexivity. Qed.

Lemma translate_rejects : forall symbols ss r, In r (all_refs ss) ->
  (N.of_nat (List.length symbols) <= r)%N -> translate symbols ss = None.
Proof.
  intros symbols ss r Hin Hr. rewrite translate_eq.
  destruct (forallb (in_range symbols) (all_refs ss)) eqn:Hall; [|reflexivity].
  apply (proj1 (forallb_forall _ _) Hall), N.ltb_lt in Hin. lia.
Qed.

Lemma str_eqb_refl : forall s, str_eqb s s = true.
Proof. exact bytes_eqb_refl. Qed.
Lemma label_eqb_refl : forall l, label_eqb l l = true.
Proof. intros [a b]. unfold label_eqb. cbn. rewrite !str_eqb_refl. reflexivity. Qed.
Lemma cnt_eqb_refl : forall c, cnt_eqb c c = true.
Proof. intros [[b n]|]; cbn; [|reflexivity]. rewrite Bool.eqb_reflx, N.eqb_refl. reflexivity. Qed.
Lemma span_eqb_refl : forall s, span_eqb s s = true.
Proof. intros [a b]. unfold span_eqb. cbn. rewrite Z.eqb_refl, N.eqb_refl. reflexivity. Qed.
Lemma sample_eqb_refl : forall s, sample_eqb s s = true.
Proof. intros [a b]. unfold sample_eqb. cbn. rewrite Z.eqb_refl, N.eqb_refl. reflexivity. Qed.
Lemma hist_eqb_refl : forall h, hist_eqb h h = true.
Proof.
  intros [[[[[[[[[[[[[c s] sc] zt] zc] ns] nd] nc] ps] pd] pc] r] t] cu]. unfold hist_eqb.
  rewrite !cnt_eqb_refl, !N.eqb_refl, !Z.eqb_refl,
    !(list_eqb_refl span_eqb span_eqb_refl), !(list_eqb_refl Z.eqb Z.eqb_refl), !bytes_eqb_refl.
  reflexivity.
Qed.
Lemma v1exemplar_eqb_refl : forall e, v1exemplar_eqb e e = true.
Proof.
  intros [[l v] t]. unfold v1exemplar_eqb.
  rewrite (list_eqb_refl label_eqb label_eqb_refl), N.eqb_refl, Z.eqb_refl. reflexivity.
Qed.
Lemma v1series_eqb_refl : forall s, v1series_eqb s s = true.
Proof.
  intros [[[l s] e] h]. unfold v1series_eqb.
  rewrite (list_eqb_refl label_eqb label_eqb_refl), (list_eqb_refl sample_eqb sample_eqb_refl),
    (list_eqb_refl v1exemplar_eqb v1exemplar_eqb_refl), (list_eqb_refl hist_eqb hist_eqb_refl).
  reflexivity.
Qed.

Lemma handle_v2_pred : forall symbols ss,
  req_pred_ok (CV2 symbols ss false (fst (handle_v2 symbols ss)) (snd (handle_v2 symbols ss))) = true.
Proof.
  intros symbols ss. unfold handle_v2. rewrite translate_eq.
  destruct (forallb (in_range symbols) (all_refs ss)) eqn:Hr; cbn [req_pred_ok fst snd negb andb]; rewrite Hr.
  - exact (list_eqb_refl v1series_eqb v1series_eqb_refl _).
  - destruct bad_ref_status_is_client_error as [H1%Z.leb_le H2%Z.ltb_lt]. rewrite H1, H2. reflexivity.
Qed.

Lemma history_is_pointwise : forall pre r post,
  nth (List.length pre) (handle_history (pre ++ r :: post)) (0, []) = handle_v2 (fst r) (snd r).
Proof.
  intros pre r post. unfold handle_history. rewrite map_app. cbn [map].
  rewrite app_nth2 by (rewrite map_length; lia). rewrite map_length, Nat.sub_diag. reflexivity.
Qed.

Lemma history_pred : forall reqs,
  pred_ok (CHist (map (fun r => CV2 (fst r) (snd r) false (fst (handle_v2 (fst r) (snd r))) (snd (handle_v2 (fst r) (snd r)))) reqs)) = true.
Proof.
  intro reqs. cbn [pred_ok]. rewrite forallb_forall. intros c Hin. apply in_map_iff in Hin as [r [<- _]].
  apply handle_v2_pred.
Qed.

(* the lookup as it was before the repair: an unchecked slice index, modelled
   with nth_error (None = Go's index-out-of-range panic) *)
Fixpoint pair_up_unchecked (symbols : list str) (refs : list N) : option (list label) :=
  match refs with
  | a :: b :: r =>
      match nth_error symbols (N.to_nat a), nth_error symbols (N.to_nat b), pair_up_unchecked symbols r with
      | Some x, Some y, Some l => Some ((x, y) :: l)
      | _, _, _ => None
      end
  | _ => Some []
  end.

Lemma unchecked_lookup_undefined :
  pair_up_unchecked [[97%N]] [0%N; 1%N] = None /\ v2_labels [[97%N]] [0%N; 1%N] = None.
Proof. vm_compute. split; reflexivity. Qed.

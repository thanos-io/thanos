(* C14 — truthful caches, and GetRange: through the caching bucket it answers like the
   underlying bucket and keeps the cache truthful. *)
From Coq Require Import ZArith NArith List Bool Lia.
Import ListNotations.
From Verif Require Import Lib.Corr Gen.C14 Model.C14 Proofs.C14 Proofs.C14_merge.
Open Scope Z_scope.

(* every cache entry tells the truth about the immutable world *)
Definition entry_ok (w : world) (listing : N -> bool -> list N) (k : key) (v : cval) : Prop :=
  match k with
  | KSub n s e => exists obj, find_obj w n = Some obj /\ v = VBytes (slice obj s e)
  | KAttr n => exists obj, find_obj w n = Some obj /\ v = VSize (blen obj)
  | KExists n => v = VBool (match find_obj w n with Some _ => true | None => false end)
  | KContent n => exists obj, find_obj w n = Some obj /\ v = VBytes obj
  | KIter d r => v = VList (listing d r)
  end.

Definition cache_ok (w : world) (listing : N -> bool -> list N) (c : cache) : Prop :=
  forall k v, lookup c k = Some v -> entry_ok w listing k v.

Lemma cache_ok_nil w listing : cache_ok w listing [].
Proof. intros k v H. discriminate. Qed.

Lemma cache_ok_store w listing c k v :
  cache_ok w listing c -> entry_ok w listing k v -> cache_ok w listing (store c k v).
Proof.
  intros Hc He k' v' H. rewrite lookup_store in H. destruct (key_eqb k' k) eqn:E.
  - apply key_eqb_eq in E. subst k'. inversion H; subst. exact He.
  - apply Hc. exact H.
Qed.

(* an operation answers r and leaves the cache truthful *)
Definition answers w listing (x : outcome * cache) (r : result) : Prop :=
  fst (fst (fst x)) = r /\ cache_ok w listing (snd x).

Lemma fetch_ok w listing c hits k v : cache_ok w listing c -> fetch c hits k = Some v -> entry_ok w listing k v.
Proof. intros Hc H. apply Hc, fetch_some with hits, H. Qed.

Lemma offsets_from_in S0 : forall n start k, 0 <= k < Z.of_nat n -> In (start + k * S0) (offsets_from n start S0).
Proof.
  induction n as [|n IH]; intros start k Hk; [lia|]. cbn [offsets_from].
  destruct (Z.eq_dec k 0) as [->|Hne]; [left; lia|]. right.
  replace (start + k * S0) with ((start + S0) + (k - 1) * S0) by ring. apply IH. lia.
Qed.

Lemma offsets_from_length S0 n start : length (offsets_from n start S0) = n.
Proof. revert start. induction n; intro start; simpl; [reflexivity|]. rewrite IHn. reflexivity. Qed.

Lemma offsets_from_form S0 : forall n start x, In x (offsets_from n start S0) -> exists k, 0 <= k < Z.of_nat n /\ x = start + k * S0.
Proof.
  induction n as [|n IH]; intros start x H; [contradiction|]. cbn [offsets_from] in H.
  destruct H as [<-|H]; [exists 0; lia|]. destruct (IH _ _ H) as (k & Hk & ->). exists (k + 1). split; [lia|ring].
Qed.

Lemma hget_in h : forall o b, hget h o = Some b -> In (o, b) h.
Proof.
  induction h as [|[o' b'] h IH]; intros o b H; [discriminate|]. simpl in H.
  destruct (Z.eqb_spec o' o) as [->|]; [left; congruence|right; apply IH, H].
Qed.

Lemma in_hget h : forall o b, In (o, b) h -> hget h o <> None.
Proof.
  induction h as [|[o' b'] h IH]; intros o b H; [contradiction|]. simpl.
  destruct (Z.eqb_spec o' o) as [|Hne]; [discriminate|].
  destruct H as [H|H]; [congruence|apply (IH _ _ H)].
Qed.

(* a flat_map of lists of at most one element that is as long as its input skipped nothing *)
Lemma flat_map_full {A B} (f : A -> list B) : (forall x, (length (f x) <= 1)%nat) ->
  forall l, (length l <= length (flat_map f l))%nat -> forall x, In x l -> f x <> [].
Proof.
  intros Hf. induction l as [|a l IH]; intros Hl x Hx; [contradiction|].
  simpl in Hl. rewrite app_length in Hl.
  assert (Hfl : (length (flat_map f l) <= length l)%nat).
  { clear - Hf. induction l as [|b l IH]; simpl; [lia|]. rewrite app_length. specialize (Hf b). lia. }
  pose proof (Hf a) as Ha.
  destruct Hx as [->|Hx].
  - intro E. rewrite E in Hl. simpl in Hl. lia.
  - apply IH; [lia|exact Hx].
Qed.

Section GetRange.
Variable w : world.
Variable listing : N -> bool -> list N.
Variable name : N.
Variable obj : bytes.
Hypothesis Hobj : find_obj w name = Some obj.
Variable Sz : Z.
Hypothesis HS : 0 < Sz.
Let size := blen obj.

(* the subranges found in the cache; the result type is left to be inferred as in get_range,
   so that the equation of [fetch_phase_ok] rewrites in the unfolded model *)
Definition hit (c : cache) (hits : list key) (off : Z) :=
  match fetch c hits (KSub name off (subrange_end off Sz size)) with
  | Some (VBytes (x :: b)) => [(off, x :: b)]
  | _ => []
  end.

Definition h0_of (c : cache) (hits : list key) (offs : list Z) : hmap := flat_map (hit c hits) offs.

Lemma hit_cases c hits off :
  hit c hits off = []
  \/ exists b, hit c hits off = [(off, b)] /\ fetch c hits (KSub name off (subrange_end off Sz size)) = Some (VBytes b).
Proof.
  unfold hit. destruct (fetch c hits _) as [[[|x b]| | |]|]; auto. right. exists (x :: b). auto.
Qed.

Lemma h0_ok c hits offs : cache_ok w listing c -> H_ok obj Sz (h0_of c hits offs).
Proof.
  intros Hc off b H. apply hget_in, in_flat_map in H. destruct H as (o & _ & Hin).
  destruct (hit_cases c hits o) as [E|(b' & E & Ef)]; rewrite E in Hin; [contradiction|].
  destruct Hin as [Hin|[]]. inversion Hin; subst o b'.
  destruct (fetch_ok _ _ _ _ _ _ Hc Ef) as (obj' & Ho' & Hv).
  rewrite Hobj in Ho'. inversion Ho'; subst obj'. inversion Hv. reflexivity.
Qed.

(* when as many subranges were found as were asked for, none is missing *)
Lemma h0_full c hits offs : (length offs <= length (h0_of c hits offs))%nat ->
  forall o, In o offs -> hget (h0_of c hits offs) o <> None.
Proof.
  intros Hl o Ho.
  assert (H1 : forall x, (length (hit c hits x) <= 1)%nat).
  { intro x. destruct (hit_cases c hits x) as [E|(b & E & _)]; rewrite E; simpl; lia. }
  pose proof (flat_map_full _ H1 offs Hl o Ho) as Hne.
  destruct (hit_cases c hits o) as [E|(b & E & _)]; [contradiction|].
  apply (in_hget _ o b), in_flat_map. exists o. rewrite E. simpl. auto.
Qed.

Definition missing_of (h0 : hmap) (offs : list Z) : list rng :=
  flat_map (fun off => match hget h0 off with None => [(off, off + Sz)] | Some _ => [] end) offs.

Lemma missing_chain ks ke h0 : forall n k0, ks <= k0 -> k0 + Z.of_nat n <= ke ->
  chain Sz ks ke (k0 * Sz) (missing_of h0 (offsets_from n (k0 * Sz) Sz))
  /\ forall k, k0 <= k < k0 + Z.of_nat n -> hget h0 (k * Sz) = None ->
       covered (missing_of h0 (offsets_from n (k0 * Sz) Sz)) (k * Sz).
Proof.
  induction n as [|n IH]; intros k0 H1 H2.
  - simpl. split; [exact I|]. intros k Hk. lia.
  - cbn [offsets_from]. unfold missing_of. cbn [flat_map]. fold (missing_of h0).
    replace (k0 * Sz + Sz) with ((k0 + 1) * Sz) by ring.
    destruct (IH (k0 + 1)) as (C1 & C2); try lia.
    destruct (hget h0 (k0 * Sz)) eqn:E; simpl app.
    + split.
      * eapply chain_weaken; [exact C1|lia].
      * intros k Hk Hn. destruct (Z.eq_dec k k0) as [->|Hne]; [congruence|]. apply C2; [lia|exact Hn].
    + split.
      * simpl. split; [lia|]. split; [|exact C1].
        exists k0, (k0 + 1). simpl. repeat split; lia.
      * intros k Hk Hn. destruct (Z.eq_dec k k0) as [->|Hne].
        -- apply Exists_cons_hd. simpl. lia.
        -- apply Exists_cons_tl. apply C2; [lia|exact Hn].
Qed.

(* The fetch phase of cachedGetRange over the window of subranges ks .. ke-1: afterwards every
   subrange of the window is in memory and is the object's, whether it came from the cache
   or from the merged requests to the bucket. *)
Lemma fetch_phase_ok c hits M ks ke :
  cache_ok w listing c -> 0 <= ks -> ks < ke -> (ke - 1) * Sz < size ->
  let offs := offsets_from (Z.to_nat (ke - ks)) (ks * Sz) Sz in
  let h0 := h0_of c hits offs in
  exists h st calls,
    (if Z.of_nat (length h0) <? Z.of_nat (length offs)
     then match merge_loop (S (length offs)) (merge_ranges (missing_of h0 offs) 0) Sz M with
          | None => None
          | Some merged =>
              match fetch_all obj Sz ((ke - 1) * Sz) (Z.min (ke * Sz) size - (ke - 1) * Sz) offs merged h0 [] with
              | None => None
              | Some (h, st) => Some (h, st, map (fun m : rng => (fst m, snd m - fst m)) merged)
              end
          end
     else Some (h0, [], [])) = Some (h, st, calls)
    /\ st_ok obj Sz st
    /\ forall k, ks <= k < ke -> hget h (k * Sz) = Some (sub_of obj Sz (k * Sz)).
Proof.
  intros Hc Hks Hke Hlast offs h0.
  assert (Hknown : forall k, ks <= k < ke -> In (k * Sz) offs).
  { intros k Hk. replace (k * Sz) with (ks * Sz + (k - ks) * Sz) by ring. apply offsets_from_in. lia. }
  pose proof (h0_ok c hits offs Hc) as Hh0. fold h0 in Hh0.
  destruct (Z.ltb_spec (Z.of_nat (length h0)) (Z.of_nat (length offs))) as [Elt|Elt].
  - destruct (missing_chain ks ke h0 (Z.to_nat (ke - ks)) ks (Z.le_refl _) ltac:(lia)) as (M1 & M2).
    fold offs in M1, M2. replace (length offs) with (Z.to_nat (ke - ks)) by (symmetry; apply offsets_from_length).
    destruct (merge_pipeline_ok Sz ks ke M _ _ HS M1) as (merged & -> & G2 & G3 & _).
    destruct (fetch_all_ok obj Sz ks ke HS Hks Hlast offs Hknown merged _ h0 [] G2 Hh0 (Forall_nil _))
      as (h & st & F1 & _ & F3 & F4 & F5).
    fold size in F1. rewrite F1.
    exists h, st, (map (fun m : rng => (fst m, snd m - fst m)) merged).
    split; [reflexivity|]. split; [exact F3|].
    intros k Hk. destruct (hget h0 (k * Sz)) as [b|] eqn:E0.
    + apply F4. rewrite E0. f_equal. apply Hh0, E0.
    + apply F5, G3, M2; [lia|exact E0].
  - exists h0, [], []. split; [reflexivity|]. split; [constructor|].
    intros k Hk. destruct (hget h0 (k * Sz)) as [b|] eqn:E0; [f_equal; apply Hh0, E0|].
    destruct (h0_full c hits offs (proj2 (Nat2Z.inj_le _ _) Elt) (k * Sz) (Hknown k Hk) E0).
Qed.

Lemma fold_store_ok (st : list (Z * bytes)) : forall c,
  cache_ok w listing c -> st_ok obj Sz st ->
  cache_ok w listing (fold_left (fun c (p : Z * bytes) => store c (KSub name (fst p) (subrange_end (fst p) Sz size)) (VBytes (snd p))) st c).
Proof.
  induction st as [|[o b] st IH]; intros c Hc Hst; [exact Hc|].
  inversion Hst as [|? ? Hb Hr]; subst. simpl in Hb. simpl fold_left. apply IH; [|exact Hr].
  apply cache_ok_store; [exact Hc|]. exists obj. split; [exact Hobj|]. rewrite Hb. reflexivity.
Qed.

End GetRange.

Lemma cached_attributes_ok w listing c hits name :
  cache_ok w listing c ->
  let '(osz, c1, st) := cached_attributes w c hits name in
  cache_ok w listing c1 /\
  match find_obj w name with Some o => osz = Some (blen o) | None => osz = None end.
Proof.
  intro Hc. unfold cached_attributes.
  destruct (fetch c hits (KAttr name)) as [[b|z|b|l]|] eqn:E;
    try (destruct (find_obj w name) as [o|] eqn:Eo;
         [split; [apply cache_ok_store; [exact Hc|simpl; exists o; auto]|reflexivity] | split; [exact Hc|reflexivity]]).
  destruct (fetch_ok _ _ _ _ _ _ Hc E) as (o & Ho & Hv). inversion Hv; subst.
  rewrite Ho. split; [exact Hc|reflexivity].
Qed.

Lemma get_range_ok g w listing c hits name off len :
  0 < c_S g -> 0 <= off -> 0 < len -> cache_ok w listing c ->
  answers w listing (get_range g w c hits name off len) (reference w (OGetRange name off len) []).
Proof.
  intros HS Hoff Hlen Hc.
  unfold get_range, reference. rewrite orb_false_intro by lia.
  pose proof (cached_attributes_ok w listing c hits name Hc) as Ha.
  destruct (cached_attributes w c hits name) as [[osz c1] st1]. destruct Ha as (Hc1 & Hosz).
  destruct (find_obj w name) as [obj|] eqn:Hobj; subst osz; [|split; [reflexivity|exact Hc1]].
  set (Sz := c_S g) in *. pose proof (blen_nonneg obj) as Hsize.
  unfold past_end_cond. destruct (Z.geb_spec off (blen obj)); [split; [reflexivity|exact Hc1]|].
  (* the clamped length, then the window ks .. ke-1 of subranges that holds the request *)
  set (len' := if clamp_cond off len (blen obj) then clamped_length off (blen obj) else len).
  assert (L : 0 < len' /\ off + len' = Z.min (off + len) (blen obj)).
  { unfold len', clamp_cond, clamped_length. destruct (Z.gtb_spec (off + len) (blen obj)); lia. }
  destruct (end_range_aligned Sz HS off len' ltac:(lia)) as (ke & -> & W).
  set (ks := Z.quot off Sz). change (start_range off Sz) with (ks * Sz).
  pose proof (quot_bounds Sz HS off Hoff) as Wq. fold ks in Wq.
  assert (W1 : 0 <= ks) by (apply Z.quot_pos; lia).
  assert (W2 : ks < ke) by (apply (aligned_lt Sz HS); lia).
  destruct (last_subrange Sz ke (blen obj) Hsize ltac:(lia)) as [-> ->].
  unfold sub_offsets. rewrite subrange_count by lia.
  destruct (fetch_phase_ok w listing name obj Hobj Sz HS c1 hits (c_M g) ks ke Hc1 W1 W2 ltac:(lia))
    as (h & st & calls & Hf & Hst & Htot).
  unfold h0_of, hit, missing_of in Hf. rewrite Hf. cbn [fst snd].
  split.
  - rewrite (read_loop_ok obj Sz HS h ks ke Htot W1) by (rewrite ?offsets_from_length; fold ks; lia).
    rewrite under_get_range_slice by lia. simpl. do 2 f_equal. lia.
  - apply (fold_store_ok w listing name obj Hobj Sz); assumption.
Qed.

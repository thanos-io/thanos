(* C16 — the invariant of the lazy-reader transition system of Model/C16.v (lock words,
   reader field, handle bookkeeping, one assertion per program counter), what follows from
   it for every reachable configuration, and the sequential runs of the correspondence. *)
From Coq Require Import ZArith List Bool String Arith Lia.
Import ListNotations.
From Verif Require Import Lib.Corr Gen.C16 Model.C16.
Close Scope Z_scope.

Fixpoint cnt (f : pc -> bool) (l : list pc) : nat :=
  match l with [] => 0 | p :: r => (if f p then 1 else 0) + cnt f r end.

Lemma cnt_app f l r : cnt f (l ++ r) = cnt f l + cnt f r.
Proof. induction l as [|a l IH]; simpl; [reflexivity|]. rewrite IH. lia. Qed.

Lemma cnt_zero_forall f l : cnt f l = 0 -> Forall (fun p => f p = false) l.
Proof.
  induction l as [|a l IH]; simpl; intros H; constructor.
  - destruct (f a); [simpl in H; lia|reflexivity].
  - apply IH. destruct (f a); simpl in H; lia.
Qed.

Lemma cnt_repeat_idle f n : f Idle = false -> cnt f (repeat Idle n) = 0.
Proof. intros H. induction n; simpl; [reflexivity|]. rewrite H, IHn. reflexivity. Qed.

Lemma cnt_in_pos f l p : In p l -> f p = true -> 1 <= cnt f l.
Proof.
  induction l as [|a l IH]; simpl; intros Hin Hf; [contradiction|].
  destruct Hin as [E|Hin].
  - subst. rewrite Hf. lia.
  - specialize (IH Hin Hf). lia.
Qed.

Lemma cnt_middle f l p r : cnt f (l ++ p :: r) = cnt f (p :: l ++ r).
Proof. simpl. rewrite !cnt_app. simpl. lia. Qed.

Lemma Forall_middle {A} (P : A -> Prop) l p r : Forall P (l ++ p :: r) <-> Forall P (p :: l ++ r).
Proof. rewrite Forall_cons_iff, !Forall_app, Forall_cons_iff. tauto. Qed.

Definition rd_open (r : option nat) (cl : list nat) : Prop :=
  match r with Some h => is_closed h cl = false | None => True end.

(* a Reader method returns the answer of an open handle, the latched load error,
   or errUnloadedWhileLoading *)
Definition lookup_res (x : res) : Prop :=
  match x with ROk _ b => b = false | RErr ELoad | RErr EUnloaded => True | _ => False end.
Definition unload_res (x : res) : Prop :=
  match x with RNil | RErr ENotIdle | RErr EClose => True | _ => False end.
Definition good_res (x : res) : Prop :=
  match x with RPanic | RUAC _ => False | ROk _ b => b = false | _ => True end.

Definition err_ok (e : option errk) : Prop :=
  match e with None | Some ELoad => True | _ => False end.

(* what a thread at p may rely on, whatever the other threads do *)
Definition pc_ok (r : option nat) (cl : list nat) (p : pc) : Prop :=
  match p with
  | L_Touch | L_UseRead => r <> None
  | L_UseCall h => r = Some h
  | L_Check2 | U_CheckNil _ => rd_open r cl
  | L_Create => r = None
  | L_Unlock e => rd_open r cl /\ err_ok e
  | L_RLock2 e | L_Recheck e => err_ok e
  | U_CheckIdle _ | U_Close => rd_open r cl /\ r <> None
  | U_SetNil => exists h, r = Some h /\ is_closed h cl = true
  | U_Unlock x => rd_open r cl /\ unload_res x
  | L_RUnlockEnd x => lookup_res x
  | Done x => good_res x
  | Dangling _ => False
  | _ => True
  end.

Definition live (r : option nat) (cl : list nat) : nat :=
  match r with Some h => if is_closed h cl then 0 else 1 | None => 0 end.

(* the bookkeeping of handles: closed and current handles are below the next one,
   and every handle handed out is closed or the current one; it changes only at
   the three steps that create, close or drop a BinaryReader *)
Definition hs (r : option nat) (cl : list nat) (nh : nat) : Prop :=
  Forall (fun h => h < nh) cl /\ (forall h, r = Some h -> h < nh) /\ nh = List.length cl + live r cl.

Lemma is_closed_lt h nh cl : Forall (fun x => x < nh) cl -> nh <= h -> is_closed h cl = false.
Proof.
  intros H Hle. induction H as [|a cl Ha _ IH]; simpl; [reflexivity|].
  rewrite IH, orb_false_r. apply Nat.eqb_neq. lia.
Qed.

Lemma is_closed_cons h a cl : is_closed h (a :: cl) = (h =? a) || is_closed h cl.
Proof. reflexivity. Qed.

Lemma hs_fresh r cl nh : hs r cl nh -> is_closed nh cl = false.
Proof. intros [H _]. exact (is_closed_lt _ _ _ H (le_n _)). Qed.

Lemma hs_load cl nh : hs None cl nh -> hs (Some nh) cl (S nh).
Proof.
  intros H. pose proof (hs_fresh _ _ _ H) as Hf. destruct H as (H1 & _ & H3).
  unfold hs, live in *. rewrite Hf. repeat split; [|intros h [= <-]|]; try lia.
  eapply Forall_impl; [|exact H1]. simpl. lia.
Qed.

Lemma hs_close h cl nh : is_closed h cl = false -> hs (Some h) cl nh -> hs (Some h) (h :: cl) nh.
Proof.
  intros Hc (H1 & H2 & H3). unfold hs, live in *.
  rewrite is_closed_cons, Nat.eqb_refl. rewrite Hc in H3. simpl. repeat split; auto; lia.
Qed.

Lemma hs_drop h cl nh : is_closed h cl = true -> hs (Some h) cl nh -> hs None cl nh.
Proof.
  intros Hc (H1 & H2 & H3). unfold hs, live in *. rewrite Hc in H3.
  repeat split; auto. discriminate.
Qed.

Record Inv (s : shared) (ts : list pc) : Prop := mkInv {
  inv_r : readers s = cnt holdsR ts;
  inv_w : (if writer s then 1 else 0) = cnt holdsW ts;
  inv_x : writer s = true -> readers s = 0;
  inv_open : writer s = false -> rd_open (rd s) (closed s);
  inv_hs : hs (rd s) (closed s) (nexth s);
  inv_loads : loads s = nexth s + loadfails s;
  inv_unloads : unloads s = List.length (closed s) + unloadfails s;
  inv_pc : Forall (pc_ok (rd s) (closed s)) ts }.

Lemma Inv_middle s l p r : Inv s (l ++ p :: r) <-> Inv s (p :: l ++ r).
Proof.
  split; intros [Hr Hw Hx Hopen Hh Hl Hu Hpc]; constructor; auto;
    rewrite ?cnt_middle in *; auto; apply Forall_middle; exact Hpc.
Qed.

Lemma pc_ok_free r cl r' cl' p :
  holdsR p = false -> holdsW p = false -> pc_ok r cl p -> pc_ok r' cl' p.
Proof. destruct p; simpl; intros; try discriminate; auto. Qed.

Lemma others_free r cl r' cl' l :
  cnt holdsR l = 0 -> cnt holdsW l = 0 ->
  Forall (pc_ok r cl) l -> Forall (pc_ok r' cl') l.
Proof.
  intros HR HW H. apply cnt_zero_forall in HR, HW. rewrite Forall_forall in *.
  intros p Hin. apply (pc_ok_free r cl); auto.
Qed.

(* case analysis on everything a step inspects: lock words, flags, options, the
   operation started, the result returned *)
Local Ltac guards H :=
  repeat (simpl in H; match type of H with
  | context [?a || _] => destruct a
  | context [?n =? 0] => destruct n
  | context [start ?o] => destruct o
  | context [match ?x with Some _ => _ | None => _ end] => destruct x
  | context [is_some ?r] => destruct r
  | context [if ?b then _ else _] => destruct b eqn:?
  | context [match ?x with ROk _ _ => _ | _ => _ end] => destruct x as [? []| | | | |]
  end).

(* One step of the first thread. The stepping thread knows: holding the read
   lock, that no writer is active (so the reader field is open); holding the
   write lock, that nobody else holds any lock, so that the assertions of the
   others do not mention the reader field (others_free). After the case analysis
   the lock words and the assertions of most steps are those of the state before;
   the bullets are the steps where something is to be shown. *)
Lemma step_head c s p s' p' o :
  Inv s (p :: o) -> tstep false c s p = Some (s', p') -> Inv s' (p' :: o).
Proof.
  intros [Hr Hw Hx Hopen Hh Hl Hu Hpc] Hs. apply Forall_cons_iff in Hpc as [Hp Ho].
  destruct s as [n w r e u nh cl lo lf un uf]. simpl in Hr, Hw, Hx, Hopen, Hh, Hl, Hu, Hp, Ho.
  assert (HR : holdsR p = true -> w = false /\ 1 <= n).
  { intros E. rewrite E in Hr. destruct w; [specialize (Hx eq_refl)|]; split; (reflexivity || lia). }
  assert (HW : holdsW p = true -> w = true /\ n = 0 /\ forall r' cl', Forall (pc_ok r' cl') o).
  { intros E. rewrite E in Hw. destruct w; [specialize (Hx eq_refl)|discriminate].
    repeat split; [assumption|]. intros. apply (others_free r cl); [lia|lia|assumption]. }
  destruct p; guards Hs; try discriminate.
  all: injection Hs as <- <-; simpl in Hr, Hw, Hp, HR, HW.
  all: try (destruct (HR eq_refl) as [-> Hn]); try (destruct (HW eq_refl) as (-> & -> & Hfree)).
  (* the fields in order: reader count, writer flag, exclusion, open reader field, handles,
     the two counters, the assertions of this thread and of the others *)
  all: constructor; simpl;
    [ first [assumption | lia] | first [assumption | lia] | first [assumption | intros [=]; reflexivity]
    | first [assumption | intros _; apply Hp | intros [=]] | try assumption
    | first [assumption | lia] | first [assumption | lia]
    | apply Forall_cons_iff; split; [simpl; auto | first [assumption | apply Hfree]] ].
  all: try solve [discriminate | destruct Hp; try split; auto; discriminate].
  - (* L_Create, NewBinaryReader succeeded: the handle bookkeeping *)
    subst r. apply hs_load, Hh.
  - (* L_Create, succeeded: the new handle is fresh, hence open *)
    split; [exact (hs_fresh _ _ _ Hh)|exact I].
  - (* L_Create, NewBinaryReader failed: the reader field stays nil *)
    subst r. split; exact I.
  - (* L_Recheck: the only latched error is the load error *)
    now destruct e0.
  - (* L_UseCall: the handle read under the read lock is still open *)
    subst r. rewrite (Hopen eq_refl) in Heqb. discriminate.
  - (* L_RUnlockEnd: a lookup result is a good result *)
    now destruct r0.
  - (* U_Close, Close succeeded: the handle closed was open, by this thread's assertion *)
    apply hs_close; [apply Hp|exact Hh].
  - (* U_Close, Close succeeded: the handle in the reader field is now closed *)
    exists n0. simpl. now rewrite Nat.eqb_refl.
  - (* U_SetNil: the handle dropped is the one just closed *)
    destruct Hp as (h & -> & Hc). exact (hs_drop _ _ _ Hc Hh).
  - (* U_Unlock: an unload result is a good result *)
    destruct Hp as [_ Hu']. now destruct r0 as [| []| | | |].
Qed.

Lemma tstep_inv c s p s' p' l r :
  Inv s (l ++ p :: r) -> tstep false c s p = Some (s', p') -> Inv s' (l ++ p' :: r).
Proof. rewrite !Inv_middle. apply step_head. Qed.

Lemma inv_init u0 n : Inv (init_shared u0) (repeat Idle n).
Proof.
  constructor; simpl; rewrite ?cnt_repeat_idle by reflexivity; auto; try discriminate.
  - repeat split; auto. discriminate.
  - induction n; simpl; constructor; auto. exact I.
Qed.

Lemma step_inv x y : step false x y -> Inv (fst x) (snd x) -> Inv (fst y) (snd y).
Proof. intros H. destruct H; simpl. intros HI. eapply tstep_inv; eauto. Qed.

Lemma steps_inv x y : steps false x y -> Inv (fst x) (snd x) -> Inv (fst y) (snd y).
Proof. induction 1; auto. intros HI. eapply step_inv; eauto. Qed.

Lemma reachable_inv s ts : reachable false s ts -> Inv s ts.
Proof. intros (n & u0 & H). apply (steps_inv _ _ H). simpl. apply inv_init. Qed.

Lemma inv_at s ts p : Inv s ts -> In p ts -> pc_ok (rd s) (closed s) p.
Proof. intros HI. apply Forall_forall, HI. Qed.

Lemma inv_holdsR s ts p :
  Inv s ts -> In p ts -> holdsR p = true ->
  1 <= readers s /\ writer s = false /\ rd_open (rd s) (closed s).
Proof.
  intros HI Hin Hh. pose proof (cnt_in_pos _ _ _ Hin Hh) as Hc. rewrite <- (inv_r _ _ HI) in Hc.
  assert (Hwf : writer s = false).
  { destruct (writer s) eqn:E; [|reflexivity]. rewrite (inv_x _ _ HI E) in Hc. lia. }
  repeat split; [exact Hc|exact Hwf|exact (inv_open _ _ HI Hwf)].
Qed.

Lemma no_use_after_close s ts h :
  reachable false s ts -> In (L_UseCall h) ts ->
  1 <= readers s /\ writer s = false /\ rd s = Some h /\ is_closed h (closed s) = false.
Proof.
  intros HR Hin. apply reachable_inv in HR.
  destruct (inv_holdsR _ _ _ HR Hin eq_refl) as (H1 & H2 & H3).
  pose proof (inv_at _ _ _ HR Hin) as Hp. simpl in Hp.
  rewrite Hp in H3. auto.
Qed.

Lemma reader_field_not_nil s ts p :
  reachable false s ts -> In p ts -> p = L_Touch \/ p = L_UseRead ->
  1 <= readers s /\ writer s = false /\ exists h, rd s = Some h /\ is_closed h (closed s) = false.
Proof.
  intros HR Hin Hp. apply reachable_inv in HR.
  assert (Hh : holdsR p = true) by (destruct Hp; subst; reflexivity).
  destruct (inv_holdsR _ _ _ HR Hin Hh) as (H1 & H2 & H3).
  assert (Hn : rd s <> None) by (destruct Hp; subst; exact (inv_at _ _ _ HR Hin)).
  destruct (rd s) as [h|]; [eauto|congruence].
Qed.

Lemma rw_excl s ts :
  reachable false s ts ->
  readers s = cnt holdsR ts /\ cnt holdsW ts = (if writer s then 1 else 0) /\
  (writer s = true -> cnt holdsR ts = 0).
Proof.
  intros HR. apply reachable_inv in HR. destruct HR as [Hr Hw Hx _ _ _ _ _].
  rewrite <- Hr. auto.
Qed.

Lemma results_ok s ts x :
  reachable false s ts ->
  (In (L_RUnlockEnd x) ts -> lookup_res x) /\
  (In (U_Unlock x) ts -> unload_res x) /\
  (In (Done x) ts -> good_res x).
Proof.
  intros HR. apply reachable_inv in HR.
  repeat split; intros Hin; apply (inv_at _ _ _ HR Hin).
Qed.

(* the caller never reads an answer backed by an unmapped header *)
Lemma no_dangling s ts h : reachable false s ts -> ~ In (Dangling h) ts.
Proof. intros HR Hin. exact (inv_at _ _ _ (reachable_inv _ _ HR) Hin). Qed.

(* the lock-balance invariant: a thread about to run a Reader method's deferred
   RUnlock holds a read lock (so the RUnlock releases its own hold) *)
Lemma lock_balance s ts x :
  reachable false s ts -> In (L_RUnlockEnd x) ts -> 1 <= readers s /\ writer s = false.
Proof.
  intros HR Hin. apply reachable_inv in HR.
  destruct (inv_holdsR _ _ _ HR Hin eq_refl) as (H1 & H2 & _). auto.
Qed.

(* counters: successful loads = successful unloads + [loaded], whenever no
   unload is in flight (in particular whenever the write lock is free) *)
Lemma counts_quiescent s ts :
  reachable false s ts -> writer s = false ->
  loads s - loadfails s = (unloads s - unloadfails s) + (if is_some (rd s) then 1 else 0)
  /\ loadfails s <= loads s /\ unloadfails s <= unloads s.
Proof.
  intros HR Hwf. apply reachable_inv in HR.
  pose proof (inv_open _ _ HR Hwf) as Hopen. destruct HR as [_ _ _ _ (_ & _ & Hc1) Hc2 Hc3 _].
  unfold live, rd_open in *. destruct (rd s) as [h|]; simpl; [rewrite Hopen in Hc1|]; lia.
Qed.

Lemma steps_trans bp x y z : steps bp x y -> steps bp y z -> steps bp x z.
Proof.
  intros H1 H2. induction H2 as [|a b d H IH Hs]; [exact H1|].
  eapply steps_step; [apply IH; exact H1 | exact Hs].
Qed.

Lemma run_S bp f c s p : (forall x, p <> Done x) ->
  run bp (S f) c s p = match tstep bp c s p with Some (s', p') => run bp f c s' p' | None => None end.
Proof. destruct p; intros H; try reflexivity. destruct (H r eq_refl). Qed.

Lemma run_steps bp fuel c : forall s p s' x,
  run bp fuel c s p = Some (s', x) -> steps bp (s, [p]) (s', [Done x]).
Proof.
  induction fuel as [|f IH]; intros s p s' x H; [discriminate|].
  assert (Hd : (exists y, p = Done y) \/ forall y, p <> Done y)
    by (destruct p; first [right; discriminate | left; eexists; reflexivity]).
  destruct Hd as [[y ->]|Hd].
  - injection H as <- <-. apply steps_refl.
  - rewrite (run_S _ _ _ _ _ Hd) in H. destruct (tstep bp c s p) as [[s1 p1]|] eqn:Hs; [|discriminate].
    eapply steps_trans; [|apply IH; exact H].
    eapply steps_step; [apply steps_refl|]. exact (step_thread bp c s s1 [] p p1 [] Hs).
Qed.

Lemma upd_split : forall i ts p p', nth_error ts i = Some p ->
  exists l r, ts = l ++ p :: r /\ upd i p' ts = l ++ p' :: r.
Proof.
  induction i as [|i IH]; intros [|a ts] p p' H; simpl in H; try discriminate.
  - injection H as ->. exists [], ts. auto.
  - destruct (IH ts p p' H) as (l & r & -> & E). exists (a :: l), r. simpl. rewrite E. auto.
Qed.

Lemma exec_steps bp : forall sched s ts cfg, exec bp sched s ts = Some cfg -> steps bp (s, ts) cfg.
Proof.
  induction sched as [|[i c] rest IH]; simpl; intros s ts cfg H.
  - injection H as <-. apply steps_refl.
  - destruct (nth_error ts i) as [p|] eqn:En; [|discriminate].
    destruct (tstep bp c s p) as [[s' p']|] eqn:Et; [|discriminate].
    destruct (upd_split i ts p p' En) as (l & r & -> & Eu). rewrite Eu in H.
    eapply steps_trans; [|apply IH; exact H].
    eapply steps_step; [apply steps_refl|]. econstructor. exact Et.
Qed.

Definition quiet (s : shared) : Prop := Inv s [Idle].

Definition op_res_ok (o : op) (x : res) : Prop :=
  match o with
  | OLookup => lookup_res x
  | OUnload _ => unload_res x
  | OIsIdle _ => exists b, x = RBool b
  | OSweep _ => unload_res x \/ x = RBool false
  end.

Lemma quiet_facts s : quiet s -> readers s = 0 /\ writer s = false /\ rd_open (rd s) (closed s).
Proof.
  intros HQ. pose proof (inv_w _ _ HQ) as Hw. simpl in Hw.
  assert (Hwf : writer s = false) by (destruct (writer s); [discriminate|reflexivity]).
  repeat split; [exact (inv_r _ _ HQ)|exact Hwf|exact (inv_open _ _ HQ Hwf)].
Qed.

Lemma tstep_idle bp c s : tstep bp c s Idle = Some (s, start (c_op c)).
Proof. destruct s; reflexivity. Qed.
Lemma tstep_done c s x : good_res x -> tstep false c s (Done x) = Some (s, Idle).
Proof. destruct s. destruct x as [h []| | | | |]; simpl; intros H; try discriminate H; reflexivity. Qed.

Local Ltac run_step :=
  rewrite run_S by discriminate;
  cbv beta iota delta [tstep start c_op c_ok c_now c_bw is_some negb orb andb Nat.eqb Nat.pred pred].

(* Alone, an operation runs to its end within the fuel of run_op: no lock
   acquisition blocks. The run is evaluated step by step on a symbolic state,
   branching on each test as it comes up (evaluating all of it at once would
   unfold the interpreter under every undecided test). *)
Lemma run_op_cases o ok now s :
  quiet s -> exists s' x, run_op false o ok now s = Some (s', x) /\ op_res_ok o x.
Proof.
  intros HQ. destruct (quiet_facts _ HQ) as (Hn & Hw & Ho).
  pose proof (hs_fresh _ _ _ (inv_hs _ _ HQ)) as Hfresh. clear HQ.
  destruct s as [n w r e u nh cl lo lf un uf]. simpl in *. subst n w.
  destruct o as [|ts|ts|ts]; destruct r as [h|]; simpl in Ho.
  all: unfold run_op;
       repeat (run_step; rewrite ?Ho, ?Hfresh;
               repeat match goal with |- context [if ?b then _ else _] => destruct b eqn:? end;
               cbv beta iota).
  all: eexists; eexists; (split; [reflexivity|]); simpl; auto; try (eexists; reflexivity).
Qed.

(* used by rewriting: left to conversion, the kernel compares run_op with run by
   evaluating the interpreter on the symbolic state *)
Lemma run_op_unfold bp o ok now s : run_op bp o ok now s = run bp 24 (mkC o ok now true) s (start o).
Proof. reflexivity. Qed.

Lemma run_op_quiet o ok now s :
  quiet s -> exists s' x, run_op false o ok now s = Some (s', x) /\ quiet s' /\ op_res_ok o x.
Proof.
  intros HQ. destruct (run_op_cases o ok now s HQ) as (s' & x & Hrun & Hres).
  exists s', x. split; [exact Hrun|]. split; [|exact Hres].
  rewrite run_op_unfold in Hrun. apply run_steps in Hrun.
  assert (H1 : Inv s [start o]) by exact (step_head _ _ _ _ _ _ HQ (tstep_idle _ (mkC o ok now true) s)).
  pose proof (steps_inv _ _ Hrun H1 : Inv s' [Done x]) as H2.
  apply (step_head (mkC o ok now true) s' (Done x) s' Idle [] H2), tstep_done.
  exact (inv_at _ _ _ H2 (or_introl eq_refl)).
Qed.

Local Opaque run_op.

Lemma quiet_init u0 : quiet (init_shared u0).
Proof. apply (inv_init u0 1). Qed.

Lemma op_class_of o x : op_res_ok o x -> op_class_ok o (class_of x) = true.
Proof.
  destruct o; simpl.
  1, 2: destruct x as [|[]| |[]| |]; simpl; intros; try contradiction; reflexivity.
  - intros [[] ->]; reflexivity.
  - intros [H| ->]; [destruct x as [|[]| |[]| |]; simpl in *; try contradiction; reflexivity | reflexivity].
Qed.

Lemma obs_matches_refl s x : obs_matches s x (obs_of s x) = true.
Proof.
  unfold obs_matches, obs_of. simpl.
  rewrite !N.eqb_refl, Z.eqb_refl, !Bool.eqb_reflx.
  destruct (class_of x); reflexivity.
Qed.

(* the model's own observations always satisfy the predicate, and the
   correspondence check accepts them *)
Lemma seq_model_ok load_ok : forall ops s,
  quiet s ->
  exists obs, seq_model false load_ok s ops = Some obs
    /\ seq_ok false load_ok s obs = true
    /\ forallb (fun x => op_class_ok (fst (fst x)) (o_res (snd x))) obs = true
    /\ map (fun x => (fst (fst x), snd (fst x))) obs = ops.
Proof.
  induction ops as [|[o now] ops IH]; intros s HQ; simpl.
  - exists []. auto.
  - destruct (run_op_quiet o (op_ok load_ok o) now s HQ) as (s' & x & Hrun & HQ' & Hres).
    rewrite Hrun. destruct (IH s' HQ') as (obs & Hm & Hok & Hp & Hmap). rewrite Hm.
    eexists. split; [reflexivity|]. simpl. rewrite Hrun, obs_matches_refl, Hok, Hp, Hmap.
    rewrite (op_class_of _ _ Hres). auto.
Qed.

Lemma rclass_eqb_eq a b : rclass_eqb a b = true -> a = b.
Proof. destruct a, b; (reflexivity || discriminate). Qed.

(* whenever the implementation's observations agree with the model, they satisfy the predicate *)
Lemma seq_ok_pred load_ok : forall obs s,
  quiet s -> seq_ok false load_ok s obs = true ->
  forallb (fun x => op_class_ok (fst (fst x)) (o_res (snd x))) obs = true.
Proof.
  induction obs as [|[[o now] ob] obs IH]; intros s HQ H; simpl in *; [reflexivity|].
  destruct (run_op_quiet o (op_ok load_ok o) now s HQ) as (s' & x & Hrun & HQ' & Hres).
  rewrite Hrun in H. apply andb_true_iff in H as [Hm Hrest].
  rewrite (IH s' HQ' Hrest), andb_true_r.
  unfold obs_matches in Hm. repeat (apply andb_true_iff in Hm as [Hm _]).
  rewrite <- (rclass_eqb_eq _ _ Hm). exact (op_class_of _ _ Hres).
Qed.

Lemma facts_hold : facts_ok = true.
Proof. vm_compute. reflexivity. Qed.

(* no delegating method hands out memory-backed answers *)
Lemma bp_src_false : bp_src = false.
Proof. vm_compute. reflexivity. Qed.

(* tie T: every return of load() holds the read lock again *)
Lemma load_lock_balance_holds : load_lock_balance = true.
Proof. vm_compute. reflexivity. Qed.


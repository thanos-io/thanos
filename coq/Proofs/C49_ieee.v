(* C49 — the float64 expression of jumpHash,
     j = int64(float64(b+1) * (float64(int64(1)<<31) / float64((key>>33)+1))),
   over Flocq's binary64 rounding (round to nearest even, emin = -1074, 53-bit
   precision): the quotient is >= 1 (2^31 / d with 1 <= d <= 2^31, and 1 is
   representable), the product of the representable integer b+1 with a factor
   >= 1 rounds to a value >= b+1, and the conversion truncates an integer-valued
   lower bound to itself. Hence b < j: the hypothesis of the jump theorems holds
   of the IEEE-754 semantics of the expression. Uses the classical real numbers
   of the standard library (Flocq). *)
From Coq Require Import ZArith Reals Lia Lra.
From Flocq Require Import Core.
From Verif Require Import Model.C49.
Open Scope Z_scope.

Definition fexp64 := FLT_exp (-1074) 53.
Definition rnd64 (x : R) : R := round radix2 fexp64 ZnearestE x.

#[local] Instance prec53 : Prec_gt_0 53.
Proof. unfold Prec_gt_0. lia. Qed.

Lemma int_format (n : Z) : Z.abs n < 2 ^ 53 -> generic_format radix2 fexp64 (IZR n).
Proof.
  intro H. apply generic_format_FLT. apply (FLT_spec radix2 (-1074) 53 (IZR n) (Float radix2 n 0)).
  - unfold F2R. simpl. lra.
  - simpl. exact H.
  - simpl. lia.
Qed.

Lemma rnd64_le x y : (x <= y)%R -> (rnd64 x <= rnd64 y)%R.
Proof. apply round_le; typeclasses eauto. Qed.

Lemma rnd64_int n : Z.abs n < 2 ^ 53 -> rnd64 (IZR n) = IZR n.
Proof. intro H. apply round_generic; [typeclasses eauto | apply int_format, H]. Qed.

Lemma rnd64_pow2 e : 0 <= e <= 100 -> rnd64 (IZR (2 ^ e)) = IZR (2 ^ e).
Proof.
  intro H. apply round_generic; [typeclasses eauto|].
  change (2 ^ e) with (Zpower radix2 e). rewrite IZR_Zpower by lia.
  apply generic_format_bpow. unfold fexp64, FLT_exp. lia.
Qed.

Lemma rnd64_between lo hi x :
  rnd64 lo = lo -> rnd64 hi = hi -> (lo <= x <= hi)%R -> (lo <= rnd64 x <= hi)%R.
Proof. intros Hlo Hhi [H1 H2]. rewrite <- Hlo, <- Hhi. split; apply rnd64_le; assumption. Qed.

Lemma quot_bounds d :
  1 <= d <= 2 ^ 31 -> (1 <= rnd64 (IZR (2 ^ 31) / IZR d) <= IZR (2 ^ 31))%R.
Proof.
  intro Hd.
  assert (Hd1 : (1 <= IZR d <= IZR (2 ^ 31))%R) by (split; apply IZR_le; lia).
  apply rnd64_between; [apply (rnd64_int 1); simpl; lia | apply rnd64_pow2; lia |].
  unfold Rdiv. pose proof (Rinv_r (IZR d) ltac:(lra)). pose proof (Rinv_0_lt_compat (IZR d) ltac:(lra)). nra.
Qed.

(* key>>33 on a uint64 is the quotient by 2^33; float64() of integers below 2^53
   is exact; `/` and `*` round to nearest even; int64() truncates *)
Definition nextj_ieee (b key : Z) : Z :=
  Ztrunc (rnd64 (IZR (b + 1) * rnd64 (IZR (2 ^ 31) / IZR (key / 2 ^ 33 + 1)))).

Lemma shifted_key_range key : 0 <= key < two64 -> 1 <= key / 2 ^ 33 + 1 <= 2 ^ 31.
Proof.
  unfold two64. intro Hk.
  assert (0 <= key / 2 ^ 33 < 2 ^ 31) by (split; [apply Z.div_pos | apply Z.div_lt_upper_bound]; lia).
  lia.
Qed.

Definition N64 : Z := 2 ^ 53 - 1.

Lemma N64_pos : 1 <= N64.
Proof. unfold N64. lia. Qed.

Lemma nextj_ieee_dom b key : 0 <= b < N64 -> 0 <= key < two64 -> b < nextj_ieee b key.
Proof.
  unfold N64, nextj_ieee. intros Hb Hk.
  destruct (quot_bounds _ (shifted_key_range key Hk)) as [Hq _].
  set (q := rnd64 _) in *.
  assert (Hp : (IZR (b + 1) <= rnd64 (IZR (b + 1) * q))%R).
  { rewrite <- (rnd64_int (b + 1)) at 1 by lia. apply rnd64_le.
    assert (0 <= IZR (b + 1))%R by (apply IZR_le; lia). nra. }
  rewrite Ztrunc_floor.
  - apply Zfloor_lub in Hp. lia.
  - apply Rle_trans with (2 := Hp), IZR_le. lia.
Qed.

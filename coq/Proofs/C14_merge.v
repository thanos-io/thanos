(* C14 — fetchMissingSubranges: mergeRanges and the request-merging loop, then every fetched
   range is cut into exactly the right subranges. *)
From Coq Require Import ZArith NArith List Bool Lia.
Import ListNotations.
From Verif Require Import Lib.Corr Gen.C14 Model.C14 Proofs.C14.
Open Scope Z_scope.

Section Merge.
Variable Sz ks ke : Z.
Hypothesis HS : 0 < Sz.

(* a range of whole subranges inside [ks*Sz, ke*Sz) *)
Definition wf_rng (m : rng) : Prop :=
  exists a b, fst m = a * Sz /\ snd m = b * Sz /\ ks <= a /\ a < b /\ b <= ke.

(* ascending, non-overlapping, well-formed ranges starting at or after lo *)
Fixpoint chain (lo : Z) (l : list rng) : Prop :=
  match l with
  | [] => True
  | m :: r => lo <= fst m /\ wf_rng m /\ chain (snd m) r
  end.

Definition covered (l : list rng) (x : Z) : Prop := Exists (fun m : rng => fst m <= x < snd m) l.

Lemma wf_lt m : wf_rng m -> fst m < snd m.
Proof. intros (a & b & -> & -> & H). nia. Qed.

Lemma chain_weaken l : forall lo hi, chain hi l -> lo <= hi -> chain lo l.
Proof. destruct l as [|m r]; simpl; intros lo hi H Hle; [exact I|]. destruct H as (H1 & H2 & H3). repeat split; try assumption. lia. Qed.

Lemma wf_join last r : wf_rng last -> wf_rng r -> snd last <= fst r -> wf_rng (fst last, snd r).
Proof.
  intros (a & b & Ea & Eb & Ha) (c & d & Ec & Ed & Hc) H. exists a, d. simpl.
  rewrite Eb, Ec in H. repeat split; try assumption; try lia. nia.
Qed.

Lemma merge_aux_ok limit : forall rest last lo,
  wf_rng last -> lo <= fst last -> chain (snd last) rest ->
  chain lo (merge_aux last rest limit)
  /\ (forall x, covered (last :: rest) x -> covered (merge_aux last rest limit) x).
Proof.
  induction rest as [|r rest IH]; intros last lo Hw Hlo Hc.
  - simpl. split; [repeat split; assumption|]. intros x H. exact H.
  - simpl in Hc. destruct Hc as (H1 & H2 & H3). cbn [merge_aux].
    destruct (fst r - snd last <=? limit) eqn:E.
    + destruct (IH (fst last, snd r) lo (wf_join _ _ Hw H2 H1) Hlo H3) as (I1 & I2). split; [exact I1|].
      intros x Hx. apply I2.
      pose proof (wf_lt _ Hw) as L1. pose proof (wf_lt _ H2) as L2.
      inversion Hx as [? ? Hh|? ? Ht]; subst.
      * apply Exists_cons_hd. simpl. lia.
      * inversion Ht as [? ? Hh|? ? Ht']; subst.
        -- apply Exists_cons_hd. simpl. lia.
        -- apply Exists_cons_tl. exact Ht'.
    + destruct (IH r (fst r) H2 (Z.le_refl _) H3) as (I1 & I2). split.
      * simpl. repeat split; try assumption. eapply chain_weaken; [exact I1|exact H1].
      * intros x Hx. inversion Hx as [? ? Hh|? ? Ht]; subst.
        -- apply Exists_cons_hd. exact Hh.
        -- apply Exists_cons_tl. apply I2. exact Ht.
Qed.

Lemma merge_ranges_ok limit l lo :
  chain lo l -> chain lo (merge_ranges l limit) /\ (forall x, covered l x -> covered (merge_ranges l limit) x).
Proof.
  destruct l as [|m r]; simpl; intro H; [split; [exact I|auto]|].
  destruct H as (H1 & H2 & H3). apply merge_aux_ok; assumption.
Qed.

(* a limit as wide as the window merges everything into one request *)
Lemma merge_aux_all limit : forall rest last,
  wf_rng last -> chain (snd last) rest -> (ke - ks) * Sz <= limit ->
  length (merge_aux last rest limit) = 1%nat.
Proof.
  induction rest as [|r rest IH]; intros last Hw Hc Hl; [reflexivity|].
  simpl in Hc. destruct Hc as (H1 & H2 & H3). cbn [merge_aux].
  assert (E : fst r - snd last <=? limit = true).
  { apply Z.leb_le. destruct Hw as (a & b & Ea & Eb & Ha). destruct H2 as (c & d & Ec & Ed & Hc).
    rewrite Ec, Eb. nia. }
  rewrite E. apply IH; [|exact H3|exact Hl]. apply wf_join; assumption.
Qed.

Lemma merge_ranges_all limit l lo :
  chain lo l -> (ke - ks) * Sz <= limit -> (length (merge_ranges l limit) <= 1)%nat.
Proof.
  destruct l as [|m r]; simpl; intros H Hl; [lia|].
  destruct H as (H1 & H2 & H3). rewrite merge_aux_all; auto.
Qed.

(* the doubling loop terminates within [len + 1] iterations when started with
   limit = Sz, where len >= ke - ks; it preserves the chain and the coverage *)
Lemma merge_loop_ok M (len : Z) : ke - ks <= len ->
  forall fuel l limit lo,
  chain lo l ->
  Sz * (len + 2 - Z.of_nat fuel) <= limit -> Sz <= limit ->
  (fuel = 0%nat -> (length l <= 1)%nat) ->
  exists r, merge_loop fuel l limit M = Some r /\ chain lo r /\ (forall x, covered l x -> covered r x)
            /\ (0 < M -> Z.of_nat (length r) <= M).
Proof.
  intro Hlen. induction fuel as [|f IH]; intros l limit lo Hc Hlim Hpos H0; cbn [merge_loop];
    (destruct (Z.gtb_spec M 0); [destruct (Z.gtb_spec (Z.of_nat (length l)) M)|]; cbn [andb];
     [|exists l; repeat split; auto; lia..]).
  - specialize (H0 eq_refl). lia.
  - destruct (merge_ranges_ok limit l lo Hc) as (C1 & C2).
    destruct (IH (merge_ranges l limit) (limit * 2) lo C1) as (r & R1 & R2 & R3 & R4).
    + rewrite Nat2Z.inj_succ in Hlim. nia.
    + lia.
    + intro Hf. subst f. apply (merge_ranges_all limit l lo Hc). simpl in Hlim. nia.
    + exists r. repeat split; auto.
Qed.

End Merge.

(* merging adjacent ranges, then doubling the limit until at most M requests remain *)
Lemma merge_pipeline_ok Sz ks ke M l lo : 0 < Sz -> chain Sz ks ke lo l ->
  exists r, merge_loop (S (Z.to_nat (ke - ks))) (merge_ranges l 0) Sz M = Some r
    /\ chain Sz ks ke lo r /\ (forall x, covered l x -> covered r x)
    /\ (0 < M -> Z.of_nat (length r) <= M).
Proof.
  intros HS Hc. destruct (merge_ranges_ok Sz ks ke HS 0 l lo Hc) as (R1 & R2).
  destruct (merge_loop_ok Sz ks ke HS M (Z.of_nat (Z.to_nat (ke - ks))) ltac:(lia)
              (S (Z.to_nat (ke - ks))) (merge_ranges l 0) Sz lo R1) as (r & G1 & G2 & G3 & G4).
  - rewrite Nat2Z.inj_succ. lia.
  - lia.
  - intro; discriminate.
  - exists r. repeat split; auto.
Qed.

(* the subranges held in memory only grow *)
Definition mono (h h' : hmap) : Prop := forall off b, hget h off = Some b -> hget h' off = Some b.

Lemma mono_refl h : mono h h.
Proof. intros off b H. exact H. Qed.

Lemma mono_trans h1 h2 h3 : mono h1 h2 -> mono h2 h3 -> mono h1 h3.
Proof. intros A B off b H. apply B, A, H. Qed.

Lemma mono_cons h off b : hget h off = None -> mono h ((off, b) :: h).
Proof.
  intros Hn o b' H. simpl. destruct (Z.eqb_spec off o) as [<-|]; [congruence|exact H].
Qed.

Section Fetch.
Variable obj : bytes.
Variable Sz ks ke : Z.
Hypothesis HS : 0 < Sz.
Hypothesis Hks : 0 <= ks.
Let size := blen obj.
Hypothesis Hlast : (ke - 1) * Sz < size.     (* the last requested subrange starts inside the object *)
Variable known : list Z.
Hypothesis Hknown : forall k, ks <= k < ke -> In (k * Sz) known.

Let lastOff := (ke - 1) * Sz.
Let lastLen := Z.min (ke * Sz) size - lastOff.

(* what is held in memory, and what will be stored, are true subranges of the object *)
Definition H_ok (h : hmap) : Prop := forall off b, hget h off = Some b -> b = sub_of obj Sz off.
Definition st_ok (st : list (Z * bytes)) : Prop := Forall (fun p => snd p = sub_of obj Sz (fst p)) st.

Lemma H_ok_cons h off : H_ok h -> H_ok ((off, sub_of obj Sz off) :: h).
Proof.
  intros Hh o b H. simpl in H. destruct (Z.eqb_spec off o) as [<-|]; [congruence|apply Hh, H].
Qed.

Lemma known_mem k : ks <= k < ke -> existsb (Z.eqb (k * Sz)) known = true.
Proof. intro H. apply existsb_exists. exists (k * Sz). split; [apply Hknown; exact H | apply Z.eqb_refl]. Qed.

(* a fetch started with h in memory succeeds, keeps what was there, and afterwards holds
   every subrange whose index satisfies P *)
Definition fills (h : hmap) (x : option (hmap * list (Z * bytes))) (P : Z -> Prop) : Prop :=
  exists h' st', x = Some (h', st') /\ H_ok h' /\ st_ok st' /\ mono h h'
                 /\ forall k, P k -> hget h' (k * Sz) = Some (sub_of obj Sz (k * Sz)).

Lemma fills_done h st (P : Z -> Prop) : H_ok h -> st_ok st -> (forall k, ~ P k) -> fills h (Some (h, st)) P.
Proof. intros Hh Hst HP. exists h, st. repeat split; auto using mono_refl. intros k Hk. destruct (HP k Hk). Qed.

(* a fetch that goes on from a larger memory h1: what h1 held already counts *)
Lemma fills_from h h1 x (P Q : Z -> Prop) : mono h h1 -> fills h1 x P ->
  (forall k, Q k -> P k \/ hget h1 (k * Sz) = Some (sub_of obj Sz (k * Sz))) -> fills h x Q.
Proof.
  intros Hm (h' & st' & E & H1 & H2 & H3 & H4) HQ. exists h', st'. repeat split; auto.
  - eapply mono_trans; eauto.
  - intros k Hk. destruct (HQ k Hk); auto.
Qed.

(* cutting the buffer fetched for subranges a .. b-1, from subrange k on *)
Lemma cut_ok a b : ks <= a -> a < b -> b <= ke ->
  forall n k h st, n = Z.to_nat (b - k) -> a <= k <= b -> H_ok h -> st_ok st ->
  fills h (cut_subranges n (k * Sz) (a * Sz) Sz lastOff lastLen (slice obj (a * Sz) (Z.min (b * Sz) size)) known h st)
        (fun k' => k <= k' < b).
Proof.
  intros Ha Hab Hb. set (buf := slice obj (a * Sz) (Z.min (b * Sz) size)).
  pose proof (aligned_le Sz HS 0 a ltac:(lia)) as Ha0.
  pose proof (aligned_le Sz HS b ke Hb) as Hbke.
  assert (Hblen : blen buf = Z.min (b * Sz) size - a * Sz).
  { pose proof (aligned_le Sz HS a (ke - 1) ltac:(lia)). pose proof (aligned_le Sz HS a b ltac:(lia)).
    apply slice_length; lia. }
  induction n as [|n IH]; intros k h st Hn Hk Hh Hst.
  - apply fills_done; auto. lia.
  - cbn [cut_subranges]. rewrite known_mem by lia. cbn [negb].
    unfold lastOff, lastLen. rewrite subrange_hi, Hblen by (assumption || lia).
    pose proof (aligned_le Sz HS a k ltac:(lia)). pose proof (aligned_le Sz HS (k + 1) b ltac:(lia)).
    pose proof (aligned_le Sz HS k (ke - 1) ltac:(lia)).
    rewrite orb_false_intro by lia.
    replace (slice buf _ _) with (sub_of obj Sz (k * Sz)).
    2:{ unfold buf, sub_of. rewrite slice_slice by lia. f_equal; lia. }
    replace (k * Sz + Sz) with ((k + 1) * Sz) by ring.
    (* whether subrange k was in memory already or is added now, the rest goes on from a
       memory h1 that holds it *)
    assert (Hrest : forall h1 st1, H_ok h1 -> st_ok st1 -> mono h h1 ->
              hget h1 (k * Sz) = Some (sub_of obj Sz (k * Sz)) ->
              fills h (cut_subranges n ((k + 1) * Sz) (a * Sz) Sz ((ke - 1) * Sz) (Z.min (ke * Sz) size - (ke - 1) * Sz) buf known h1 st1)
                    (fun k' => k <= k' < b)).
    { intros h1 st1 Hh1 Hst1 Hm Hk1. apply (fills_from h h1 _ (fun k' => k + 1 <= k' < b)); [exact Hm|apply IH; auto; lia|].
      intros k' Hk'. destruct (Z.eq_dec k' k) as [->|]; [right; exact Hk1|left; lia]. }
    destruct (hget h (k * Sz)) as [bb|] eqn:Eh; apply Hrest; auto using mono_refl, mono_cons, H_ok_cons.
    + rewrite Eh. f_equal. apply Hh, Eh.
    + apply Forall_app. split; [exact Hst|]. constructor; [reflexivity|constructor].
    + simpl. rewrite Z.eqb_refl. reflexivity.
Qed.

Lemma fetch_one_ok m h st : wf_rng Sz ks ke m -> H_ok h -> st_ok st ->
  fills h (fetch_one obj Sz lastOff lastLen known m h st) (fun k => fst m <= k * Sz < snd m).
Proof.
  intros (a & b & Ea & Eb & Ha & Hab & Hb) Hh Hst. destruct m as [ms me]. simpl in Ea, Eb. subst ms me.
  pose proof (aligned_le Sz HS 0 a ltac:(lia)). pose proof (aligned_le Sz HS a (ke - 1) ltac:(lia)).
  pose proof (aligned_le Sz HS a b ltac:(lia)).
  unfold fetch_one, lastOff, lastLen.
  rewrite under_get_range_slice, Zplus_minus, buf_size_ok, subrange_count by (assumption || lia). fold size.
  set (data := slice obj (a * Sz) (Z.min (b * Sz) size)).
  replace (Z.min (b * Sz) size - a * Sz) with (blen data) by (apply slice_length; lia).
  rewrite slice_full. pose proof (blen_nonneg data).
  rewrite orb_false_intro by lia.
  destruct (cut_ok a b Ha Hab Hb (Z.to_nat (b - a)) a h st eq_refl ltac:(lia) Hh Hst) as (h' & st' & E1 & E2 & E3 & E4 & E5).
  exists h', st'. repeat split; auto.
  intros k Hk. simpl in Hk. apply E5. split; [apply Z.lt_succ_r|]; apply (aligned_lt Sz HS); lia.
Qed.

Lemma fetch_all_ok : forall ms lo h st, chain Sz ks ke lo ms -> H_ok h -> st_ok st ->
  fills h (fetch_all obj Sz lastOff lastLen known ms h st) (fun k => covered ms (k * Sz)).
Proof.
  induction ms as [|m ms IH]; intros lo h st Hc Hh Hst.
  - apply fills_done; auto. intros k Hk. inversion Hk.
  - simpl in Hc. destruct Hc as (H1 & H2 & H3). cbn [fetch_all].
    destruct (fetch_one_ok m h st H2 Hh Hst) as (h1 & st1 & -> & E2 & E3 & E4 & E5).
    apply (fills_from h h1 _ (fun k => covered ms (k * Sz))); [exact E4|apply (IH (snd m)); assumption|].
    intros k Hk. inversion Hk; subst; auto.
Qed.

End Fetch.

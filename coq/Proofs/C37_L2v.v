(* C37 — proofs, second level (values): the stitched values read over the 1h chunks are
   the adjusted raw counter at the emitted timestamps, when the 5m windows nest in the
   1h windows (res2 a multiple of res1). *)
From Coq Require Import ZArith List Bool Lia Sorted.
Import ListNotations.
From Verif Require Import Lib.Corr Lib.ListFacts Lib.Downsample_Core Lib.Downsample_Batch Lib.Downsample_Raw
  Lib.Downsample_Windows Lib.Downsample_Aggr Lib.Downsample_Iter Lib.Downsample_Counter Gen.C37 Model.C37
  Proofs.C37 Proofs.C37_L2.
Open Scope Z_scope.

(* windows nest: with q = t / (k * res1), t / res1 < k * (q + 1) *)
Lemma cw_nest res1 k t : 0 < res1 -> 0 < k -> 0 <= t -> cw t res1 <= cw t (k * res1).
Proof.
  intros Hr Hk Ht. assert (Hkr : 0 < k * res1) by (apply Z.mul_pos_pos; assumption).
  unfold cw, currentWindow. rewrite !Z.rem_mod_nonneg, (Z.mod_eq t res1), (Z.mod_eq t (k * res1)) by lia.
  assert (B : t / res1 < k * (t / (k * res1) + 1)).
  { apply Z.div_lt_upper_bound; [lia|].
    pose proof (Z.mod_pos_bound t (k * res1) Hkr). pose proof (Z.div_mod t (k * res1) ltac:(lia)). lia. }
  assert (res1 * (t / res1 + 1) <= res1 * (k * (t / (k * res1) + 1))) by (apply Z.mul_le_mono_nonneg_l; lia).
  lia.
Qed.

Lemma sorted_filter {A} (R : A -> A -> Prop) (f : A -> bool) l :
  StronglySorted R l -> StronglySorted R (filter f l).
Proof. apply StronglySorted_filter. Qed.

Lemma filter_map_sorted {A} (R : Z -> Z -> Prop) (f : A -> Z) (g : A -> bool) l :
  StronglySorted R (map f l) -> StronglySorted R (map f (filter g l)).
Proof.
  intros H. apply StronglySorted_unmap, (StronglySorted_filter _ g) in H.
  apply (StronglySorted_map_in (fun x y => R (f x) (f y))); [exact H|auto].
Qed.

Lemma sorted_two_keys {A} (k1 k2 : A -> Z) l :
  StronglySorted Z.lt (map k1 l) -> StronglySorted Z.lt (map k2 l) ->
  forall x y, In x l -> In y l -> k1 x < k1 y -> k2 x < k2 y.
Proof.
  induction l as [|a l IH]; intros H1 H2 x y Hx Hy Hlt; [contradiction|].
  cbn [map] in H1, H2. apply StronglySorted_inv in H1 as [H1 A1]. apply StronglySorted_inv in H2 as [H2 A2].
  rewrite Forall_map, Forall_forall in A1, A2.
  destruct Hx as [<-|Hx]; destruct Hy as [<-|Hy].
  - lia.
  - apply A2. exact Hy.
  - specialize (A1 _ Hx). lia.
  - apply IH; assumption.
Qed.

Lemma adj_from_mono : forall vs lv tot,
  StronglySorted Z.le (lv :: vs) -> adj_from lv tot vs = tot + (last vs lv - lv).
Proof.
  induction vs as [|v r IH]; intros lv tot H; cbn [adj_from]; [cbn [last]; lia|].
  apply StronglySorted_inv in H as [H Hlv]. apply Forall_cons_iff in Hlv as [Hv _].
  rewrite IH by exact H. rewrite (last_cons v r lv).
  unfold step. replace (v >=? lv) with true by (symmetry; apply Z.geb_le; lia). lia.
Qed.

Lemma adj_monotone vs : StronglySorted Z.le vs -> vs <> [] -> adj vs = last vs 0.
Proof.
  destruct vs as [|v r]; intros H Hne; [congruence|]. cbn [adj]. rewrite adj_from_mono by exact H.
  rewrite last_cons. lia.
Qed.

(* Samples E taken off the adjusted counter of D (no resets among them any more): their own
   adjusted counter at w is D's, provided every raw sample up to w is followed by one of them
   up to w. *)
Lemma adj_at_resample D E w :
  StronglySorted Z.lt (map fst D) -> Forall (fun s : Z * Z => 0 <= snd s) D ->
  StronglySorted Z.lt (map fst E) -> Forall (fun e => snd e = adj_at D (fst e)) E ->
  D <> [] -> fst (hd (0, 0) D) <= w ->
  (forall r, In r D -> fst r <= w -> exists e, In e E /\ fst r <= fst e <= w) ->
  adj_at E w = adj_at D w.
Proof.
  intros HsD Hv HsE HE Hne Hw Hcov. rewrite Forall_forall in HE.
  assert (Hmono : StronglySorted Z.le (map snd E)).
  { apply (StronglySorted_map_in (fun e1 e2 : Z * Z => fst e1 < fst e2)); [apply StronglySorted_unmap, HsE|].
    intros x y Hx Hy Hlt. rewrite (HE x Hx), (HE y Hy).
    apply adj_at_mono; [apply sorted_lt_le, HsD|exact Hv|lia]. }
  set (U := upto w E). set (es := last U (0, 0)).
  assert (HU : forall e, In e U -> fst e <= fst es).
  { apply Forall_forall, (sorted_le_last U), sorted_lt_le, filter_map_sorted, HsE. }
  assert (HinU : forall e, In e U <-> In e E /\ fst e <= w).
  { intros e. unfold U, upto. rewrite filter_In, Z.leb_le. reflexivity. }
  assert (HUne : U <> []).
  { destruct D as [|r0 D']; [congruence|]. destruct (Hcov r0 (or_introl eq_refl) Hw) as (e & He & _ & Hew).
    intros HU0. pose proof (proj2 (HinU e) (conj He Hew)) as HeU. rewrite HU0 in HeU. contradiction. }
  destruct (proj1 (HinU es) (last_in U (0, 0) HUne)) as [HesE Hesw].
  (* the last of E's samples up to w carries E's adjusted counter there ... *)
  rewrite adj_at_upto. fold U. rewrite adj_monotone; [|apply filter_map_sorted, Hmono|destruct U; [congruence|discriminate]].
  change 0 with (snd (0, 0)). rewrite last_map. fold es. rewrite (HE es HesE), !adj_at_upto. f_equal. f_equal.
  (* ... and no raw sample lies between it and w *)
  apply filter_ext_in. intros r Hr. destruct (Z_le_gt_dec (fst r) w) as [H|H].
  - destruct (Hcov r Hr H) as (e & He & Hre & Hew). specialize (HU e (proj2 (HinU e) (conj He Hew))).
    transitivity true; [|symmetry]; apply Z.leb_le; lia.
  - transitivity false; [|symmetry]; apply Z.leb_gt; lia.
Qed.

(* every raw sample of a part is followed by an emission inside its 5m window: the one at the
   label of its window *)
Lemma emission_covers res1 p r : 0 < res1 ->
  Forall counter_batch p -> In r (concat p) ->
  exists e, In e (emitted_of res1 p) /\ fst r <= fst e <= cw (fst r) res1.
Proof.
  intros res1_pos Hcb Hr. apply in_concat in Hr as (b & Hb & Hrb).
  rewrite Forall_forall in Hcb. pose proof (Hcb b Hb) as Hb_cb. pose proof Hb_cb as (Hg & _ & _).
  destruct (batch_windows_facts cw res1 (cw_ge res1 res1_pos) (cw_same res1 res1_pos) b Hg)
    as (Bcat & Bok & _).
  rewrite <- Bcat in Hrb. apply in_concat in Hrb as (c & Hc & Hrc). apply in_map_iff in Hc as (g & <- & Hgin).
  rewrite Forall_forall in Bok. destruct (Bok g Hgin) as (_ & Hg0 & A). rewrite Forall_forall in A.
  destruct (A r Hrc) as (Hr0 & Hrw & Ecw).
  destruct (q_of_exact res1 res1_pos b Hb_cb) as [(Hok & _) _]. destruct (q_of_mids res1 res1_pos b Hg) as [Emf _].
  assert (Hm : In (fst g) (map fst (q_mids (q_of res1 b)))) by (rewrite Emf; apply in_map, Hgin).
  apply in_map_iff in Hm as (m & Em & Hm). destruct (mids_range _ m Hok Hm) as [Hm0 _].
  assert (He : In (fst g) (map fst (emitted_of res1 p))).
  { unfold emitted_of. rewrite expect_times. apply in_flat_map. exists (q_of res1 b). split; [apply in_map, Hb|].
    unfold q_times. destruct (Z.eq_dec (fst g) (q_t0 (q_of res1 b))) as [->|Hne]; [left; reflexivity|right].
    apply filter_In. split; [rewrite <- Em; apply in_map, Hm|apply Z.gtb_lt; lia]. }
  apply in_map_iff in He as (e & Ee & He). exists e. split; [exact He|]. rewrite Ee.
  split; [exact Hrw|]. rewrite Ecw. apply (cw_ge res1 res1_pos), Hg0.
Qed.

(* a label of a batch closes a downsampling window: what lies after it lies in a later window *)
Lemma label_closed res b g e : 0 < res -> good_batch b ->
  In g (batch_windows cw res b) -> In e b -> fst g < fst e -> cw (fst g) res < cw (fst e) res.
Proof.
  intros Hr Hgb Hg He Hlt.
  destruct (batch_windows_facts cw res (cw_ge res Hr) (cw_same res Hr) b Hgb) as (Bcat & Bok & Bsort & Bcs & _).
  rewrite <- Bcat in He. apply in_concat in He as (c & Hc & Hec). apply in_map_iff in Hc as (g' & <- & Hg').
  rewrite Forall_forall in Bok. destruct (Bok g' Hg') as (_ & _ & A). rewrite Forall_forall in A.
  destruct (A e Hec) as (_ & Heg' & ->).
  apply (sorted_two_keys fst (fun q : Z * list (Z * Z) => cw (fst q) res) _ Bsort Bcs g g' Hg Hg'). lia.
Qed.

Section Values.
Variables res1 k : Z.
Hypothesis res1_pos : 0 < res1.
Hypothesis k_pos : 0 < k.
Let res2 := k * res1.
Lemma res2_pos : 0 < res2. Proof. apply Z.mul_pos_pos; assumption. Qed.

(* A 1h label closes a 1h window of the emitted samples, and a raw sample and the emission that
   follows it share a 5m window, hence a 1h window: the emission following a raw sample at or
   before a 1h label lies at or before that label too. *)
Lemma part_exact p : part_ok p -> chunk_exact (q2_of res1 res2 p) (concat p).
Proof.
  intros Hp. pose proof res2_pos as Hr2.
  destruct (part_chunk res1 res2 res1_pos Hr2 p Hp) as (_ & _ & _ & Hsp). split; [exact Hsp|].
  destruct (emitted_facts res1 res1_pos p Hp) as (_ & AE & Hecb & _).
  destruct Hsp as (Hok & Hdne & Hhd & _). destruct Hp as (_ & Hcb & HsD). pose proof Hecb as (HgE & HsE & _).
  assert (Hv : Forall (fun s : Z * Z => 0 <= snd s) (concat p)).
  { apply Forall_concat. eapply Forall_impl; [|exact Hcb]. intros b (_ & _ & H). exact H. }
  assert (Hnn : forall r, In r (concat p) -> 0 <= fst r).
  { apply Forall_forall, Forall_concat. eapply Forall_impl; [|exact Hcb]. intros b ([_ [_ H]] & _). exact H. }
  destruct (q_of_exact res2 Hr2 _ Hecb) as [_ Hm]. destruct (q_of_mids res2 Hr2 _ HgE) as [Emf _].
  change (q_mids (q2_of res1 res2 p)) with (q_mids (q_of res2 (emitted_of res1 p))).
  rewrite Forall_forall in Hm |- *. intros m Hmin. rewrite (Hm m Hmin).
  apply adj_at_resample; try assumption.
  - rewrite Hhd. apply (mids_range _ m Hok Hmin).
  - intros r Hr Hrw. destruct (emission_covers res1 p r res1_pos Hcb Hr) as (e & He & Hre & Hew).
    exists e. split; [exact He|]. split; [exact Hre|].
    destruct (Z_le_gt_dec (fst e) (fst m)) as [H|H]; [exact H|exfalso].
    apply (in_map fst) in Hmin. rewrite Emf in Hmin. apply in_map_iff in Hmin as (g & Eg & Hg). rewrite <- Eg in *.
    pose proof (label_closed res2 _ g e Hr2 HgE Hg He ltac:(lia)) as C.
    pose proof (Hnn r Hr) as Hr0.
    pose proof (cw_mono cw res2 (cw_ge res2 Hr2) (cw_same res2 Hr2) (fst r) (fst g) Hr0 Hrw) as M.
    pose proof (cw_nest res1 k (fst r) res1_pos k_pos Hr0) as N. fold res2 in N.
    pose proof (cw_same res2 Hr2 (fst r) (fst e) Hr0 Hre ltac:(lia)) as S. lia.
Qed.

(* Level 2: reading the counter aggregate after two levels of downsampling *)
Lemma level2_full nc1 nc2 data l1 l2 :
  valid_counter res1 data ->
  level1 res1 nc1 data = Some l1 -> level2 res2 nc2 l1 = Some l2 ->
  exists emitted, read_counter l2 = Some emitted /\ exact_read (keep_nonnan data) emitted.
Proof.
  intros Hv E1 E2. pose proof Hv as (_ & Hstrict & _). apply keep_nonnan_sorted_lt in Hstrict.
  destruct (level2_structure res1 res2 res1_pos res2_pos nc1 nc2 data l1 l2 Hv E1 E2)
    as (batches & parts & _ & Hcat & Hcp & Hne & Hpres & _ & _ & Hcb & _).
  rewrite <- (map_map (q2_of res1 res2) q_samples) in Hpres.
  apply (chunks_read_exact l2 _ (map (@concat _) parts) _ Hpres); [|rewrite concat_concat, Hcp; exact Hcat|exact Hstrict].
  rewrite <- Hcat, <- Hcp in *.
  apply Forall2_maps. eapply Forall_impl; [|exact (parts_ok parts Hne Hcb Hstrict)]. exact part_exact.
Qed.

Lemma level2_pred nc1 nc2 data l1 l2 :
  valid_input res1 res2 data = true ->
  level1 res1 nc1 data = Some l1 -> level2 res2 nc2 l1 = Some l2 ->
  exists emitted, read_counter l2 = Some emitted /\ level_ok (keep_nonnan data) emitted = true.
Proof.
  intros Hv E1 E2.
  destruct (level2_full nc1 nc2 data l1 l2 (valid_input_counter _ _ _ Hv) E1 E2) as (em & R & X).
  exists em. split; [exact R|apply level_ok_intro, X].
Qed.

End Values.

Lemma level2_terminates res2 nc2 l1 : exists l2, level2 res2 nc2 l1 = Some l2.
Proof. apply downsample_aggr_total. Qed.

Lemma two_levels res1 k nc1 nc2 data :
  0 < res1 -> 0 < k -> valid_input res1 (k * res1) data = true ->
  exists l1 read1,
    level1 res1 nc1 data = Some l1 /\ read_counter l1 = Some read1 /\
    level_ok (keep_nonnan data) read1 = true /\
    exists l2 read2,
      level2 (k * res1) nc2 l1 = Some l2 /\ read_counter l2 = Some read2 /\
      level_ok (keep_nonnan data) read2 = true.
Proof.
  intros H1 Hk Hv. destruct (level1_pred res1 (k * res1) nc1 data Hv) as (l1 & r1 & E1 & R1 & L1).
  exists l1, r1. repeat split; try assumption.
  destruct (level2_terminates (k * res1) nc2 l1) as [l2 E2].
  destruct (level2_pred res1 k H1 Hk nc1 nc2 data l1 l2 Hv E1 E2) as (r2 & R2 & L2).
  exists l2, r2. repeat split; assumption.
Qed.

(* the whole predicate of the check, for the model's outputs *)
Lemma full_pred res1 k nc1 nc2 data prog :
  0 < res1 -> 0 < k -> valid_input res1 (k * res1) data = true ->
  exists l1 read1 pres,
    level1 res1 nc1 data = Some l1 /\ read_counter l1 = Some read1 /\
    run_prog prog (counter_toks l1) acr0 = Some pres /\
    exists l2 read2,
      level2 (k * res1) nc2 l1 = Some l2 /\ read_counter l2 = Some read2 /\
      pred_ok (CCounter res1 (k * res1) nc1 nc2 data read1 read2 prog pres) = true.
Proof.
  intros H1 Hk Hv.
  destruct (two_levels res1 k nc1 nc2 data H1 Hk Hv) as (l1 & r1 & E1 & R1 & L1 & Hl2).
  destruct (programs_exact res1 nc1 data l1 prog (valid_input_counter _ _ _ Hv) E1) as (pres & Ep & Hp).
  exists l1, r1, pres. repeat split; try assumption.
  destruct Hl2 as (l2 & r2 & E2 & R2 & L2). exists l2, r2. repeat split; try assumption.
  unfold pred_ok. rewrite Hv, L1, L2. cbn [andb].
  apply forallb_forall. intros [s|] Hs; [|reflexivity]. rewrite Forall_forall in Hp.
  apply Z.eqb_eq. apply (Hp (Some s) Hs).
Qed.

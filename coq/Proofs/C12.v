(* C12 — the postings codecs. Both decoded iterators are shown to simulate
   index.ListPostings over the original list (one simulation argument, two
   instances); round trip and Seek equivalence are read off that. Then the
   buffer pool under histories of pooled decoders, and the source-shape facts. *)
From Coq Require Import String.
From Coq Require Import PeanoNat NArith List Bool Lia Permutation.
Import ListNotations.
From Verif Require Import Lib.Corr Gen.C12 Model.C12.
From Verif Require Lib.Uvarint.
Open Scope N_scope.

Lemma put_uvarint_fuel_eq f x : put_uvarint_fuel f x = Uvarint.put f x.
Proof. reflexivity. Qed.

Lemma put_cons x : exists b t, put_uvarint x = b :: t.
Proof. unfold put_uvarint. rewrite put_uvarint_fuel_eq. apply Uvarint.put_cons. Qed.

Lemma uvarint_go_last i x s b r : (i <= 9)%nat -> b < 128 -> (i = 9%nat -> b <= 1) ->
  uvarint_go i x s (b :: r) = Some (x + b * 2 ^ s, r).
Proof.
  intros Hi Hb H9. cbn [uvarint_go].
  destruct (Nat.eqb_spec i 10); [lia|]. rewrite (proj2 (N.ltb_lt b 128) Hb).
  destruct (Nat.eqb_spec i 9) as [E|_]; [|reflexivity].
  rewrite (proj2 (N.ltb_ge 1 b) (H9 E)). reflexivity.
Qed.

Lemma uvarint_go_cont i x s b r : (i <= 9)%nat -> 128 <= b ->
  uvarint_go i x s (b :: r) = uvarint_go (S i) (x + b mod 128 * 2 ^ s) (s + 7) r.
Proof.
  intros Hi Hb. cbn [uvarint_go].
  destruct (Nat.eqb_spec i 10); [lia|]. rewrite (proj2 (N.ltb_ge b 128) Hb). reflexivity.
Qed.

Lemma uvarint_put v tail : v < two64 -> uvarint (put_uvarint v ++ tail) = Some (v, tail).
Proof.
  unfold uvarint, put_uvarint. rewrite put_uvarint_fuel_eq.
  apply (Uvarint.get_put _ uvarint_go (fun v _ r => Some (v, r))); [| |constructor].
  - intros; apply uvarint_go_last; assumption.
  - intros; apply uvarint_go_cont; assumption.
Qed.

Lemma uvarint_go_app : forall bs i x s v r ext,
  uvarint_go i x s bs = Some (v, r) -> uvarint_go i x s (bs ++ ext) = Some (v, r ++ ext).
Proof.
  induction bs as [|b bs IH]; intros i x s v r ext H; cbn [uvarint_go app] in *; [discriminate|].
  destruct (Nat.eqb i 10); [discriminate|].
  destruct (b <? 128).
  - destruct (Nat.eqb i 9 && (1 <? b)); [discriminate|]. inversion H; subst. reflexivity.
  - apply IH. exact H.
Qed.

Lemma uvarint_app bs v r ext : uvarint bs = Some (v, r) -> uvarint (bs ++ ext) = Some (v, r ++ ext).
Proof. apply uvarint_go_app. Qed.

Lemma encode_total : forall l prev, sorted_from prev l = true -> exists bs, encode_from prev l = Some bs.
Proof.
  induction l as [|v r IH]; intros prev H; cbn [encode_from sorted_from] in *; [eauto|].
  apply andb_true_iff in H as [H1 H2]. apply N.leb_le in H1.
  rewrite (proj2 (N.ltb_ge v prev) H1). destruct (IH v H2) as [bs ->]. eauto.
Qed.

Lemma encode_unsorted : forall l prev, sorted_from prev l = false -> encode_from prev l = None.
Proof.
  induction l as [|v r IH]; intros prev H; cbn [encode_from sorted_from] in *; [discriminate|].
  destruct (N.ltb_spec v prev) as [|L]; [reflexivity|].
  rewrite (proj2 (N.leb_le prev v) L) in H. rewrite (IH v H). reflexivity.
Qed.

Lemma encode_cons_inv prev v r bs : encode_from prev (v :: r) = Some bs ->
  prev <= v /\ exists bs', encode_from v r = Some bs' /\ bs = put_uvarint (v - prev) ++ bs'.
Proof.
  cbn [encode_from]. destruct (N.ltb_spec v prev) as [|E]; [discriminate|].
  destruct (encode_from v r) as [bs'|]; [|discriminate]. intro H; inversion H; subst. eauto.
Qed.

(* every value takes at least one byte *)
Lemma encode_length : forall l prev bs, encode_from prev l = Some bs -> (length l <= length bs)%nat.
Proof.
  induction l as [|v r IH]; intros prev bs H; [cbn; lia|].
  apply encode_cons_inv in H as (_ & bs' & E & ->).
  destruct (put_cons (v - prev)) as (b & t & ->). cbn [app length].
  rewrite app_length. specialize (IH _ _ E). lia.
Qed.

Definition lp_stepf (o : op) (a : lp) : bool * lp :=
  match o with ONext => lp_next a | OSeek x => lp_seek x a end.

Lemma lp_step_stepf o a : lp_step o a = Some (lp_stepf o a).
Proof. destruct o; reflexivity. Qed.

Lemma lp_seek_eq x c l : lp_seek x (mkLp c l) =
  if x <=? c then (true, mkLp c l)
  else match drop_lt x l with [] => (false, mkLp c []) | v :: r => (true, mkLp v r) end.
Proof. destruct l; reflexivity. Qed.

(* An iterator with states S whose Seek is the shared loop over its Next, related by R
   to ListPostings states: if Next follows the reference list (next_cons, next_nil),
   so do Seek, reading to the end, and every program of calls. *)
Section Sim.
  Variable S : Type.
  Variable next : S -> bool * S.
  Variable cur : S -> N.
  Variable fuel : S -> nat.
  Variable step : op -> S -> option (bool * S).
  Hypothesis step_def : forall o st,
    step o st = match o with ONext => Some (next st) | OSeek x => seek_gen next cur (fuel st) x st end.
  Variable R : S -> lp -> Prop.
  Variable Q : S -> Prop.  (* what is known of the state in which Next has returned false *)
  Hypothesis R_cur : forall st a, R st a -> cur st = lp_cur a.
  Hypothesis R_fuel : forall st a, R st a -> (length (lp_list a) < fuel st)%nat.
  Hypothesis next_cons : forall st c v r, R st (mkLp c (v :: r)) ->
    exists st', next st = (true, st') /\ R st' (mkLp v r).
  Hypothesis next_nil : forall st c, R st (mkLp c []) ->
    exists st', next st = (false, st') /\ Q st'.

  (* a call returned r where ListPostings returned ra: the same boolean, and after a
     true the states are related again (after a false the iterator is not used any more) *)
  Definition follows (r : option (bool * S)) (ra : bool * lp) : Prop :=
    exists st', r = Some (fst ra, st') /\ (fst ra = true -> R st' (snd ra)).

  Lemma seek_loop_sim : forall l n st c c' x, R st (mkLp c l) -> (length l < n)%nat ->
    follows (seek_loop next cur n x st)
      (match drop_lt x l with [] => (false, mkLp c' []) | v :: r => (true, mkLp v r) end).
  Proof.
    induction l as [|v r IH]; intros n st c c' x HR Hn; (destruct n as [|n]; [cbn in Hn; lia|]); cbn [seek_loop drop_lt].
    - destruct (next_nil _ _ HR) as (st' & -> & _). exists st'. split; [reflexivity|discriminate].
    - destruct (next_cons _ _ _ _ HR) as (st' & -> & HR').
      rewrite (R_cur _ _ HR'). cbn [lp_cur]. rewrite N.leb_antisym.
      destruct (v <? x); cbn [negb]; [|exists st'; auto].
      apply (IH n st' v c' x HR'). cbn in Hn. lia.
  Qed.

  Lemma step_sim o st a : R st a -> follows (step o st) (lp_stepf o a).
  Proof.
    intro HR. rewrite step_def. destruct a as [c l]. destruct o as [|x]; cbn [lp_stepf].
    - destruct l as [|v r]; unfold lp_next; cbn [lp_list].
      + destruct (next_nil _ _ HR) as (st' & -> & _). exists st'. split; [reflexivity|discriminate].
      + destruct (next_cons _ _ _ _ HR) as (st' & -> & HR'). exists st'. auto.
    - unfold seek_gen. rewrite lp_seek_eq, (R_cur _ _ HR). cbn [lp_cur].
      destruct (x <=? c); [exists st; auto|]. exact (seek_loop_sim l _ st c c x HR (R_fuel _ _ HR)).
  Qed.

  Lemma read_all_sim : forall l n st c, R st (mkLp c l) -> (length l < n)%nat ->
    exists fin, read_all next cur n st = Some (l, fin) /\ Q fin.
  Proof.
    induction l as [|v r IH]; intros n st c HR Hn; (destruct n as [|n]; [cbn in Hn; lia|]); cbn [read_all].
    - destruct (next_nil _ _ HR) as (st' & -> & HQ). eauto.
    - destruct (next_cons _ _ _ _ HR) as (st' & -> & HR').
      destruct (IH n st' v HR') as (fin & -> & HQ); [cbn in Hn; lia|].
      rewrite (R_cur _ _ HR'). eauto.
  Qed.

  Lemma run_sim : forall prog st a, R st a ->
    exists t tl, run step cur prog st = Some t /\ run lp_step lp_cur prog a = Some tl /\ visible t = visible tl.
  Proof.
    induction prog as [|o p IH]; intros st a HR; cbn [run].
    - exists [], []. auto.
    - destruct (step_sim o st a HR) as (st' & -> & HR').
      rewrite lp_step_stepf. destruct (lp_stepf o a) as [[|] a']; cbn [fst snd] in *.
      + destruct (IH st' a' (HR' eq_refl)) as (t & tl & -> & -> & Hv).
        exists ((true, cur st') :: t), ((true, lp_cur a') :: tl). repeat split.
        cbn [visible map fst]. rewrite (R_cur _ _ (HR' eq_refl)). f_equal. exact Hv.
      + exists [(false, cur st')], [(false, lp_cur a')]. repeat split.
  Qed.
End Sim.
Arguments read_all_sim {S next cur R Q} R_cur next_cons next_nil.
Arguments run_sim {S next cur fuel step} step_def {R Q} R_cur R_fuel next_cons next_nil.

Definition bounded (l : list N) : Prop := Forall (fun v => v < two64) l.

(* A decoder at value [cur], without error, with [bytes] still to read, against
   ListPostings at [a]: the bytes are the encoding of the rest of the list. *)
Definition at_pos (cur : N) (err : bool) (bytes : list N) (a : lp) : Prop :=
  cur = lp_cur a /\ err = false /\ encode_from (lp_cur a) (lp_list a) = Some bytes /\ bounded (lp_list a).

Lemma at_pos_cons cur err bytes c v r : at_pos cur err bytes (mkLp c (v :: r)) ->
  exists d rest, bytes = put_uvarint d ++ rest /\ d < two64 /\ (cur + d) mod two64 = v /\
    at_pos v false rest (mkLp v r).
Proof.
  intros (-> & _ & Henc & Hb). cbn [lp_cur lp_list] in *.
  apply encode_cons_inv in Henc as (Hle & rest & Henc & ->).
  pose proof (Forall_inv Hb) as Hv. cbn beta in Hv.
  exists (v - c), rest. split; [reflexivity|]. split; [lia|]. split.
  - replace (c + (v - c)) with v by lia. apply N.mod_small, Hv.
  - repeat split; [exact Henc|exact (Forall_inv_tail Hb)].
Qed.

Lemma at_pos_nil cur err bytes c : at_pos cur err bytes (mkLp c []) -> err = false /\ bytes = [].
Proof. intros (_ & -> & Henc & _). inversion Henc. auto. Qed.

Lemma at_pos_len cur err bytes a : at_pos cur err bytes a -> (length (lp_list a) < S (length bytes))%nat.
Proof. intros (_ & _ & H & _). apply encode_length in H. lia. Qed.

Lemma at_pos_init l bs : bounded l -> diff_varint_encode l = Some bs -> at_pos 0 false bs (lp_init l).
Proof. intros Hb He. repeat split; assumption. Qed.

Lemma valid_spec l : valid l = true -> sorted_from 0 l = true /\ bounded l.
Proof.
  unfold valid. intro H. apply andb_true_iff in H as [H1 H2]. split; [exact H1|].
  apply Forall_forall. intros v Hv. rewrite forallb_forall in H2. apply N.ltb_lt. auto.
Qed.

Definition R_dv (st : dv) (a : lp) : Prop := at_pos (dv_cur st) (dv_err st) (dv_buf st) a.
Definition Q_dv (st : dv) : Prop := dv_err st = false.

Lemma dv_next_cons st c v r : R_dv st (mkLp c (v :: r)) ->
  exists st', dv_next st = (true, st') /\ R_dv st' (mkLp v r).
Proof.
  intro HR. pose proof HR as (_ & He & _). apply at_pos_cons in HR as (d & rest & Hbuf & Hd & Hv & HR).
  unfold dv_next. rewrite He, Hbuf, uvarint_put, Hv by exact Hd.
  destruct (put_cons d) as (b0 & t0 & ->). cbn [orb app is_nil].
  eexists; split; [reflexivity|exact HR].
Qed.

Lemma dv_next_nil st c : R_dv st (mkLp c []) -> exists st', dv_next st = (false, st') /\ Q_dv st'.
Proof.
  intro HR. apply at_pos_nil in HR as [He Hbuf].
  unfold dv_next. rewrite He, Hbuf. cbn [orb is_nil]. eauto.
Qed.

Lemma dv_step_def o st :
  dv_step o st = match o with ONext => Some (dv_next st) | OSeek x => seek_gen dv_next dv_cur (S (length (dv_buf st))) x st end.
Proof. reflexivity. Qed.

Lemma R_dv_cur st a : R_dv st a -> dv_cur st = lp_cur a.
Proof. intros (H & _). exact H. Qed.

Lemma R_dv_len st a : R_dv st a -> (length (lp_list a) < S (length (dv_buf st)))%nat.
Proof. apply at_pos_len. Qed.

Lemma R_dv_init l bs : bounded l -> diff_varint_encode l = Some bs -> R_dv (dv_init bs) (lp_init l).
Proof. exact (at_pos_init l bs). Qed.

Lemma dv_decode_ok l bs : bounded l -> diff_varint_encode l = Some bs -> dv_decode bs = Some (l, false).
Proof.
  intros Hb He. pose proof (R_dv_init l bs Hb He) as HR. unfold dv_decode.
  destruct (read_all_sim R_dv_cur dv_next_cons dv_next_nil l (S (length bs)) (dv_init bs) 0 HR (R_dv_len _ _ HR)) as (fin & -> & ->).
  reflexivity.
Qed.

(* streamedDiffVarintPostings: the bytes still to read are it.db.B and the chunks not yet appended *)

Definition R_sd (st : sd) (a : lp) : Prop :=
  at_pos (sd_cur st) (sd_E st) (sd_B st ++ concat (sd_chunks st)) a.

(* Next appends chunks to B until a whole varint is there; what B then holds
   beyond the varint, with the chunks left, is the rest of the bytes *)
Lemma sd_next_go_put : forall chunks B cur d tail,
  d < two64 -> B ++ concat chunks = put_uvarint d ++ tail ->
  exists B' chunks', sd_next_go cur B false chunks = (true, mkSd ((cur + d) mod two64) B' false chunks')
    /\ B' ++ concat chunks' = tail.
Proof.
  induction chunks as [|c cs IH]; intros B cur d tail Hd H.
  - cbn [concat] in H. rewrite app_nil_r in H. subst B.
    cbn [sd_next_go]. rewrite uvarint_put by exact Hd.
    exists tail, []. split; [reflexivity|apply app_nil_r].
  - cbn [sd_next_go]. destruct (uvarint B) as [[v' r']|] eqn:E.
    + pose proof (uvarint_app _ _ _ (concat (c :: cs)) E) as E2.
      rewrite H, uvarint_put in E2 by exact Hd. inversion E2; subst.
      exists r', (c :: cs). split; reflexivity.
    + apply IH; [exact Hd|]. rewrite <- app_assoc. exact H.
Qed.

Lemma sd_next_go_nil : forall chunks cur, concat chunks = [] ->
  sd_next_go cur [] false chunks = (false, mkSd cur [] true []).
Proof.
  induction chunks as [|c cs IH]; intros cur H; cbn [sd_next_go]; change (uvarint []) with (@None (N * list N)); [reflexivity|].
  cbn [concat] in H. apply app_eq_nil in H as [-> H]. apply IH. exact H.
Qed.

Lemma sd_next_cons st c v r : R_sd st (mkLp c (v :: r)) ->
  exists st', sd_next st = (true, st') /\ R_sd st' (mkLp v r).
Proof.
  intro HR. pose proof HR as (_ & He & _). apply at_pos_cons in HR as (d & rest & Hbuf & Hd & Hv & HR).
  unfold sd_next. rewrite He.
  destruct (sd_next_go_put _ _ (sd_cur st) d rest Hd Hbuf) as (B' & ch' & -> & <-).
  rewrite Hv. eexists; split; [reflexivity|exact HR].
Qed.

Lemma sd_next_nil st c : R_sd st (mkLp c []) -> exists st', sd_next st = (false, st') /\ True.
Proof.
  intro HR. apply at_pos_nil in HR as [He Hbuf]. apply app_eq_nil in Hbuf as [HB Hch].
  unfold sd_next. rewrite He, HB, (sd_next_go_nil _ _ Hch). eauto.
Qed.

Lemma sd_step_def o st :
  sd_step o st = match o with ONext => Some (sd_next st) | OSeek x => seek_gen sd_next sd_cur (S (sd_bytes st)) x st end.
Proof. reflexivity. Qed.

Lemma R_sd_cur st a : R_sd st a -> sd_cur st = lp_cur a.
Proof. intros (H & _). exact H. Qed.

Lemma R_sd_len st a : R_sd st a -> (length (lp_list a) < S (sd_bytes st))%nat.
Proof. apply at_pos_len. Qed.

Lemma R_sd_init l bs chunks : bounded l -> diff_varint_encode l = Some bs -> concat chunks = bs ->
  R_sd (sd_init chunks) (lp_init l).
Proof. intros Hb He <-. exact (at_pos_init l _ Hb He). Qed.

Lemma sd_decode_ok l bs chunks : bounded l -> diff_varint_encode l = Some bs -> concat chunks = bs ->
  sd_decode chunks = Some (l, false).
Proof.
  intros Hb He Hc. pose proof (R_sd_init l bs chunks Hb He Hc) as HR. unfold sd_decode.
  destruct (read_all_sim R_sd_cur sd_next_cons sd_next_nil l (S (length (concat chunks))) (sd_init chunks) 0 HR (R_sd_len _ _ HR)) as (fin & -> & _).
  reflexivity.
Qed.

Lemma roundtrip : forall l, valid l = true ->
  exists bs, diff_varint_encode l = Some bs /\ dv_decode bs = Some (l, false) /\
    forall chunks, concat chunks = bs -> sd_decode chunks = Some (l, false).
Proof.
  intros l Hv. apply valid_spec in Hv as [Hs Hb].
  destruct (encode_total l 0 Hs) as [bs He]. exists bs. split; [exact He|]. split.
  - apply (dv_decode_ok l bs Hb He).
  - intros chunks Hc. apply (sd_decode_ok l bs chunks Hb He Hc).
Qed.

Lemma rejects_unsorted : forall l, sorted_from 0 l = false -> diff_varint_encode l = None.
Proof. intros l H. apply encode_unsorted. exact H. Qed.

Lemma seek_equiv : forall l prog, valid l = true ->
  exists bs, diff_varint_encode l = Some bs /\
    forall chunks, concat chunks = bs ->
    exists tl td ts, run_lp prog l = Some tl /\ run_dv prog bs = Some td /\ run_sd prog chunks = Some ts /\
      visible td = visible tl /\ visible ts = visible tl.
Proof.
  intros l prog Hv. apply valid_spec in Hv as [Hs Hb].
  destruct (encode_total l 0 Hs) as [bs He]. exists bs. split; [exact He|].
  intros chunks Hc.
  destruct (run_sim dv_step_def R_dv_cur R_dv_len dv_next_cons dv_next_nil
              prog (dv_init bs) (lp_init l) (R_dv_init l bs Hb He)) as (td & tl & Hd & Hl & Hvd).
  destruct (run_sim sd_step_def R_sd_cur R_sd_len sd_next_cons sd_next_nil
              prog (sd_init chunks) (lp_init l) (R_sd_init l bs chunks Hb He Hc)) as (ts & tl' & Hsd & Hl' & Hvs).
  unfold run_lp. rewrite Hl in Hl'. inversion Hl'; subst tl'.
  exists tl, td, ts. auto.
Qed.

Lemma nlist_eqb_refl l : nlist_eqb l l = true.
Proof. exact (bytes_eqb_refl l). Qed.

Lemma out_eqb_refl o : out_eqb o o = true.
Proof. unfold out_eqb. rewrite nlist_eqb_refl, eqb_reflx. reflexivity. Qed.

Lemma ev_eqb_spec a b : ev_eqb a b = true <-> a = b.
Proof.
  destruct a as [a1 a2], b as [b1 b2]. unfold ev_eqb. cbn [fst snd]. rewrite andb_true_iff, eqb_true_iff, N.eqb_eq.
  split; [intros [-> ->]; reflexivity | intro H; inversion H; auto].
Qed.

Lemma trace_eqb_eq t1 t2 : t1 = t2 -> trace_eqb t1 t2 = true.
Proof. intros ->. apply (list_eqb_spec ev_eqb ev_eqb_spec). reflexivity. Qed.

Lemma split_concat : forall lens bs, lens_ok lens bs = true -> concat (split_by lens bs) = bs.
Proof.
  unfold lens_ok.
  induction lens as [|n r IH]; intros bs H; apply N.eqb_eq in H; cbn [sum_lens fold_right split_by concat] in *.
  - destruct bs; [reflexivity|]. cbn [length] in H. lia.
  - fold (sum_lens r) in H. rewrite IH.
    + apply firstn_skipn.
    + apply N.eqb_eq. rewrite skipn_length. lia.
Qed.

Lemma round_pred : forall l lens, valid l = true ->
  exists bs, diff_varint_encode l = Some bs /\
    (lens_ok lens bs = true ->
     exists dvo sto, dv_decode bs = Some dvo /\ sd_decode (split_by lens bs) = Some sto /\
       pred_ok (CRound l (Some bs) dvo lens sto) = true /\ pred_ok (CSplit l lens sto) = true).
Proof.
  intros l lens Hv. destruct (roundtrip l Hv) as (bs & He & Hd & Hs). exists bs. split; [exact He|].
  intro Hl. exists (l, false), (l, false). split; [exact Hd|]. split; [apply Hs, split_concat, Hl|].
  cbn [pred_ok]. rewrite Hv, !out_eqb_refl. split; reflexivity.
Qed.

Lemma seek_pred_ok : forall l lens prog, valid l = true ->
  exists bs, diff_varint_encode l = Some bs /\
    (lens_ok lens bs = true ->
     exists tl td ts, run_lp prog l = Some tl /\ run_dv prog bs = Some td /\ run_sd prog (split_by lens bs) = Some ts /\
       pred_ok (CSeek l lens prog tl td ts) = true).
Proof.
  intros l lens prog Hv. destruct (seek_equiv l prog Hv) as (bs & He & H). exists bs. split; [exact He|].
  intro Hl. destruct (H (split_by lens bs) (split_concat _ _ Hl)) as (tl & td & ts & H1 & H2 & H3 & H4 & H5).
  exists tl, td, ts. repeat split; auto.
  cbn [pred_ok]. rewrite Hv. unfold seek_pred. rewrite (trace_eqb_eq _ _ H4), (trace_eqb_eq _ _ H5). reflexivity.
Qed.

Definition seek_events (curfield : string) : list (string * string) :=
  [("if", curfield ++ " >= x"); ("return", "true"); ("endif", "");
   ("for", ""); ("call", "it.Next"); ("call", "it.At"); ("if", "it.At() >= x");
   ("return", "true"); ("endif", ""); ("endfor", ""); ("return", "false")]%string.

(* membership of an event by comparing strings, wherever in the list it stands *)
Lemma In_event (e : string * string) l :
  existsb (fun e' => String.eqb (fst e) (fst e') && String.eqb (snd e) (snd e')) l = true -> In e l.
Proof.
  intro H. apply existsb_exists in H as ([a b] & Hin & E). destruct e as [a' b'].
  apply andb_true_iff in E as [Ea Eb]. apply String.eqb_eq in Ea, Eb. cbn [fst snd] in *. subst. exact Hin.
Qed.

Lemma source_shape :
  dvSeekEvents = seek_events "it.cur" /\ sdSeekEvents = seek_events "it.curSeries" /\
  dvNextEvents =
    [("call", "it.buf.Err"); ("call", "it.buf.Len"); ("if", "it.buf.Err() != nil || it.buf.Len() == 0");
     ("return", "false"); ("endif", ""); ("call", "it.buf.Uvarint64"); ("call", "it.buf.Err");
     ("if", "it.buf.Err() != nil"); ("return", "false"); ("endif", "");
     ("call", "storage.SeriesRef"); ("return", "true")]%string /\
  sdNextEvents =
    [("for", ""); ("call", "it.db.Uvarint64"); ("call", "it.db.Err"); ("if", "it.db.Err() != nil");
     ("call", "it.readNextChunk"); ("if", "!it.readNextChunk(it.db.B)"); ("return", "false"); ("endif", "");
     ("endif", ""); ("call", "storage.SeriesRef"); ("return", "true"); ("endfor", "")]%string /\
  streamedEncodeUvarintRHS = "binary.PutUvarint(uvarintEncodeBuf, uint64(v-prev))"%string /\
  readNextChunkDbBAssigns = ["append(remainder, decoded...)"; "decoded"; "append(remainder, uncompressedData...)";
                             "uncompressedData"]%string /\
  In ("if", "v < prev")%string encodeEvents /\ In ("call", "buf.PutUvarint64")%string encodeEvents.
Proof. repeat split; try (apply In_event); reflexivity. Qed.

Lemma remove_first_perm : forall l x l', remove_first x l = Some l' -> Permutation l (x :: l').
Proof.
  induction l as [|y l IH]; intros x l' H; cbn [remove_first] in H; [discriminate|].
  destruct (N.eqb_spec y x) as [->|_].
  - inversion H; subst. reflexivity.
  - destruct (remove_first x l) as [r|] eqn:R; [|discriminate]. inversion H; subst.
    rewrite (IH x r R). apply perm_swap.
Qed.

Lemma live_bufs_app ds ds' : live_bufs (ds ++ ds') = live_bufs ds ++ live_bufs ds'.
Proof. induction ds as [|[[id|] [|] c] ds IH]; cbn [app live_bufs]; rewrite ?IH; reflexivity. Qed.

Lemma live_bufs_cons x ds : live_bufs (x :: ds) = live_bufs [x] ++ live_bufs ds.
Proof. exact (live_bufs_app [x] ds). Qed.

(* putting y in the place of decoder x exchanges what the two hold live *)
Lemma live_bufs_upd : forall ds d x y, nth_error ds d = Some x ->
  Permutation (live_bufs [y] ++ live_bufs ds) (live_bufs [x] ++ live_bufs (upd_nth d (fun _ => y) ds)).
Proof.
  induction ds as [|z ds IH]; intros [|d] x y H; cbn [nth_error] in H; try discriminate; cbn [upd_nth].
  - injection H as ->. rewrite (live_bufs_cons x ds), (live_bufs_cons y ds). apply Permutation_app_swap_app.
  - rewrite (live_bufs_cons z ds), (live_bufs_cons z (upd_nth _ _ _)).
    rewrite Permutation_app_swap_app, (IH d x y H). apply Permutation_app_swap_app.
Qed.

Lemma Forall_upd_nth {A} (P : A -> Prop) y : P y -> forall l k, Forall P l -> Forall P (upd_nth k (fun _ => y) l).
Proof.
  intros Hy l. induction l as [|x l IH]; intros k H; [destruct k; constructor|].
  inversion H; subst. destruct k; cbn [upd_nth]; constructor; auto.
Qed.

(* the buffers that exist: pooled, or held by a decoder that may still use its buffer *)
Definition owned (st : hpool) : list N := hp_pool st ++ live_bufs (hp_decs st).

Definition dec_ok (x : pdec) : Prop := pd_live x = negb (pd_closed x).

Definition hinv (st : hpool) : Prop :=
  NoDup (owned st) /\ Forall (fun i => i < hp_fresh st) (owned st) /\ Forall dec_ok (hp_decs st).

(* a step that only moves buffers between the pool and the decoders *)
Lemma hinv_perm st st' : hinv st -> Permutation (owned st) (owned st') -> hp_fresh st' = hp_fresh st ->
  Forall dec_ok (hp_decs st') -> hinv st'.
Proof.
  intros (I1 & I2 & _) P F D. rewrite <- F in I2.
  exact (conj (Permutation_NoDup P I1) (conj (Permutation_Forall P I2) D)).
Qed.

(* a step that makes a new buffer: its number is above all that exist *)
Lemma hinv_fresh st st' : hinv st -> Permutation (hp_fresh st :: owned st) (owned st') ->
  hp_fresh st' = hp_fresh st + 1 -> Forall dec_ok (hp_decs st') -> hinv st'.
Proof.
  intros (I1 & I2 & _) P F D. unfold hinv. rewrite F. repeat split; [| |exact D].
  - apply (Permutation_NoDup P). constructor; [|exact I1].
    intro Hin. rewrite Forall_forall in I2. specialize (I2 _ Hin). lia.
  - apply (Permutation_Forall P). constructor; [lia|]. eapply Forall_impl; [|exact I2]. cbn. intros; lia.
Qed.

Lemma hp_acquire_inv st d acq st' : hinv st -> hp_acquire st d acq = Some st' -> hinv st'.
Proof.
  intros I H. unfold hp_acquire in H. destruct acq as [id|]; [|injection H as <-; exact I].
  destruct (nth_error (hp_decs st) d) as [[[b|] [|] [|]]|] eqn:E; try discriminate.
  pose proof (live_bufs_upd _ _ _ (mkPD (Some id) true false) E) as P. cbn [live_bufs app] in P.
  assert (D : Forall dec_ok (upd_nth d (fun _ => mkPD (Some id) true false) (hp_decs st)))
    by (apply Forall_upd_nth; [reflexivity|apply I]).
  destruct (remove_first id (hp_pool st)) as [p'|] eqn:R.
  - injection H as <-. apply remove_first_perm in R.
    apply (hinv_perm st); [exact I| |reflexivity|exact D].
    unfold owned; cbn [hp_pool hp_decs]. rewrite <- P, R. apply Permutation_middle.
  - destruct (N.eqb_spec id (hp_fresh st)) as [->|_]; [|discriminate]. injection H as <-.
    apply (hinv_fresh st); [exact I| |reflexivity|exact D].
    unfold owned; cbn [hp_pool hp_decs]. rewrite <- P. apply Permutation_middle.
Qed.

Lemma hp_step_inv st e acq st' : hinv st -> hp_step false st e acq = Some st' -> hinv st'.
Proof.
  intros I H. destruct e as [l|d k|d|d]; cbn [hp_step] in H.
  - injection H as <-. apply (hinv_perm st); [exact I| |reflexivity|].
    + unfold owned; cbn [hp_pool hp_decs]. rewrite live_bufs_app, app_nil_r. reflexivity.
    + apply Forall_app. split; [apply I|repeat constructor].
  - destruct (nth_error (hp_decs st) d) as [x|]; [|discriminate]. destruct (pd_closed x); [discriminate|].
    exact (hp_acquire_inv _ _ _ _ I H).
  - destruct (nth_error (hp_decs st) d) as [x|]; [|discriminate]. destruct (pd_closed x); [discriminate|].
    destruct (hp_acquire st d acq) as [st1|] eqn:A; [|discriminate]. injection H as <-.
    exact (hp_acquire_inv _ _ _ _ I A).
  - (* close: an open decoder is live (dec_ok), so its buffer moves from the live ones to the pool *)
    destruct (nth_error (hp_decs st) d) as [[b lv c]|] eqn:E; [|discriminate]. cbn [pd_closed pd_buf] in H.
    destruct c; [discriminate|]. injection H as <-.
    assert (L : lv = true).
    { destruct I as (_ & _ & I3). rewrite Forall_forall in I3. exact (I3 _ (nth_error_In _ _ E)). }
    subst lv. pose proof (live_bufs_upd _ _ _ (mkPD b false true) E) as P.
    apply (hinv_perm st); [exact I| |reflexivity|apply Forall_upd_nth; [reflexivity|apply I]].
    unfold owned; cbn [hp_pool hp_decs].
    destruct b as [id|]; cbn [put_buf live_bufs app] in *; rewrite P; [symmetry; apply Permutation_middle|reflexivity].
Qed.

Lemma hp_run_inv : forall evs st st', hinv st -> hp_run false st evs = Some st' -> hinv st'.
Proof.
  induction evs as [|[e a] r IH]; intros st st' I H; cbn [hp_run] in H; [inversion H; subst; exact I|].
  destruct (hp_step false st e a) as [s1|] eqn:E; [|discriminate]. apply (IH s1 st' (hp_step_inv _ _ _ _ I E) H).
Qed.

(* For every history in which callers close a decoder at most once and do not use it afterwards
   (steps outside that discipline are rejected by hp_step), whatever buffers sync.Pool hands out:
   a buffer is in the pool at most once and never while a live decoder holds it. *)
Lemma pool_single_put evs st : hp_run false hp_init evs = Some st ->
  NoDup (hp_pool st ++ live_bufs (hp_decs st)).
Proof.
  intro H. assert (I : hinv hp_init) by (repeat split; cbn; constructor).
  apply (hp_run_inv evs hp_init st I H).
Qed.

(* a Next that closes the decoder itself when the input is exhausted, followed by the caller's
   normal close(): the buffer is pooled twice, two later decoders get the same buffer *)
Lemma pool_early_close_refuted :
  option_map hp_pool (hp_run true hp_init [(HNew 0, None); (HExhaust 0, Some 0); (HClose 0, None)]) = Some [0; 0] /\
  option_map (fun st => live_bufs (hp_decs st))
    (hp_run true hp_init [(HNew 0, None); (HExhaust 0, Some 0); (HClose 0, None);
                          (HNew 1, None); (HNew 2, None); (HNext 1 5, Some 0); (HNext 2 5, Some 0)]) = Some [0; 0] /\
  option_map hp_pool (hp_run false hp_init [(HNew 0, None); (HExhaust 0, Some 0); (HClose 0, None)]) = Some [0].
Proof. repeat split; reflexivity. Qed.

Lemma hist_case_pred lists evs :
  pred_ok (CHist lists evs (map (fun x => (hd_read x, true, false))
     (hout (map (fun t : N * list N * N => big_list (fst (fst t)) (snd (fst t)) (snd t)) lists) evs))) = true.
Proof. cbn [pred_ok]. apply forallb_forall. intros o H. apply in_map_iff in H as (x & <- & _). reflexivity. Qed.

(* tie T: close() tests it.buf and disablePooling, puts &it.buf, and assigns nothing — it is not
   idempotent; Next (C12_source_shape) contains no call of close *)
Lemma close_shape :
  sdCloseEvents = [("if", "it.buf == nil"); ("return", ""); ("endif", ""); ("if", "it.disablePooling"); ("return", "");
                   ("endif", ""); ("call", "decodedBufPool.Put")]%string /\ sdCloseAssigns = []%string.
Proof. split; reflexivity. Qed.

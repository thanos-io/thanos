(* C47 — Reloader.apply (Model/C47.v) as three parts: the config file, the
   directory pass with its removal step, the reload decision; then the Watch
   loop over apply, and the two reads of the config file.
   As in the model: one apply call gets the script of the reload endpoint,
   [fails] failing attempts followed by success, or by the context running out
   ([giveup]); [apply_unfixed] is apply without repo_patches/C47-fix.patch;
   [apply2] reads the config file twice (hash, then normalize). *)
From Coq Require Import NArith ZArith List Bool Lia String.
Import ListNotations.
From Verif Require Import Lib.Corr Lib.Misc_Cmp Gen.C47 Model.C47.

(* tie T: the reload decision of apply and the guard of its removal step, as in the source *)
Definition decision_ok : bool :=
  existsb (fun e => String.eqb (fst e) "if"
     && String.eqb (snd e) "!r.forceReload && !cfgDirsChanged && bytes.Equal(r.lastCfgHash, cfgHash) && bytes.Equal(r.lastWatchedDirsHash, watchedDirsHash)")
    apply_decisions
  && existsb (fun e => String.eqb (fst e) "if" && String.eqb (snd e) "r.lastCfgDirFiles[i] != nil") apply_decisions.

Lemma decision_fact : decision_ok = true.
Proof. vm_compute. reflexivity. Qed.

Lemma str_cmp_eq_iff a b : str_cmp a b = Eq <-> a = b.
Proof. split; [apply str_cmp_eq | intro; subst; apply str_cmp_refl]. Qed.

Lemma lookup_upsert n m c l :
  lookup m (upsert n c l) = if str_eqb m n then Some c else lookup m l.
Proof.
  induction l as [|[n' c'] r IH]; simpl; [reflexivity|].
  destruct (str_cmp n n') eqn:E; simpl.
  - apply str_cmp_eq in E. subst n'. destruct (str_eqb m n); reflexivity.
  - reflexivity.
  - rewrite IH. destruct (str_eqb m n') eqn:E1, (str_eqb m n) eqn:E2; try reflexivity.
    apply str_eqb_eq in E1, E2. subst. rewrite str_cmp_refl in E. discriminate.
Qed.

Lemma upsert_in n c l f : In f (upsert n c l) -> f = (n, c) \/ In f l.
Proof.
  induction l as [|[n' c'] r IH]; simpl; [intros [H|[]]; left; congruence|].
  destruct (str_cmp n n'); simpl.
  - intros [H|H]; [left; congruence | right; right; exact H].
  - intros [H|H]; [left; congruence | right; exact H].
  - intros [H|H]; [right; left; exact H|]. destruct (IH H) as [H'|H']; [left; exact H' | right; right; exact H'].
Qed.

Lemma files_eqb_refl d : files_eqb d d = true.
Proof. apply ListFacts.list_eqb_refl. intros [n c]. simpl. rewrite !str_eqb_refl. reflexivity. Qed.

Lemma ostr_eqb_refl o : option_eqb str_eqb o o = true.
Proof. destruct o; simpl; [apply str_eqb_refl | reflexivity]. Qed.

Lemma ostr_eqb_true a b : option_eqb str_eqb a b = true -> a = b.
Proof. apply option_eqb_spec, str_eqb_eq. Qed.

(* the removal step of apply: outputs recorded in [pv] whose input is not among [names] go *)
Definition prune (pv names : list str) (od : files) : files :=
  filter (fun f => negb (mem_str (fst f) pv && negb (mem_str (fst f) names))) od.

Lemma prune_in pv names od f : In f (prune pv names od) -> In (fst f) pv -> In (fst f) names.
Proof.
  intros H Hp. apply filter_In in H as [_ H]. apply mem_str_In in Hp. rewrite Hp in H.
  apply mem_str_In. destruct (mem_str (fst f) names); [reflexivity | discriminate].
Qed.

Lemma lookup_prune pv names od n : In n names -> lookup n (prune pv names od) = lookup n od.
Proof.
  intro H. apply mem_str_In in H. induction od as [|[n' c'] r IH]; simpl; [reflexivity|].
  destruct (str_eqb n n') eqn:E.
  - apply str_eqb_eq in E. subst n'. rewrite H, andb_false_r. simpl. rewrite str_eqb_refl. reflexivity.
  - destruct (negb _); simpl; rewrite ?E; exact IH.
Qed.

Definition recorded_names (s : rst) : list str :=
  match last_names s with Some p => p | None => [] end.

Section ApplyFacts.
  Variable has_cfg : bool.
  Variable env : str -> option str.
  Variable tolerate : bool.

  Notation ex := (expand env tolerate).
  Notation applyf := (apply has_cfg env tolerate).

  (* whatever the outcome: entries come from the old directory or were written now *)
  Lemma write_all_any fs : forall out od ok w,
    write_all env tolerate fs out = (od, ok, w) ->
    forall f, In f od -> In f out \/ In (fst f) w.
  Proof.
    induction fs as [|[n c] r IH]; intros out od ok w H; simpl in H.
    - injection H as <- _ <-. auto.
    - destruct (ex c) as [e|]; [|injection H as <- _ <-; auto].
      destruct (write_all env tolerate r (upsert n e out)) as [[od1 ok1] w1] eqn:Ew.
      injection H as <- _ <-. intros f Hf. destruct (IH _ _ _ _ Ew f Hf) as [H0|H0].
      + apply upsert_in in H0 as [->|H0]; [right; left; reflexivity | left; exact H0].
      + right. right. exact H0.
  Qed.

  Lemma write_all_ok fs : forall out od w,
    write_all env tolerate fs out = (od, true, w) ->
    NoDup (map fst fs) ->
    (forall n c, In (n, c) fs -> lookup n od = ex c /\ ex c <> None)
    /\ (forall n, ~ In n (map fst fs) -> lookup n od = lookup n out).
  Proof.
    induction fs as [|[n c] r IH]; intros out od w H Hnd; simpl in H.
    - injection H as <- _. split; auto. intros n c [].
    - destruct (ex c) as [e|] eqn:E; [|discriminate].
      destruct (write_all env tolerate r (upsert n e out)) as [[od1 ok1] w1] eqn:Ew.
      injection H as <- -> _. inversion Hnd as [|? ? Hnin Hnd']; subst.
      destruct (IH _ _ _ Ew Hnd') as [I1 I2]. split.
      + intros n0 c0 [H0|H0]; [|apply I1; exact H0]. injection H0 as <- <-.
        rewrite (I2 n Hnin), lookup_upsert, str_eqb_refl. split; congruence.
      + intros n0 Hn0. simpl in Hn0. rewrite I2, lookup_upsert by tauto.
        replace (str_eqb n0 n) with false; [reflexivity|].
        symmetry. apply str_eqb_neq. intro. subst. tauto.
  Qed.

  (* whether every file expands does not depend on the output directory *)
  Lemma write_all_flag fs : forall o1 o2,
    snd (fst (write_all env tolerate fs o1)) = snd (fst (write_all env tolerate fs o2)).
  Proof.
    induction fs as [|[n c] r IH]; intros o1 o2; simpl; [reflexivity|].
    destruct (ex c) as [e|]; [|reflexivity]. specialize (IH (upsert n e o1) (upsert n e o2)).
    destruct (write_all env tolerate r (upsert n e o1)) as [[a1 b1] c1].
    destruct (write_all env tolerate r (upsert n e o2)) as [[a2 b2] c2]. exact IH.
  Qed.

  Definition cfg_hash (cfg : option str) : option str := if has_cfg then cfg else None.

  (* the recorded digests equal those of the given content *)
  Definition same_as_recorded (s : rst) (cfg : option str) (dir : files) : bool :=
    match last_dir s with Some d => files_eqb d dir | None => false end
    && option_eqb str_eqb (last_cfg s) (cfg_hash cfg).

  (* every output file is recorded in lastCfgDirFiles *)
  Definition synced (s : rst) : Prop :=
    match last_names s with
    | Some prev => forall f, In f (out_dir s) -> In (fst f) prev
    | None => out_dir s = []
    end.

  Lemma synced_init : synced init.
  Proof. reflexivity. Qed.

  (* the output file after the first part, if it goes through *)
  Definition cfg_out (s : rst) (cfg : option str) : option (option str) :=
    if has_cfg then match cfg with Some c => option_map Some (ex c) | None => None end
    else Some (out_cfg s).

  Lemma cfg_out_spec s cfg oc :
    cfg_out s cfg = Some oc -> has_cfg = true -> exists c, cfg = Some c /\ oc = ex c /\ ex c <> None.
  Proof.
    unfold cfg_out. intros H ->. destruct cfg as [c|]; [|discriminate].
    destruct (ex c) eqn:E; [|discriminate]. injection H as <-. exists c. repeat split; congruence.
  Qed.

  (* the last part, once the outputs [oc], [od] are written: reload iff something
     is pending or the content differs from the recorded one; record on success *)
  Definition finish (s : rst) (cfg : option str) (dir : files) (fails : nat) (giveup : bool)
             (oc : option str) (od : files) : rst * result :=
    let names := Some (map fst dir) in
    if force s || negb (same_as_recorded s cfg dir) then
      if giveup then (Rst (last_cfg s) (last_dir s) names true oc od, Result false true false 0)
      else (Rst (cfg_hash cfg) (Some dir) names false oc od, Result false true true (S fails))
    else (Rst (last_cfg s) (last_dir s) names (force s) oc od, Result false false false 0).

  Lemma apply_eq s cfg dir fails giveup :
    applyf s cfg dir fails giveup =
    match cfg_out s cfg with
    | None => (s, Result true false false 0)
    | Some oc =>
      let '(od, ok, w) := write_all env tolerate dir (out_dir s) in
      let pv := recorded_names s ++ w in
      if ok then finish s cfg dir fails giveup oc (prune pv (map fst dir) od)
      else (Rst (last_cfg s) (last_dir s) (Some pv) (force s) oc od, Result true false false 0)
    end.
  Proof.
    unfold apply, apply_gen. cbv zeta.
    replace (if has_cfg then match cfg with
                             | Some c => match ex c with Some e => Some (Some c, Some e) | None => None end
                             | None => None end
             else Some (None, out_cfg s))
      with (option_map (pair (cfg_hash cfg)) (cfg_out s cfg))
      by (unfold cfg_out, cfg_hash; destruct has_cfg; [destruct cfg as [c|]; [destruct (ex c)|]|]; reflexivity).
    destruct (cfg_out s cfg) as [oc|]; [|reflexivity]. cbn [option_map].
    destruct (write_all env tolerate dir (out_dir s)) as [[od ok] w]. destruct ok; [|reflexivity].
    cbn [negb]. unfold finish, prune, recorded_names.
    replace (negb (force s) && negb match last_dir s with Some d => negb (files_eqb d dir) | None => true end
             && option_eqb str_eqb (last_cfg s) (cfg_hash cfg))
      with (negb (force s || negb (same_as_recorded s cfg dir)))
      by (unfold same_as_recorded; destruct (force s), (last_dir s) as [d|], (option_eqb str_eqb (last_cfg s) (cfg_hash cfg));
          cbn; try destruct (files_eqb d dir); reflexivity).
    destruct (force s || negb (same_as_recorded s cfg dir)); reflexivity.
  Qed.

  Lemma apply_noerr s cfg dir fails giveup s' r :
    applyf s cfg dir fails giveup = (s', r) -> r_err r = false ->
    exists oc od w,
      cfg_out s cfg = Some oc /\ write_all env tolerate dir (out_dir s) = (od, true, w)
      /\ (s', r) = finish s cfg dir fails giveup oc (prune (recorded_names s ++ w) (map fst dir) od).
  Proof.
    rewrite apply_eq. destruct (cfg_out s cfg) as [oc|]; [|intros [= <- <-]; discriminate].
    destruct (write_all env tolerate dir (out_dir s)) as [[od ok] w].
    destruct ok; [|intros [= <- <-]; discriminate]. intros <- _. exists oc, od, w. auto.
  Qed.

  (* with the repair every output written by a pass is recorded, complete or not *)
  Lemma written_recorded s dir od ok w :
    synced s -> write_all env tolerate dir (out_dir s) = (od, ok, w) ->
    forall f, In f od -> In (fst f) (recorded_names s ++ w).
  Proof.
    intros Hs Ew f Hf. apply in_or_app.
    destruct (write_all_any dir _ _ _ _ Ew f Hf) as [H0|H0]; [left | right; exact H0].
    unfold synced, recorded_names in *.
    destruct (last_names s); [apply Hs; exact H0 | rewrite Hs in H0; destruct H0].
  Qed.

  Lemma pruned_names s dir od ok w f :
    synced s -> write_all env tolerate dir (out_dir s) = (od, ok, w) ->
    In f (prune (recorded_names s ++ w) (map fst dir) od) -> In (fst f) (map fst dir).
  Proof.
    intros Hs Ew Hf. apply (prune_in _ _ _ _ Hf), (written_recorded _ _ _ _ _ Hs Ew).
    apply filter_In in Hf. apply Hf.
  Qed.

  (* so [synced] is an invariant of every apply call, failing or not *)
  Lemma apply_synced s cfg dir fails giveup :
    synced s -> synced (fst (applyf s cfg dir fails giveup)).
  Proof.
    intro Hs. rewrite apply_eq. destruct (cfg_out s cfg) as [oc|]; [|exact Hs].
    destruct (write_all env tolerate dir (out_dir s)) as [[od ok] w] eqn:Ew.
    destruct ok; [|exact (written_recorded _ _ _ _ _ Hs Ew)].
    unfold finish. destruct (_ || _); [destruct giveup|]; intros f; exact (pruned_names _ _ _ _ _ f Hs Ew).
  Qed.

  (* whether apply fails does not depend on the reloader state *)
  Lemma apply_err_state s1 s2 cfg dir f1 g1 f2 g2 :
    r_err (snd (applyf s1 cfg dir f1 g1)) = r_err (snd (applyf s2 cfg dir f2 g2)).
  Proof.
    assert (G : forall s f g, r_err (snd (applyf s cfg dir f g))
              = match cfg_out s cfg with None => true | Some _ => negb (snd (fst (write_all env tolerate dir (out_dir s)))) end).
    { intros s f g. rewrite apply_eq. destruct (cfg_out s cfg); [|reflexivity].
      destruct (write_all env tolerate dir (out_dir s)) as [[od ok] w]. destruct ok; [|reflexivity].
      unfold finish. destruct (_ || _); [destruct g|]; reflexivity. }
    rewrite !G, (write_all_flag dir (out_dir s1) (out_dir s2)).
    unfold cfg_out. destruct has_cfg; reflexivity.
  Qed.

  Lemma apply_spec s cfg dir fails giveup s' r :
    applyf s cfg dir fails giveup = (s', r) ->
    r_err r = false -> NoDup (map fst dir) ->
    (* outputs = inputs with the environment substituted *)
    (has_cfg = true -> exists c, cfg = Some c /\ out_cfg s' = ex c /\ ex c <> None)
    /\ (forall n c, In (n, c) dir -> lookup n (out_dir s') = ex c /\ ex c <> None)
    (* reload decision *)
    /\ r_tried r = (force s || negb (same_as_recorded s cfg dir))
    (* bookkeeping *)
    /\ (r_succeeded r = true -> r_tried r = true /\ giveup = false /\ force s' = false
                                /\ last_cfg s' = cfg_hash cfg /\ last_dir s' = Some dir /\ r_attempts r = S fails)
    /\ (r_succeeded r = false -> last_cfg s' = last_cfg s /\ last_dir s' = last_dir s
                                 /\ force s' = (force s || r_tried r))
    /\ (r_tried r = true -> r_succeeded r = negb giveup)
    /\ last_names s' = Some (map fst dir)
    (* outputs of vanished inputs are removed *)
    /\ (synced s -> forall f, In f (out_dir s') -> In (fst f) (map fst dir)).
  Proof.
    intros H Herr Hnd.
    destruct (apply_noerr _ _ _ _ _ _ _ H Herr) as [oc [od [w [E1 [Ew E]]]]].
    destruct (write_all_ok dir _ _ _ Ew Hnd) as [W1 _].
    pose proof (fun Hs f => pruned_names s dir od true w f Hs Ew) as Hrm.
    assert (Hlook : forall n c, In (n, c) dir ->
              lookup n (prune (recorded_names s ++ w) (map fst dir) od) = ex c /\ ex c <> None).
    { intros n c Hin. rewrite lookup_prune; [apply W1; exact Hin | apply (in_map fst _ _ Hin)]. }
    unfold finish in E.
    destruct (force s || negb (same_as_recorded s cfg dir)); [destruct giveup|];
      injection E as -> ->;
      cbn [r_tried r_succeeded r_attempts last_cfg last_dir last_names force out_cfg out_dir];
      (split; [exact (cfg_out_spec _ _ _ E1)|]); (split; [exact Hlook|]);
      repeat split; try discriminate; try reflexivity; try exact Hrm;
      symmetry; [apply orb_true_r | apply orb_false_r].
  Qed.
End ApplyFacts.

(* an error pass breaks the bookkeeping: the output of b stays after b's input is gone *)
Definition w_env (v : str) : option str := None.
Definition fa : str := [97%N].
Definition fb : str := [98%N].
Definition fc : str := [99%N].
Definition bad : str := [36; 40; 85; 41]%N.          (* "$(U)" *)

Lemma error_pass_leaves_stale_output :
  let s1 := fst (apply_unfixed false w_env false init None [(fa, [120%N])] 0 false) in
  let s2 := fst (apply_unfixed false w_env false s1 None [(fa, [120%N]); (fb, [121%N]); (fc, bad)] 0 false) in
  let '(s3, r3) := apply_unfixed false w_env false s2 None [(fa, [120%N])] 0 false in
  r_err r3 = false /\ out_dir s3 = [(fa, [120%N]); (fb, [121%N])]
  /\ out_dir (fst (apply false w_env false
        (fst (apply false w_env false (fst (apply false w_env false init None [(fa, [120%N])] 0 false))
                    None [(fa, [120%N]); (fb, [121%N]); (fc, bad)] 0 false))
        None [(fa, [120%N])] 0 false)) = [(fa, [120%N])].
Proof. vm_compute. repeat split; reflexivity. Qed.

(* tie T: the endless loop returns only when the parent context is done, and
   calls apply on every other way through the select *)
Fixpoint at_depth0 (evs : list (string * string)) (depth : nat) : list (string * string) :=
  match evs with
  | [] => []
  | (k, t) :: r =>
    if String.eqb k "if" then at_depth0 r (S depth)
    else if String.eqb k "endif" then at_depth0 r (pred depth)
    else match depth with O => (k, t) :: at_depth0 r depth | S _ => at_depth0 r depth end
  end.

Definition watch_shape_ok : bool :=
  let ifs := map snd (filter (fun e => String.eqb (fst e) "if") watch_loop) in
  let rets := map snd (filter (fun e => String.eqb (fst e) "return") watch_loop) in
  let top := at_depth0 watch_loop 0 in
  list_eqb String.eqb rets ["nil"%string]
  && String.eqb (hd ""%string ifs) "ctx.Err() != nil"
  && existsb (fun e => String.eqb (fst e) "call" && String.eqb (snd e) "r.apply") top
  && negb (existsb (fun e => String.eqb (fst e) "return") top).

Lemma watch_shape : watch_shape_ok = true.
Proof. vm_compute. reflexivity. Qed.

Section WatchLoop.
  Variable has_cfg : bool.
  Variable env : str -> option str.
  Variable tolerate : bool.

  Notation applyf := (apply has_cfg env tolerate).
  Notation watchf := (watch has_cfg env tolerate).

  (* events before the context is cancelled *)
  Fixpoint live (evs : list wstep) : list wstep :=
    match evs with
    | [] => []
    | (EDone, _, _) :: _ => []
    | e :: r => e :: live r
    end.

  Lemma watch_applies_every_event evs : forall s,
    List.length (snd (watchf s evs)) = List.length (live evs).
  Proof.
    induction evs as [|[[e [cfg dir]] [f g]] r IH]; intro s; [reflexivity|].
    destruct e; cbn [watch live]; try reflexivity;
      destruct (applyf s cfg dir f g) as [s' res]; specialize (IH s');
      destruct (watchf s' r) as [s'' rs]; simpl in *; rewrite IH; reflexivity.
  Qed.

  Definition settled (s : rst) (cfg : option str) (dir : files) : Prop :=
    force s = false /\ same_as_recorded has_cfg s cfg dir = true.

  (* the state after an apply that went through, by whether the endpoint was
     called and whether the script gives up *)
  Lemma apply_state s cfg dir fails giveup s' r :
    applyf s cfg dir fails giveup = (s', r) -> r_err r = false ->
    r_tried r = (force s || negb (same_as_recorded has_cfg s cfg dir))
    /\ force s' = (r_tried r && giveup)
    /\ same_as_recorded has_cfg s' cfg dir
       = (r_tried r && negb giveup || same_as_recorded has_cfg s cfg dir).
  Proof.
    intros H He. destruct (apply_noerr _ _ _ _ _ _ _ _ _ _ H He) as [oc [od [w [_ [_ E]]]]].
    unfold finish in E.
    destruct (force s || negb (same_as_recorded has_cfg s cfg dir)) eqn:Et; [destruct giveup|];
      injection E as -> ->; unfold same_as_recorded at 1; cbn; repeat split.
    - rewrite files_eqb_refl. apply ostr_eqb_refl.
    - apply orb_false_elim in Et. apply Et.
  Qed.

  (* an apply whose endpoint script ends in success leaves the reloader settled *)
  Lemma apply_settles s cfg dir fails s' r :
    applyf s cfg dir fails false = (s', r) -> r_err r = false -> settled s' cfg dir.
  Proof.
    intros H He. destruct (apply_state _ _ _ _ _ _ _ H He) as [Ht [F S]].
    split; [rewrite F; apply andb_false_r|]. rewrite S, Ht.
    destruct (force s), (same_as_recorded has_cfg s cfg dir); reflexivity.
  Qed.

  (* a settled reloader stays settled on the same content and does not call the endpoint *)
  Lemma apply_stable s cfg dir fails giveup s' r :
    settled s cfg dir -> applyf s cfg dir fails giveup = (s', r) -> r_err r = false ->
    r_tried r = false /\ settled s' cfg dir.
  Proof.
    intros [F0 S0] H He. destruct (apply_state _ _ _ _ _ _ _ H He) as [Ht [F S]].
    rewrite F0, S0 in Ht. rewrite Ht in F, S. rewrite S0 in S. repeat split; assumption.
  Qed.

  (* a failed reload is retried at the next event *)
  Lemma retry_next s cfg dir fails s' r cfg2 dir2 f2 g2 :
    applyf s cfg dir fails true = (s', r) -> r_err r = false -> r_tried r = true ->
    r_err (snd (applyf s' cfg2 dir2 f2 g2)) = false ->
    r_tried (snd (applyf s' cfg2 dir2 f2 g2)) = true.
  Proof.
    intros H He Ht He2. destruct (apply_state _ _ _ _ _ _ _ H He) as [_ [F _]]. rewrite Ht in F.
    destruct (applyf s' cfg2 dir2 f2 g2) as [s2 r2] eqn:E2.
    destruct (apply_state _ _ _ _ _ _ _ E2 He2) as [Ht2 _]. cbn [snd]. rewrite Ht2, F. reflexivity.
  Qed.

  (* every event carries the same content and none is the cancellation *)
  Definition quiet (cfg : option str) (dir : files) (evs : list wstep) : Prop :=
    Forall (fun e => fst (fst e) <> EDone /\ snd (fst e) = (cfg, dir)) evs.

  Lemma watch_cons s e cfg dir f g evs :
    e <> EDone ->
    watchf s ((e, (cfg, dir), (f, g)) :: evs)
    = let (s', res) := applyf s cfg dir f g in let (s'', rs) := watchf s' evs in (s'', res :: rs).
  Proof. destruct e; [reflexivity | reflexivity | congruence]. Qed.

  (* once settled, nothing happens any more while the content stays the same.
     Last hypothesis: the content can be applied at all; by [apply_err_state]
     that does not depend on the state or the script, so [init] stands for any. *)
  Lemma watch_stable cfg dir evs : forall s,
    settled s cfg dir -> quiet cfg dir evs ->
    r_err (snd (applyf init cfg dir 0 false)) = false ->
    settled (fst (watchf s evs)) cfg dir
    /\ Forall (fun r => r_err r = false /\ r_tried r = false) (snd (watchf s evs))
    /\ List.length (snd (watchf s evs)) = List.length evs.
  Proof.
    induction evs as [|[[e [cfg' dir']] [f g]] rest IH]; intros s Hs Hq He.
    - cbn. repeat split; [apply Hs | apply Hs | constructor].
    - inversion Hq as [|? ? [Hne Heq] Hq']; subst. cbn [fst snd] in Hne, Heq. injection Heq as -> ->.
      rewrite (watch_cons _ _ _ _ _ _ _ Hne). destruct (applyf s cfg dir f g) as [s' res] eqn:Ea.
      assert (He' : r_err res = false).
      { rewrite <- He, (apply_err_state has_cfg env tolerate init s cfg dir 0 false f g), Ea. reflexivity. }
      destruct (apply_stable s cfg dir f g s' res Hs Ea He') as [Ht Hs'].
      destruct (IH s' Hs' Hq' He) as [I1 [I2 I3]].
      destruct (watchf s' rest) as [s'' rs]. cbn [fst snd] in *.
      split; [exact I1 | split; [constructor; [split; assumption | exact I2] | simpl; rewrite I3; reflexivity]].
  Qed.
End WatchLoop.

(* tie T: apply hashes the config file BEFORE it normalizes it *)
Definition reads_order_ok : bool :=
  match map snd apply_reads with
  | a :: b :: _ => String.eqb a "hashFile" && String.eqb b "r.normalize"
  | _ => false
  end.

Lemma reads_order : reads_order_ok = true.
Proof. vm_compute. reflexivity. Qed.

Section TwoReads.
  Variable env : str -> option str.
  Variable tolerate : bool.

  (* hash read first: an edit between the reads leaves (old hash, new output); the
     next undisturbed pass on the new content reloads it *)
  Lemma hash_then_normalize s old new dir f s1 r1 f2 s2 r2 :
    old <> new -> NoDup (map fst dir) ->
    apply2 true env tolerate s (Some old) (Some new) dir f false = (s1, r1) -> r_err r1 = false ->
    apply true env tolerate s1 (Some new) dir f2 false = (s2, r2) -> r_err r2 = false ->
    r_tried r2 = true /\ r_succeeded r2 = true /\ out_cfg s2 = expand env tolerate new.
  Proof.
    intros Hne Hnd H1 E1 H2 E2. unfold apply2 in H1.
    destruct (expand env tolerate new) as [e|] eqn:Ee; [|injection H1 as <- <-; discriminate].
    destruct (apply true env tolerate s (Some old) dir f false) as [s' r] eqn:Ea.
    injection H1 as <- <-.
    (* the first pass recorded the old hash *)
    destruct (apply_settles true env tolerate s (Some old) dir f s' r Ea E1) as [_ Hs].
    apply andb_true_iff in Hs as [_ Hc]. apply ostr_eqb_true in Hc. cbn in Hc.
    destruct (apply_spec true env tolerate _ (Some new) dir f2 false s2 r2 H2 E2 Hnd)
      as [Hcfg [_ [Ht [_ [_ [Hts _]]]]]].
    assert (Htried : r_tried r2 = true).
    { rewrite Ht. unfold same_as_recorded. cbn. rewrite Hc. cbn.
      replace (str_eqb old new) with false by (symmetry; apply str_eqb_neq, Hne).
      rewrite andb_false_r. apply orb_true_r. }
    split; [exact Htried|]. split; [rewrite (Hts Htried); reflexivity|].
    destruct (Hcfg eq_refl) as [c [[= <-] [Ho _]]]. rewrite Ho, Ee. reflexivity.
  Qed.
End TwoReads.

(* normalize read first (the order the source does NOT have): (old output, new
   hash); the reload loads the old output, the next pass sees nothing to do *)
Definition w_old : str := [111%N].   (* "o" *)
Definition w_new : str := [110%N].   (* "n" *)

Lemma normalize_then_hash_refuted :
  let '(s1, r1) := apply2 true w_env true init (Some w_new) (Some w_old) [] 0 false in
  let '(s2, r2) := apply true w_env true s1 (Some w_new) [] 0 false in
  r_succeeded r1 = true /\ out_cfg s1 = Some w_old      (* reloaded with the old content *)
  /\ r_err r2 = false /\ r_tried r2 = false              (* never reloaded again *)
  /\ out_cfg s2 = Some w_new.                            (* although the output has changed *)
Proof. vm_compute. repeat split; reflexivity. Qed.

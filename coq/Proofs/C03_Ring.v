(* C03 — the ring buffer between a lazy response set's receiver goroutine and the merge
   (pkg/store/proxy_merge.go ringBuffer / lazyRespSet) as a labelled transition system:
   every interleaving of append (receiver, enabled when not full) and pop (merge, enabled when
   not empty) steps, each atomic under bufferedResponsesMtx. The index computations
   (isEmpty, isFull, next tail, next head) are the Gen/C03.v definitions regenerated from the
   source. sync.Cond waiting is modelled as "the step is not enabled". *)
From Coq Require Import ZArith List Bool Lia.
Import ListNotations.
From Verif Require Import Gen.C03.
Open Scope Z_scope.

Section Ring.
Context {A : Type} (d : A).
Variable N : Z.                      (* fixedBufferSize = requested buffer size + 1 *)
Hypothesis HN : 2 <= N.

Record state := MkSt { pending : list A; buf : Z -> A; hd : Z; tl : Z; received : list A }.

Definition upd (f : Z -> A) (i : Z) (x : A) : Z -> A := fun j => if j =? i then x else f j.

(* one atomic step under bufferedResponsesMtx: the receiver goroutine appends when the ring is
   not full (otherwise it waits on bufferSlotEvent), the merge pops when it is not empty
   (otherwise it waits on dataOrFinishEvent) *)
Inductive step : state -> state -> Prop :=
| s_append st x p :
    pending st = x :: p -> ring_is_full (hd st) (tl st) N = false ->
    step st (MkSt p (upd (buf st) (tl st) x) (hd st) (ring_next_tail (tl st) N) (received st))
| s_pop st :
    ring_is_empty (hd st) (tl st) = false ->
    step st (MkSt (pending st) (buf st) (ring_next_head (hd st) N) (tl st) (received st ++ [buf st (hd st)])).

Inductive reach (s0 : state) : state -> Prop :=
| r_refl : reach s0 s0
| r_step s s' : reach s0 s -> step s s' -> reach s0 s'.

Definition wrap (i : Z) : Z := if i <? N then i else i - N.
Definition len (st : state) : Z := if hd st <=? tl st then tl st - hd st else tl st - hd st + N.
Definition contents (st : state) : list A :=
  map (fun i => buf st (wrap (hd st + Z.of_nat i))) (seq 0 (Z.to_nat (len st))).

Definition wf (st : state) : Prop := 0 <= hd st < N /\ 0 <= tl st < N.

Lemma wrap_small i : 0 <= i < N -> wrap i = i.
Proof. intros H. unfold wrap. rewrite (proj2 (Z.ltb_lt _ _)); [reflexivity | apply H]. Qed.

(* [wrap] and [len] are reductions modulo N *)
Lemma wrap_mod i : 0 <= i < 2 * N -> wrap i = i mod N.
Proof.
  intros H. unfold wrap. destruct (Z.ltb_spec i N).
  - apply (Z.mod_unique i N 0); [left; lia | ring].
  - apply (Z.mod_unique i N 1); [left; lia | ring].
Qed.

Lemma len_mod st : wf st -> len st = (tl st - hd st) mod N.
Proof.
  intros [Hh Ht]. unfold len. destruct (Z.leb_spec (hd st) (tl st)).
  - apply (Z.mod_unique _ N 0); [left; lia | ring].
  - apply (Z.mod_unique _ N (-1)); [left; lia | ring].
Qed.

Lemma len_range st : wf st -> 0 <= len st < N.
Proof. intros Hwf. rewrite (len_mod st Hwf). apply Z.mod_pos_bound. lia. Qed.

Lemma rem_succ t : 0 <= t < N -> Z.rem (t + 1) N = wrap (t + 1).
Proof. intros H. rewrite wrap_mod by lia. apply Z.rem_mod_nonneg; lia. Qed.

Lemma wrap_len st : wf st -> wrap (hd st + len st) = tl st.
Proof.
  intros Hwf. pose proof (len_range st Hwf). pose proof Hwf as [Hh Ht]. rewrite wrap_mod by lia.
  rewrite (len_mod st Hwf), Zplus_mod_idemp_r. replace (hd st + (tl st - hd st)) with (tl st) by ring.
  apply Z.mod_small. exact Ht.
Qed.

(* the slot i steps after the head is the tail only for i = len *)
Lemma wrap_tl st i : wf st -> 0 <= i < N -> wrap (hd st + i) = tl st -> i = len st.
Proof.
  intros Hwf Hi E. pose proof Hwf as [Hh Ht]. rewrite wrap_mod in E by lia.
  rewrite (len_mod st Hwf), <- E, Zminus_mod_idemp_l. replace (hd st + i - hd st) with i by ring.
  symmetry. apply Z.mod_small. exact Hi.
Qed.

(* advancing the tail (append) or the head (pop) by one slot *)
Lemma len_succ_tl st st' :
  wf st -> hd st' = hd st -> tl st' = wrap (tl st + 1) -> tl st' <> hd st -> wf st' /\ len st' = len st + 1.
Proof.
  intros Hwf Eh Et Hf. pose proof Hwf as [Hh Ht]. pose proof (len_range st Hwf) as Hl.
  rewrite wrap_mod in Et by lia.
  assert (Hwf' : wf st') by (split; [rewrite Eh; exact Hh | rewrite Et; apply Z.mod_pos_bound; lia]).
  split; [exact Hwf'|].
  assert (E : len st' = (len st + 1) mod N).
  { rewrite (len_mod st' Hwf'), (len_mod st Hwf), Eh, Et, Zminus_mod_idemp_l, Zplus_mod_idemp_l. f_equal. ring. }
  destruct (Z.eq_dec (len st + 1) N) as [F|F]; [|rewrite E; apply Z.mod_small; lia].
  exfalso. apply Hf. rewrite F, Z.mod_same in E by lia.
  rewrite <- (wrap_len st' Hwf'), E, Z.add_0_r, Eh. apply wrap_small. exact Hh.
Qed.

Lemma len_succ_hd st st' :
  wf st -> tl st' = tl st -> hd st' = wrap (hd st + 1) -> hd st <> tl st -> wf st' /\ len st = len st' + 1.
Proof.
  intros Hwf Et Eh He. pose proof Hwf as [Hh Ht]. pose proof (len_range st Hwf) as Hl.
  rewrite wrap_mod in Eh by lia.
  assert (Hwf' : wf st') by (split; [rewrite Eh; apply Z.mod_pos_bound; lia | rewrite Et; exact Ht]).
  split; [exact Hwf'|].
  assert (len st <> 0).
  { intros F. apply He. rewrite <- (wrap_len st Hwf), F, Z.add_0_r. symmetry. apply wrap_small. exact Hh. }
  assert (E : len st' = (len st - 1) mod N).
  { rewrite (len_mod st' Hwf'), (len_mod st Hwf), Eh, Et, Zminus_mod_idemp_r, Zminus_mod_idemp_l. f_equal. ring. }
  rewrite E, Z.mod_small; lia.
Qed.

Lemma wrap_wrap h i : 0 <= h < N -> 0 <= i < N - 1 -> wrap (wrap (h + 1) + i) = wrap (h + 1 + i).
Proof.
  intros Hh Hi. rewrite (wrap_mod (h + 1)) by lia. pose proof (Z.mod_pos_bound (h + 1) N ltac:(lia)).
  rewrite !wrap_mod by lia. apply Zplus_mod_idemp_l.
Qed.

Lemma contents_append st x p :
  wf st -> ring_is_full (hd st) (tl st) N = false ->
  let st' := MkSt p (upd (buf st) (tl st) x) (hd st) (ring_next_tail (tl st) N) (received st) in
  wf st' /\ contents st' = contents st ++ [x].
Proof.
  intros Hwf Hf. cbv zeta. pose proof Hwf as [Hh Ht]. unfold ring_is_full, ring_next_tail in *.
  rewrite rem_succ in * by exact Ht. apply Z.eqb_neq in Hf. set (st' := MkSt p _ _ _ _).
  destruct (len_succ_tl st st' Hwf eq_refl eq_refl Hf) as [Hwf' Hl]. pose proof (len_range st Hwf) as Ll.
  split; [exact Hwf'|]. unfold contents. rewrite Hl. cbn [hd buf st'].
  replace (Z.to_nat (len st + 1)) with (S (Z.to_nat (len st))) by lia.
  rewrite seq_S, map_app. cbn [map Nat.add]. unfold upd. f_equal.
  - apply map_ext_in. intros i Hi. apply in_seq in Hi.
    destruct (Z.eqb_spec (wrap (hd st + Z.of_nat i)) (tl st)) as [E|E]; [|reflexivity].
    apply (wrap_tl st _ Hwf) in E; lia.
  - rewrite Z2Nat.id, (wrap_len st Hwf), Z.eqb_refl by lia. reflexivity.
Qed.

Lemma contents_pop st :
  wf st -> ring_is_empty (hd st) (tl st) = false ->
  let st' := MkSt (pending st) (buf st) (ring_next_head (hd st) N) (tl st) (received st ++ [buf st (hd st)]) in
  wf st' /\ contents st = buf st (hd st) :: contents st'.
Proof.
  intros Hwf He. cbv zeta. pose proof Hwf as [Hh Ht]. unfold ring_is_empty, ring_next_head in *.
  rewrite rem_succ by exact Hh. apply Z.eqb_neq in He. set (st' := MkSt _ _ _ _ _).
  destruct (len_succ_hd st st' Hwf eq_refl eq_refl He) as [Hwf' Hl]. pose proof (len_range st' Hwf') as Ll.
  split; [exact Hwf'|]. unfold contents. rewrite Hl. cbn [hd buf st'].
  replace (Z.to_nat (len st' + 1)) with (S (Z.to_nat (len st'))) by lia.
  cbn [seq map]. f_equal.
  - rewrite Z.add_0_r, wrap_small by exact Hh. reflexivity.
  - rewrite <- seq_shift, map_map. apply map_ext_in. intros i Hi. apply in_seq in Hi. f_equal.
    rewrite Nat2Z.inj_succ, wrap_wrap by lia. f_equal. lia.
Qed.

Definition init (input : list A) : state := MkSt input (fun _ => d) 0 0 [].

(* for every interleaving of receiver and merge steps: nothing is lost, duplicated or reordered *)
Theorem ring_fifo input st :
  reach (init input) st -> wf st /\ received st ++ contents st ++ pending st = input.
Proof.
  induction 1 as [|s s' Hr [Hwf IH] Hs].
  - split; [unfold wf; cbn; lia | reflexivity].
  - destruct Hs as [st x p Hp Hf | st He].
    + destruct (contents_append st x p Hwf Hf) as [W C]. split; [exact W|].
      rewrite C. cbn [received pending]. rewrite <- IH, Hp, <- !app_assoc. reflexivity.
    + destruct (contents_pop st Hwf He) as [W C]. split; [exact W|].
      cbn [received pending]. rewrite <- IH, C, <- !app_assoc. reflexivity.
Qed.

(* no deadlock while data remains, and every step makes progress: runs are finite *)
Theorem ring_progress input st :
  reach (init input) st -> (pending st <> [] \/ contents st <> []) -> exists st', step st st'.
Proof.
  intros Hr Hd. destruct (ring_fifo _ _ Hr) as [[Hh Ht] _].
  destruct (ring_is_empty (hd st) (tl st)) eqn:Ee.
  - (* empty: the receiver can append *)
    unfold ring_is_empty in Ee. apply Z.eqb_eq in Ee.
    destruct (pending st) as [|x p] eqn:Ep.
    + exfalso. destruct Hd as [Hd|Hd]; [apply Hd; reflexivity|]. apply Hd. unfold contents, len. rewrite Ee, Z.leb_refl, Z.sub_diag. reflexivity.
    + eexists. apply (s_append st x p Ep). unfold ring_is_full. rewrite rem_succ by exact Ht. apply Z.eqb_neq.
      unfold wrap. destruct (Z.ltb_spec (tl st + 1) N); lia.
  - eexists. apply s_pop. exact Ee.
Qed.

Definition measure (st : state) : nat := 2 * length (pending st) + length (contents st).
Theorem ring_terminates input st st' :
  reach (init input) st -> step st st' -> (measure st' < measure st)%nat.
Proof.
  intros Hr Hs. destruct (ring_fifo _ _ Hr) as [Hwf _]. unfold measure.
  destruct Hs as [st x p Hp Hf | st He].
  - destruct (contents_append st x p Hwf Hf) as [_ C]. rewrite C, Hp, app_length. cbn. lia.
  - destruct (contents_pop st Hwf He) as [_ C]. rewrite C. cbn. lia.
Qed.

End Ring.

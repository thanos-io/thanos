(* C49 — the facts about the source text, then lemmas about the model of jumpHash
   and the memcached server selector: the insertion sort stores the one sorted
   arrangement of the listed servers; the jump hash ends in range and moves a
   key only to the new bucket; looking keys up in a batch agrees with looking
   them up alone. Last, the two witnesses against the property as worded. *)
From Coq Require Import NArith ZArith List Bool Lia Permutation Sorted String.
Import ListNotations.
From Verif Require Import Lib.Corr Lib.Misc_Cmp Lib.ListFacts Gen.C49 Model.C49.
Open Scope Z_scope.

Definition if_conds (evs : list (string * string)) : list string :=
  map snd (filter (fun e => String.eqb (fst e) "if") evs).

Definition callees (evs : list (string * string)) : list string :=
  map snd (filter (fun e => String.eqb (fst e) "call") evs).

Definition src_facts_ok : bool :=
  (* the float expression the harness copies as the oracle, and `b = j` *)
  String.eqb jump_j_expr "int64(float64(b+1) * (float64(int64(1)<<31) / float64((key>>33)+1)))"
  && String.eqb jump_b_expr "j"
  (* PickServer / PickServerForKeys: no servers, one server, otherwise the jump hash *)
  && list_eqb String.eqb (if_conds PickServer_events) ["len(s.addrs) == 0"; "len(s.addrs) == 1"]%string
  && list_eqb String.eqb (if_conds PickServerForKeys_events) ["len(s.addrs) <= 0"; "len(s.addrs) == 1"]%string
  && existsb (String.eqb "pickServerWithJumpHash") (callees PickServer_events)
  && existsb (String.eqb "pickServerWithJumpHash") (callees PickServerForKeys_events)
  && list_eqb String.eqb (callees pickServerWithJumpHash_events) ["xxhash.Sum64String"; "len"; "jumpHash"]%string
  && existsb (String.eqb "natsort.Sort") (callees SetServers_events).

Lemma src_facts : src_facts_ok = true.
Proof. vm_compute. reflexivity. Qed.

Section SortFacts.
  Variable less : str -> str -> bool.

  Definition asym_on (d : list str) : Prop :=
    forall x y, In x d -> In y d -> x <> y -> less x y = negb (less y x).
  Definition trans_on (d : list str) : Prop :=
    forall x y z, In x d -> In y d -> In z d -> x <> y -> y <> z -> x <> z ->
      less x y = true -> less y z = true -> less x z = true.

  (* [go_insert x] walks the reversed prefix past every element that [x] is less
     than: it is insertion by the test "not less" *)
  Definition nlt (x y : str) : bool := negb (less x y).

  Lemma go_insert_ins x rp : go_insert less x rp = ins nlt x rp.
  Proof.
    induction rp as [|y rp IH]; simpl; [reflexivity|].
    unfold nlt at 1. destruct (less x y); simpl; [rewrite IH|]; reflexivity.
  Qed.

  Lemma go_isort_isort l : go_isort less l = rev (ListFacts.isort nlt (rev l)).
  Proof.
    unfold go_isort, ListFacts.isort. f_equal. generalize (@nil str).
    induction l as [|x l IH]; intro rp; simpl; [reflexivity|].
    rewrite fold_right_app, IH, go_insert_ins. reflexivity.
  Qed.

  Lemma go_isort_perm l : Permutation l (go_isort less l).
  Proof. rewrite go_isort_isort, <- Permutation_rev, isort_perm, <- Permutation_rev. reflexivity. Qed.

  (* what the test decides, whatever [less] is: neighbours in the sorted list are
     related by [ge] without any assumption *)
  Definition ge (x y : str) : Prop := less x y = false \/ less y x = true.

  Lemma isort_ge l : Sorted ge (ListFacts.isort nlt l).
  Proof.
    apply isort_Sorted; unfold nlt, ge; intros x y H;
      [left; apply negb_true_iff | right; apply negb_false_iff]; exact H.
  Qed.

  Lemma str_dec (x y : str) : {x = y} + {x <> y}.
  Proof. apply list_eq_dec, N.eq_dec. Qed.

  (* where [less] is a strict total order, [ge] is its converse or equality *)
  Lemma ge_on d x y : asym_on d -> In x d -> In y d -> ge x y <-> x = y \/ less y x = true.
  Proof.
    intros Ha Hx Hy. unfold ge. destruct (str_dec x y) as [->|Hne].
    - destruct (less y y); split; auto.
    - rewrite (Ha x y Hx Hy Hne). destruct (less y x); simpl; split; auto; intros [H|H]; congruence.
  Qed.

  Lemma ge_trans_on d x y z :
    asym_on d -> trans_on d -> In x d -> In y d -> In z d -> ge x y -> ge y z -> ge x z.
  Proof.
    intros Ha Ht Hx Hy Hz Hxy Hyz. apply (ge_on d) in Hxy, Hyz; try assumption.
    apply (ge_on d); try assumption. destruct Hxy as [->|Hxy], Hyz as [->|Hyz]; auto.
    destruct (str_dec z y) as [->|Hzy]; [auto|]. destruct (str_dec y x) as [->|Hyx]; [auto|].
    destruct (str_dec x z) as [E|Hxz]; [auto|]. right. apply (Ht z y x); auto.
  Qed.

  Lemma ge_antisym_on d x y : asym_on d -> In x d -> In y d -> ge x y -> ge y x -> x = y.
  Proof.
    intros Ha Hx Hy Hxy Hyx. apply (ge_on d) in Hxy as [E|Hxy], Hyx as [E'|Hyx]; auto.
    destruct (str_dec x y) as [E|E]; [exact E|]. rewrite (Ha x y Hx Hy E), Hxy in Hyx. discriminate.
  Qed.

  Lemma isort_of_perm d l :
    asym_on d -> trans_on d -> Permutation d l ->
    Permutation (ListFacts.isort nlt (rev l)) d /\ StronglySorted ge (ListFacts.isort nlt (rev l)).
  Proof.
    intros Ha Ht Hp.
    assert (P : Permutation (ListFacts.isort nlt (rev l)) d).
    { rewrite isort_perm, <- Permutation_rev. symmetry. exact Hp. }
    split; [exact P|]. apply Sorted_StronglySorted_in; [|apply isort_ge].
    intros x y z Hx Hy Hz. apply (ge_trans_on d); auto; apply (Permutation_in _ P); assumption.
  Qed.

  (* with a comparison that is a strict total order on the listed servers, the
     stored order does not depend on the listing order; a server may be listed
     more than once, equal entries being interchangeable *)
  Lemma go_isort_order_independent l1 l2 :
    Permutation l1 l2 -> asym_on l1 -> trans_on l1 -> go_isort less l1 = go_isort less l2.
  Proof.
    intros Hp Ha Ht. rewrite !go_isort_isort. f_equal.
    destruct (isort_of_perm l1 l1 Ha Ht (Permutation_refl _)) as [P1 S1].
    destruct (isort_of_perm l1 l2 Ha Ht Hp) as [P2 S2].
    apply StronglySorted_perm_eq with (R := ge); [|rewrite P1, P2; reflexivity|exact S1|exact S2].
    intros x y Hx Hy. apply (ge_antisym_on l1); auto; apply (Permutation_in _ P1); assumption.
  Qed.

  Lemma strict_total_b_sound l :
    strict_total_b less l = true -> asym_on l /\ trans_on l.
  Proof.
    unfold strict_total_b. intro H. apply andb_true_iff in H as [H1 H2]. split.
    - intros x y Hx Hy Hne. apply str_eqb_neq in Hne.
      rewrite forallb_forall in H1. specialize (H1 x Hx). rewrite forallb_forall in H1. specialize (H1 y Hy).
      rewrite Hne in H1. apply eqb_prop in H1. exact H1.
    - intros x y z Hx Hy Hz Hxy Hyz Hxz Lxy Lyz. apply str_eqb_neq in Hxy, Hyz, Hxz.
      rewrite forallb_forall in H2. specialize (H2 x Hx). rewrite forallb_forall in H2. specialize (H2 y Hy).
      rewrite forallb_forall in H2. specialize (H2 z Hz).
      rewrite Lxy, Lyz, Hxy, Hyz, Hxz in H2. simpl in H2. rewrite !orb_false_r in H2. exact H2.
  Qed.

  Lemma nodup_b_sound l : nodup_b l = true -> NoDup l.
  Proof.
    induction l as [|x l IH]; simpl; intro H; [constructor|].
    apply andb_true_iff in H as [H1 H2]. constructor; [|apply IH; exact H2].
    intro Hin. apply mem_str_In in Hin. rewrite Hin in H1. discriminate.
  Qed.
End SortFacts.

Lemma set_servers_order_independent servers servers2 :
  strict_total_b nat_less servers = true ->
  Permutation servers servers2 -> set_servers servers = set_servers servers2.
Proof.
  intros Hst Hp. apply strict_total_b_sound in Hst as [Ha Ht].
  apply go_isort_order_independent; assumption.
Qed.

Lemma set_servers_length l : List.length (set_servers l) = List.length l.
Proof. symmetry. apply Permutation_length, go_isort_perm. Qed.

Lemma ostr_eqb_refl o : ostr_eqb o o = true.
Proof. destruct o as [a|]; simpl; [apply str_eqb_refl | reflexivity]. Qed.

Lemma mget_mset_same m a v : mget (mset m a v) a = v.
Proof.
  induction m as [|[a' ks] m IH]; simpl.
  - rewrite str_eqb_refl. reflexivity.
  - destruct (str_eqb a a') eqn:E; simpl; rewrite E; [reflexivity | exact IH].
Qed.

Lemma mget_mset_other m a a' v : a <> a' -> mget (mset m a v) a' = mget m a'.
Proof.
  intro Hne. induction m as [|[a0 ks] m IH]; simpl.
  - assert (E : str_eqb a' a = false) by (apply str_eqb_neq; congruence). rewrite E. reflexivity.
  - destruct (str_eqb a a0) eqn:E; simpl.
    + apply str_eqb_eq in E. subst a0.
      assert (E' : str_eqb a' a = false) by (apply str_eqb_neq; congruence). rewrite E'. reflexivity.
    + destruct (str_eqb a' a0); [reflexivity | exact IH].
Qed.

Section Jump.
  Variable nextj : Z -> Z -> Z.
  (* [N] bounds the number of buckets (here an integer, not the type of
     naturals). [nextj] is asked to grow only where the loop evaluates it: on
     bucket numbers below [N] and on 64-bit keys. *)
  Variable N : Z.
  Hypothesis N_pos : 1 <= N.
  Hypothesis nextj_gt : forall b k, 0 <= b < N -> 0 <= k < two64 -> b < nextj b k.

  Lemma key_range key : 0 <= jump_key_step key mod two64 < two64.
  Proof. apply Z.mod_pos_bound. reflexivity. Qed.

  Lemma jump_loop_mono f : forall b j key n r,
    jump_loop nextj f b j key n = Some r -> jump_loop nextj (S f) b j key n = Some r.
  Proof.
    induction f as [|f IH]; intros b j key n r H; [discriminate|].
    cbn [jump_loop] in *. destruct (j <? n); [apply IH|]; exact H.
  Qed.

  (* [j] grows by at least one per iteration, so fuel for the distance to [n] is
     enough; the result lies in [j, n), or is [b] when the loop does not run *)
  Lemma jump_loop_spec f : forall b j key n,
    0 <= j -> n <= N -> (Z.to_nat (n - j) < f)%nat ->
    exists r, jump_loop nextj f b j key n = Some r
              /\ (j < n -> j <= r < n) /\ (n <= j -> r = b).
  Proof.
    induction f as [|f IH]; intros b j key n Hj0 HnN Hf; [lia|].
    cbn [jump_loop]. destruct (Z.ltb_spec j n) as [E|E].
    - set (key' := jump_key_step key mod two64).
      pose proof (nextj_gt j key' ltac:(lia) (key_range key)) as Hj.
      destruct (IH j (nextj j key') key' n) as [r [Hr H]]; [lia..|].
      exists r. split; [exact Hr | lia].
    - exists b. split; [reflexivity | lia].
  Qed.

  Lemma jump_range key n :
    1 <= n <= N -> exists r, jump nextj key n = Some r /\ 0 <= r < n.
  Proof.
    intro Hn. destruct (jump_loop_spec (S (Z.to_nat n)) (-1) 0 key n) as [r [Hr H]]; [lia..|].
    exists r. split; [exact Hr | lia].
  Qed.

  Lemma jump_loop_succ f : forall b j key n,
    0 <= j -> n + 1 <= N -> (Z.to_nat (n + 1 - j) < f)%nat ->
    jump_loop nextj f b j key (n + 1) = jump_loop nextj f b j key n
    \/ jump_loop nextj f b j key (n + 1) = Some n.
  Proof.
    induction f as [|f IH]; intros b j key n Hj0 HnN Hf; [lia|].
    cbn [jump_loop]. set (key' := jump_key_step key mod two64).
    destruct (Z.ltb_spec j n) as [E|E].
    - rewrite (proj2 (Z.ltb_lt j (n + 1))) by lia.
      pose proof (nextj_gt j key' ltac:(lia) (key_range key)). apply IH; lia.
    - destruct (Z.ltb_spec j (n + 1)) as [E'|E']; [|left; reflexivity].
      (* j = n: one more iteration, which leaves the loop *)
      assert (j = n) by lia. subst j. right.
      pose proof (nextj_gt n key' ltac:(lia) (key_range key)) as Hj.
      destruct f as [|f]; [lia|]. cbn [jump_loop].
      destruct (Z.ltb_spec (nextj n key') (n + 1)); [lia | reflexivity].
  Qed.

  Lemma jump_consistent key n :
    1 <= n -> n + 1 <= N -> jump nextj key (n + 1) = jump nextj key n \/ jump nextj key (n + 1) = Some n.
  Proof.
    intros Hn HnN. destruct (jump_range key n ltac:(lia)) as [r [Hr _]]. unfold jump in *.
    replace (Z.to_nat (n + 1)) with (S (Z.to_nat n)) by lia.
    rewrite Hr, <- (jump_loop_mono _ _ _ _ _ _ Hr). apply jump_loop_succ; lia.
  Qed.

  Lemma jump_outs_ok_model key : forall outs m prev,
    0 <= m -> m + Z.of_nat (List.length outs) <= N ->
    (forall p, prev = Some p -> 1 <= m /\ jump nextj key m = Some p) ->
    map Some outs = map (jump nextj key) (seqZ (m + 1) (List.length outs)) ->
    jump_outs_ok (m + 1) prev outs = true.
  Proof.
    induction outs as [|o outs IH]; intros m prev Hm HN Hprev Hmap; [reflexivity|].
    cbn [List.length map seqZ] in Hmap, HN. injection Hmap as Ho Hrest.
    destruct (jump_range key (m + 1) ltac:(lia)) as [r [Hr Hrange]].
    rewrite Hr in Ho. injection Ho as ->. cbn [jump_outs_ok].
    rewrite (IH (m + 1) (Some r)), andb_true_r; [|lia|lia| |exact Hrest].
    2:{ intros p [= <-]. split; [lia | exact Hr]. }
    rewrite (proj2 (Z.leb_le 0 r)), (proj2 (Z.ltb_lt r (m + 1))) by lia.
    destruct prev as [p|]; [|reflexivity]. destruct (Hprev p eq_refl) as [Hm1 Hp].
    rewrite Z.add_simpl_r. destruct (jump_consistent key m Hm1 ltac:(lia)) as [H|H]; rewrite Hr in H.
    - rewrite Hp in H. injection H as ->. rewrite Z.eqb_refl. reflexivity.
    - injection H as ->. rewrite Z.eqb_refl. apply orb_true_r.
  Qed.

  Lemma jump_pred key tab outs :
    Z.of_nat (List.length outs) <= N ->
    map Some outs = map (jump nextj key) (seqZ 1 (List.length outs)) ->
    pred_ok (CJump key tab outs) = true.
  Proof. intros HN H. apply (jump_outs_ok_model key outs 0 None); [lia | exact HN | discriminate | exact H]. Qed.

  Lemma pick_jump_some addrs k :
    addrs <> [] -> Z.of_nat (List.length addrs) <= N ->
    exists a, pick_jump nextj addrs k = Some a /\ In a addrs.
  Proof.
    intros Hne HN. unfold pick_jump.
    destruct (jump_range (snd k) (Z.of_nat (List.length addrs))) as [r [Hr Hrange]].
    { destruct addrs; [congruence | simpl List.length in *; lia]. }
    rewrite Hr. destruct (nth_error addrs (Z.to_nat r)) as [a|] eqn:E.
    - exists a. split; [reflexivity | exact (nth_error_In _ _ E)].
    - apply nth_error_None in E. lia.
  Qed.

  Lemma pick_some addrs k :
    addrs <> [] -> Z.of_nat (List.length addrs) <= N ->
    exists a, pick nextj addrs k = Some a /\ In a addrs.
  Proof.
    intros Hne HN. destruct addrs as [|a [|b t]]; [congruence| |].
    - exists a. split; [reflexivity | left; reflexivity].
    - apply pick_jump_some; [discriminate | exact HN].
  Qed.

  (* the single-server shortcut of PickServer agrees with the jump hash *)
  Lemma pick_is_jump addrs k : addrs <> [] -> pick nextj addrs k = pick_jump nextj addrs k.
  Proof.
    intro Hne. destruct addrs as [|a [|b t]]; [congruence| |reflexivity].
    destruct (pick_jump_some [a] k) as [x [Hx [<-|[]]]]; [discriminate | simpl; lia|].
    symmetry. exact Hx.
  Qed.

  Lemma pick_push addrs s k :
    Z.of_nat (List.length addrs) + 1 <= N ->
    pick nextj (addrs ++ [s]) k = pick nextj addrs k \/ pick nextj (addrs ++ [s]) k = Some s.
  Proof.
    intro HN. destruct addrs as [|a t]; [right; reflexivity|].
    rewrite !pick_is_jump by discriminate. unfold pick_jump.
    rewrite app_length, Nat2Z.inj_add. change (Z.of_nat (List.length [s])) with 1.
    set (n := Z.of_nat (List.length (a :: t))) in *.
    assert (Hn : 1 <= n) by (subst n; simpl List.length; lia).
    destruct (jump_consistent (snd k) n Hn HN) as [H|H]; rewrite H.
    - left. destruct (jump_range (snd k) n ltac:(lia)) as [r [Hr Hrange]].
      rewrite Hr. apply nth_error_app1. lia.
    - right. subst n. rewrite Nat2Z.id, nth_error_app2, Nat.sub_diag; reflexivity.
  Qed.

  Lemma add_last servers new_list new :
    Z.of_nat (List.length servers) + 1 <= N ->
    set_servers new_list = set_servers servers ++ [new] ->
    forall k, pick nextj (set_servers new_list) k = pick nextj (set_servers servers) k
              \/ pick nextj (set_servers new_list) k = Some new.
  Proof. intros HN E k. rewrite E. apply pick_push. rewrite set_servers_length. exact HN. Qed.

  Lemma add_pred servers new keys tab :
    Z.of_nat (List.length servers) + 1 <= N ->
    set_servers (servers ++ [new]) = set_servers servers ++ [new] ->
    pred_ok (CAdd servers new keys tab
               (map (pick nextj (set_servers servers)) keys)
               (map (pick nextj (set_servers (servers ++ [new]))) keys)) = true.
  Proof.
    intros HN E. simpl. induction keys as [|k keys IH]; simpl; [reflexivity|].
    rewrite IH, andb_true_r. destruct (add_last servers _ new HN E k) as [H|H]; rewrite H.
    - rewrite ostr_eqb_refl. reflexivity.
    - simpl. rewrite str_eqb_refl. apply orb_true_r.
  Qed.

  Lemma batch_fold addrs keys :
    addrs <> [] -> Z.of_nat (List.length addrs) <= N -> forall m0,
    exists m, fold_left (fun om k =>
      match om, pick_jump nextj addrs k with
      | Some m, Some a => Some (mset m a (mget m a ++ [k]))
      | _, _ => None
      end) keys (Some m0) = Some m
      /\ forall a, mget m a = mget m0 a ++ filter (fun k => ostr_eqb (pick_jump nextj addrs k) (Some a)) keys.
  Proof.
    intros Hne HN. induction keys as [|k keys IH]; intro m0; cbn [fold_left filter].
    - exists m0. split; [reflexivity|]. intro a. symmetry. apply app_nil_r.
    - destruct (pick_jump_some addrs k Hne HN) as [ak [Ek _]]. rewrite Ek.
      destruct (IH (mset m0 ak (mget m0 ak ++ [k]))) as [m [Hm Hget]].
      exists m. split; [exact Hm|]. intro a. rewrite Hget. cbn [ostr_eqb option_eqb].
      destruct (str_eqb ak a) eqn:E.
      + apply str_eqb_eq in E. subst ak. rewrite mget_mset_same, <- app_assoc. reflexivity.
      + apply str_eqb_neq in E. rewrite mget_mset_other by exact E. reflexivity.
  Qed.

  Lemma batch_eq_single addrs keys :
    addrs <> [] -> Z.of_nat (List.length addrs) <= N ->
    exists m, pick_for_keys nextj addrs keys = Some m
      /\ forall a, mget m a = filter (fun k => ostr_eqb (pick nextj addrs k) (Some a)) keys.
  Proof.
    intros Hne HN. destruct addrs as [|a0 [|a1 t]]; [congruence| |].
    - exists [(a0, keys)]. split; [reflexivity|]. intro a. simpl. symmetry.
      destruct (str_eqb a a0) eqn:E.
      + apply str_eqb_eq in E. subst. apply filter_all. intros k _. apply str_eqb_refl.
      + apply filter_none. intros k _. apply str_eqb_neq. apply str_eqb_neq in E. congruence.
    - apply (batch_fold (a0 :: a1 :: t) keys Hne HN []).
  Qed.
End Jump.

(* witnesses against the property as worded, replayed on the implementation (corpus/C49) *)

(* "/s1" and "/s01" *)
Definition s1 : str := [47; 115; 49]%N.
Definition s01 : str := [47; 115; 48; 49]%N.

Lemma natsort_not_antisymmetric :
  nat_less s1 s01 = true /\ nat_less s01 s1 = true /\ nat_less s1 s1 = true
  /\ set_servers [s1; s01] <> set_servers [s01; s1].
Proof. vm_compute. repeat split; try reflexivity. discriminate. Qed.

(* servers "/0" and "/2", new server "/1"; the key "S:89806" with
   xxhash 8383206456773353393; the two table entries are the values the float
   expression takes on this key's first two iterations (taken from the run on
   the implementation, corpus/C49/05-add-middle.json) *)
Definition w_tab : nj_tab :=
  [((0, 8172498615477174766), 2); ((2, 18350023138622507063), 3)].
Definition w_key : ckey := ([83; 58; 56; 57; 56; 48; 54]%N, 8383206456773353393).
Definition srv0 : str := [47; 48]%N.
Definition srv1 : str := [47; 49]%N.
Definition srv2 : str := [47; 50]%N.

Lemma add_middle_moves_between_old :
  pick (nextj_of w_tab) (set_servers [srv2; srv0]) w_key = Some srv0
  /\ pick (nextj_of w_tab) (set_servers ([srv2; srv0] ++ [srv1])) w_key = Some srv2.
Proof. vm_compute. split; reflexivity. Qed.

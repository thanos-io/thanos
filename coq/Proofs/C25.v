(* C25 — the symbol table survives marshalling; every encoder's output decodes,
   under any later state of the shared table, to what was encoded (histograms:
   minus their custom values); decoding is total. *)
From Coq Require Import ZArith NArith List Bool Lia.
Import ListNotations.
From Verif Require Import Lib.Corr Lib.ListFacts Gen.C25 Model.C25.
Open Scope Z_scope.

Lemma slice_app : forall pre s rest,
  slice (pre ++ s ++ rest) (N.of_nat (List.length pre)) (N.of_nat (List.length (pre ++ s))) = s.
Proof.
  intros pre s rest. unfold slice. rewrite app_length.
  replace (N.to_nat _) with (List.length s) by lia.
  rewrite Nat2N.id, skipn_app_length. apply firstn_app_length.
Qed.

(* [pre]: the data already consumed; an empty string takes the [start = end] branch *)
Lemma dec_symbols_from_spec : forall tbl pre,
  dec_symbols_from (N.of_nat (List.length pre)) (ends_from (N.of_nat (List.length pre)) tbl) (pre ++ concat tbl) = tbl.
Proof.
  induction tbl as [|s r IH]; intro pre; [reflexivity|].
  cbn [ends_from dec_symbols_from concat].
  replace (N.of_nat (List.length pre) + N.of_nat (List.length s))%N with (N.of_nat (List.length (pre ++ s)))
    by (rewrite app_length; lia).
  rewrite slice_app, app_assoc, IH.
  destruct (N.eqb_spec (N.of_nat (List.length pre)) (N.of_nat (List.length (pre ++ s)))) as [E|_]; [|reflexivity].
  destruct s; [reflexivity|]. rewrite app_length in E. cbn [List.length] in E. lia.
Qed.

Lemma symbols_roundtrip : forall tbl,
  decode_symbols (fst (marshal_symbols tbl)) (snd (marshal_symbols tbl)) = tbl.
Proof. intro tbl. unfold decode_symbols, marshal_symbols. cbn [fst snd]. exact (dec_symbols_from_spec tbl []). Qed.

Lemma ends_from_length : forall tbl start, List.length (ends_from start tbl) = List.length tbl.
Proof. induction tbl as [|s r IH]; intro start; cbn; [reflexivity|]. rewrite IH. reflexivity. Qed.

(* Every encoder threads the builder's table and only ever appends to it, so
   each is specified in one shape: the table it returns extends the one it was
   given, and what it wrote decodes to what it was given under every further
   extension [T] of the returned table (in the end: the marshalled one). *)
Definition extends (T T' : list str) : Prop := exists ext, T' = T ++ ext.

Lemma extends_refl : forall T, extends T T.
Proof. intro T. exists []. symmetry. apply app_nil_r. Qed.
Lemma extends_trans : forall A B C, extends A B -> extends B C -> extends A C.
Proof. intros A B C [e1 ->] [e2 ->]. exists (e1 ++ e2). symmetry. apply app_assoc. Qed.

Lemma sym_extends : forall T i s, nth_error T i = Some s ->
  forall T', extends T T' -> sym T' (N.of_nat i) = s.
Proof.
  intros T i s H T' [ext ->]. unfold sym. rewrite Nat2N.id. apply nth_error_nth.
  rewrite nth_error_app1; [exact H|]. apply nth_error_Some. congruence.
Qed.

Lemma index_of_some : forall s tbl i, index_of s tbl = Some i -> nth_error tbl i = Some s.
Proof.
  intros s tbl. induction tbl as [|x r IH]; intros i H; [discriminate|].
  cbn [index_of] in H. destruct (str_eqb x s) eqn:E.
  - injection H as <-. apply bytes_eqb_eq in E. subst. reflexivity.
  - destruct (index_of s r) as [j|]; [|discriminate]. injection H as <-. apply (IH j eq_refl).
Qed.

Lemma add_entry_spec : forall tbl s tbl' i, add_entry tbl s = (tbl', i) ->
  extends tbl tbl' /\ forall T, extends tbl' T -> sym T i = s.
Proof.
  intros tbl s tbl' i H. unfold add_entry in H.
  destruct (index_of s tbl) as [j|] eqn:E; injection H as <- <-.
  - split; [apply extends_refl|]. apply sym_extends, index_of_some, E.
  - split; [exists [s]; reflexivity|]. apply sym_extends.
    rewrite nth_error_app2, Nat.sub_diag by lia. reflexivity.
Qed.

Lemma enc_labels_spec : forall ls tbl tbl' rs, enc_labels tbl ls = (tbl', rs) ->
  extends tbl tbl' /\ forall T, extends tbl' T -> dec_labels T rs = ls.
Proof.
  induction ls as [|[n v] r IH]; intros tbl tbl' rs H.
  - injection H as <- <-. split; [apply extends_refl|reflexivity].
  - cbn [enc_labels] in H.
    destruct (add_entry tbl n) as [t1 a] eqn:E1. destruct (add_entry t1 v) as [t2 b] eqn:E2.
    destruct (enc_labels t2 r) as [t3 rs'] eqn:E3. injection H as <- <-.
    apply add_entry_spec in E1 as [X1 D1]. apply add_entry_spec in E2 as [X2 D2].
    apply IH in E3 as [X3 D3].
    split; [eauto using extends_trans|]. intros T XT. cbn [dec_labels map fst snd].
    fold (dec_labels T rs'). rewrite D1, D2, D3 by eauto using extends_trans. reflexivity.
Qed.

Definition dec_exemplars (T : list str) (es : list wire_exemplar) : list in_exemplar :=
  map (fun e => match e with (r, v, t) => (dec_labels T r, v, t) end) es.

Lemma enc_exemplars_spec : forall es tbl tbl' out, enc_exemplars tbl es = (tbl', out) ->
  extends tbl tbl' /\ forall T, extends tbl' T -> dec_exemplars T out = es.
Proof.
  induction es as [|[[ls v] t] r IH]; intros tbl tbl' out H.
  - injection H as <- <-. split; [apply extends_refl|reflexivity].
  - cbn [enc_exemplars] in H.
    destruct (enc_labels tbl ls) as [t1 rs] eqn:E1. destruct (enc_exemplars t1 r) as [t2 out'] eqn:E2.
    injection H as <- <-.
    apply enc_labels_spec in E1 as [X1 D1]. apply IH in E2 as [X2 D2].
    split; [eauto using extends_trans|]. intros T XT. cbn [dec_exemplars map].
    fold (dec_exemplars T out'). rewrite D1, D2 by eauto using extends_trans. reflexivity.
Qed.

(* marshalHistogram writes every field but the custom values *)
Definition erase_custom (h : in_hist) : in_hist :=
  match h with (c, s, sc, zt, zc, ns, nd, nc, ps, pd, pc, r, t, _) => (c, s, sc, zt, zc, ns, nd, nc, ps, pd, pc, r, t, []) end.

(* Case analysis of a histogram under an abstract predicate: a destruct in
   place carries the whole goal through thirteen nested return clauses. *)
Lemma in_hist_cases : forall P : in_hist -> Prop,
  (forall c s sc zt zc ns nd nc ps pd pc r t cu, P (c, s, sc, zt, zc, ns, nd, nc, ps, pd, pc, r, t, cu)) ->
  forall h, P h.
Proof. intros P H [[[[[[[[[[[[[c s] sc] zt] zc] ns] nd] nc] ps] pd] pc] r] t] cu]. apply H. Qed.

Lemma hist_roundtrip : forall h, dec_hist (enc_hist h) = spec_hist (erase_custom h).
Proof.
  intro h. destruct h as [c s sc zt zc ns nd nc ps pd pc r t cu] using in_hist_cases.
  destruct c as [[[|] cv]|]; reflexivity.
Qed.

Lemma erase_custom_id : forall h, hist_custom h = [] -> erase_custom h = h.
Proof.
  intro h. destruct h as [c s sc zt zc ns nd nc ps pd pc r t cu] using in_hist_cases.
  cbn. intros ->. reflexivity.
Qed.

Lemma opt_map_map : forall A B C (f : A -> B) (g : B -> option C) l,
  opt_map g (map f l) = opt_map (fun x => g (f x)) l.
Proof. intros. induction l as [|x l IH]; cbn; [reflexivity|]. rewrite IH. reflexivity. Qed.

Lemma opt_map_ext : forall A B (f g : A -> option B) l, (forall x, f x = g x) -> opt_map f l = opt_map g l.
Proof. intros A B f g l H. induction l as [|x l IH]; cbn; [reflexivity|]. rewrite H, IH. reflexivity. Qed.

Definition erase_series (s : in_series) : in_series :=
  match s with (ls, samples, hists, exemplars) => (ls, samples, map erase_custom hists, exemplars) end.
Definition erase_request (req : request) : request :=
  map (fun tn => (fst tn, map erase_series (snd tn))) req.

Lemma enc_series_spec : forall s tbl tbl' w, enc_series tbl s = (tbl', w) ->
  extends tbl tbl' /\ forall T, extends tbl' T -> dec_series T w = spec_series (erase_series s).
Proof.
  intros [[[ls samples] hists] exemplars] tbl tbl' w H. cbn [enc_series] in H.
  destruct (enc_labels tbl ls) as [t1 rs] eqn:E1. destruct (enc_exemplars t1 exemplars) as [t2 es] eqn:E2.
  injection H as <- <-.
  apply enc_labels_spec in E1 as [X1 D1]. apply enc_exemplars_spec in E2 as [X2 D2].
  split; [eauto using extends_trans|]. intros T XT.
  cbn [dec_series erase_series spec_series].
  rewrite !opt_map_map. rewrite (opt_map_ext _ _ _ _ hists hist_roundtrip).
  destruct (opt_map (fun x => spec_hist (erase_custom x)) hists); [|reflexivity].
  fold (dec_exemplars T es). rewrite D1, D2 by eauto using extends_trans. reflexivity.
Qed.

Lemma enc_series_list_spec : forall ss tbl tbl' ws, enc_series_list tbl ss = (tbl', ws) ->
  extends tbl tbl' /\ forall T, extends tbl' T -> opt_map (dec_series T) ws = opt_map spec_series (map erase_series ss).
Proof.
  induction ss as [|s r IH]; intros tbl tbl' ws H.
  - injection H as <- <-. split; [apply extends_refl|reflexivity].
  - cbn [enc_series_list] in H.
    destruct (enc_series tbl s) as [t1 w] eqn:E1. destruct (enc_series_list t1 r) as [t2 ws'] eqn:E2.
    injection H as <- <-.
    apply enc_series_spec in E1 as [X1 D1]. apply IH in E2 as [X2 D2].
    split; [eauto using extends_trans|]. intros T XT. cbn [opt_map map].
    rewrite D1, D2 by eauto using extends_trans. reflexivity.
Qed.

Definition dec_tenant (T : list str) (tn : str * list wire_series) : option (str * list out_series) :=
  match opt_map (dec_series T) (snd tn) with Some ss => Some (fst tn, ss) | None => None end.
Definition spec_tenant (tn : str * list in_series) : option (str * list out_series) :=
  match opt_map spec_series (snd tn) with Some ss => Some (fst tn, ss) | None => None end.

Lemma enc_tenants_spec : forall req tbl tbl' out, enc_tenants tbl req = (tbl', out) ->
  extends tbl tbl' /\ forall T, extends tbl' T -> opt_map (dec_tenant T) out = opt_map spec_tenant (erase_request req).
Proof.
  induction req as [|[tn ss] r IH]; intros tbl tbl' out H.
  - injection H as <- <-. split; [apply extends_refl|reflexivity].
  - cbn [enc_tenants] in H.
    destruct (enc_series_list tbl ss) as [t1 ws] eqn:E1. destruct (enc_tenants t1 r) as [t2 out'] eqn:E2.
    injection H as <- <-.
    apply enc_series_list_spec in E1 as [X1 D1]. apply IH in E2 as [X2 D2].
    split; [eauto using extends_trans|]. intros T XT. cbn [opt_map erase_request map].
    unfold dec_tenant at 1, spec_tenant at 1. cbn [fst snd].
    fold (erase_request r). rewrite D1, D2 by eauto using extends_trans. reflexivity.
Qed.

Lemma request_roundtrip : forall req, decode (encode req) = spec_request (erase_request req).
Proof.
  intro req. unfold encode. destruct (enc_tenants [] req) as [tbl ts] eqn:E.
  pose proof (symbols_roundtrip tbl) as S. destruct (marshal_symbols tbl) as [offs data] eqn:M. cbn [fst snd] in S.
  cbn [decode]. rewrite S.
  apply enc_tenants_spec in E as [_ D]. exact (D tbl (extends_refl tbl)).
Qed.

Lemma map_id_forallb : forall A (p : A -> bool) (f : A -> A),
  (forall x, p x = true -> f x = x) -> forall l, forallb p l = true -> map f l = l.
Proof.
  intros A p f H l. induction l as [|x l IH]; cbn; [reflexivity|].
  intros [Hx Hl]%andb_true_iff. rewrite (H x Hx), (IH Hl). reflexivity.
Qed.

Lemma erase_request_id : forall req, no_custom_values req = true -> erase_request req = req.
Proof.
  apply map_id_forallb. intros [tn ss] Hss. cbn [fst snd] in *. f_equal. revert Hss.
  apply map_id_forallb. intros [[[ls samples] hists] exemplars] Hh. cbn [erase_series series_hists] in *.
  do 2 f_equal. revert Hh.
  apply map_id_forallb. intros h Hc. apply erase_custom_id. destruct (hist_custom h); [reflexivity|discriminate].
Qed.

Lemma request_roundtrip_lossless : forall req, no_custom_values req = true ->
  decode (encode req) = spec_request req.
Proof. intros req H. rewrite request_roundtrip, (erase_request_id req H). reflexivity. Qed.

Lemma interned_strings_roundtrip : forall tbl s tbl' i, add_entry tbl s = (tbl', i) ->
  forall T, extends tbl' T ->
  sym (decode_symbols (fst (marshal_symbols T)) (snd (marshal_symbols T))) i = s.
Proof.
  intros tbl s tbl' i H T XT. rewrite symbols_roundtrip.
  apply add_entry_spec in H as [_ D]. exact (D T XT).
Qed.

Definition witness_custom : request :=
  [([116%N], [([([97%N], [98%N])], [], [(Some (true, 3%N), 0%N, (-53), 0%N, Some (true, 0%N), [], [], [], [(0, 2%N)], [1; 1], [], 0, 1000, [4609434218613702656%N])], [])])].

Lemma custom_values_lost :
  exists out want, decode (encode witness_custom) = Some out /\ spec_request witness_custom = Some want /\ out <> want.
Proof. eexists. eexists. split; [vm_compute; reflexivity|]. split; [vm_compute; reflexivity|]. intro H. discriminate H. Qed.

Lemma opt_map_total : forall A B (f : A -> option B) l, (forall x, exists y, f x = Some y) -> exists ys, opt_map f l = Some ys.
Proof.
  intros A B f l H. induction l as [|x l [ys IH]]; [eexists; reflexivity|].
  destruct (H x) as [y Hy]. cbn [opt_map]. rewrite Hy, IH. eexists; reflexivity.
Qed.

Lemma dec_hist_total : forall w, exists h, dec_hist w = Some h.
Proof.
  intros [[[[[[[[[[[[c s] sc] zt] zc] ns] nd] nc] ps] pd] pc] r] t]. cbn [dec_hist].
  destruct (fst c); eexists; reflexivity.
Qed.

Lemma decode_total : forall w, exists out, decode w = Some out.
Proof.
  intros [[offs data] ts]. cbn [decode]. apply opt_map_total. intros [tn ws]. cbn [fst snd].
  destruct (opt_map_total _ _ (dec_series (decode_symbols offs data)) ws) as [ss E].
  - intros [[[rs samples] hists] exemplars]. cbn [dec_series].
    destruct (opt_map_total _ _ dec_hist hists dec_hist_total) as [hs Eh]. rewrite Eh. eexists; reflexivity.
  - rewrite E. eexists; reflexivity.
Qed.

(* the histogram decoding as it was before the repair: the generated union
   accessors are called unguarded (None = their panic), and the encoder left
   the zero count on the default arm when the oneof was unset *)
Definition enc_hist_old (h : in_hist) : wire_hist :=
  match h with
  | (c, s, sc, zt, zc, ns, nd, nc, ps, pd, pc, r, t, _custom) =>
      (enc_cnt c, s, sc, zt, enc_cnt zc, ns, nd, nc, ps, pd, pc, r, t)
  end.
Definition dec_hist_old (w : wire_hist) : option out_hist :=
  match w with
  | (c, s, sc, zt, zc, ns, nd, nc, ps, pd, pc, r, t) =>
      if fst c then
        if fst zc then Some (true, r, snd c, s, sc, zt, snd zc, ps, ns, pd, nd, [], [], t, []) else None
      else
        if fst zc then None else Some (false, r, snd c, s, sc, zt, snd zc, ps, ns, [], [], pc, nc, t, [])
  end.

(* a float histogram whose zero_count oneof is unset *)
Definition witness_union_hist : in_hist :=
  (Some (false, 4617315517961601024%N), 0%N, 0, 0%N, None, [], [], [], [(0, 1%N)], [], [4607182418800017408%N], 0, 1000, []).

Lemma float_histogram_without_zero_count_old_undefined :
  dec_hist_old (enc_hist_old witness_union_hist) = None
  /\ dec_hist (enc_hist witness_union_hist) = spec_hist witness_union_hist
  /\ dec_hist (enc_hist_old witness_union_hist) <> None.
Proof. vm_compute. repeat split; try reflexivity. discriminate. Qed.

(* C22 — the response loop acknowledges exactly when every series has its quorum. *)
From Coq Require Import ZArith List Bool Lia String Permutation.
Import ListNotations.
From Verif Require Import Lib.Corr Lib.ListFacts Lib.Receive_Fanout Gen.C22 Model.C22.
Open Scope Z_scope.

Lemma shape_holds : shape_ok = true.
Proof. vm_compute. reflexivity. Qed.

(* a write quorum is a majority except for rf = 2 (documented in writeQuorum) *)
Lemma writeQuorum_majority : forall rf, 1 <= rf -> rf <> 2 -> 2 * writeQuorum rf > rf.
Proof. intros rf H H2. pose proof (quorum_arith rf H) as Q. cbn zeta in Q. unfold writeQuorum. lia. Qed.

Lemma spec_threshold_is : forall rf rep, 1 <= rf -> spec_threshold rf rep = success_threshold rf rep.
Proof.
  intros rf rep H. unfold spec_threshold, success_threshold, spec_quorum, writeQuorum.
  destruct (rep =? 0); [|reflexivity]. symmetry. apply (quorum_arith rf H).
Qed.

Lemma handler_thresholds : forall rf rep, 1 <= rf -> 0 <= rep ->
  let q := success_threshold rf rep in let nrep := n_replicas rf rep in
  1 <= q <= nrep /\ q + failureThreshold_expr nrep q = nrep + 1.
Proof.
  intros rf rep Hrf Hrep. cbn zeta. unfold failureThreshold_expr, success_threshold, n_replicas, writeQuorum.
  pose proof (quorum_arith rf Hrf) as Q. cbn zeta in Q. destruct (rep =? 0); lia.
Qed.

Lemma bump_step : forall k x, let y := bump k x in
  succ y = succ x + b2z (is_ok k) /\ succ y + fail y = succ x + fail x + 1
  /\ fail x <= fail y /\ confl x <= confl y /\ confl y - confl x <= fail y - fail x.
Proof. intros [] x; cbn; lia. Qed.

Lemma bumps_inv : forall ks x, let y := bumps bump ks x in
  succ y = succ x + Z.of_nat (List.length (filter is_ok ks))
  /\ succ y + fail y = succ x + fail x + Z.of_nat (List.length ks)
  /\ fail x <= fail y /\ confl x <= confl y
  /\ confl y - confl x <= fail y - fail x.
Proof.
  induction ks as [|k ks IH]; intro x; cbn zeta.
  - cbn. lia.
  - unfold bumps. cbn [fold_left]. fold (bumps bump ks (bump k x)).
    specialize (IH (bump k x)). pose proof (bump_step k x) as B. cbn zeta in IH, B.
    rewrite filter_length_cons. change Z.b2z with b2z. change (List.length (k :: ks)) with (S (List.length ks)). lia.
Qed.

Definition reach (n : nat) (l : list resp) : list sst := fold_left apply_resp l (repeat sst0 n).

Lemma reach_length : forall n l, List.length (reach n l) = n.
Proof. exact (Receive_Fanout.reach_length bump sst0). Qed.

Lemma reach_nth : forall n l s, (s < n)%nat -> nth s (reach n l) sst0 = bumps bump (kinds_for s l) sst0.
Proof. exact (Receive_Fanout.reach_nth bump sst0). Qed.

Lemma prefix_counters : forall n l s, (s < n)%nat ->
  let x := nth s (reach n l) sst0 in
  succ x = successes_of s l /\ succ x + fail x = responses_of s l /\ 0 <= confl x <= fail x.
Proof.
  intros n l s Hs. cbn zeta. rewrite reach_nth by exact Hs.
  pose proof (bumps_inv (kinds_for s l) sst0) as I. cbn zeta in I. cbn [succ fail confl sst0] in I.
  unfold successes_of, responses_of. lia.
Qed.

Lemma kinds_for_app : forall s l1 l2, kinds_for s (l1 ++ l2) = kinds_for s l1 ++ kinds_for s l2.
Proof. intros. apply flat_map_app. Qed.

Lemma successes_of_app : forall s l1 l2, successes_of s (l1 ++ l2) = successes_of s l1 + successes_of s l2.
Proof. intros. unfold successes_of. rewrite kinds_for_app, filter_app, app_length. lia. Qed.

Lemma responses_of_app : forall s l1 l2, responses_of s (l1 ++ l2) = responses_of s l1 + responses_of s l2.
Proof. intros. unfold responses_of. rewrite kinds_for_app, app_length. lia. Qed.

Lemma successes_le_responses : forall s l, 0 <= successes_of s l <= responses_of s l.
Proof. intros. unfold successes_of, responses_of. pose proof (filter_length_le is_ok (kinds_for s l)). lia. Qed.

Lemma kinds_for_perm : forall s rs rs', Permutation rs rs' -> Permutation (kinds_for s rs) (kinds_for s rs').
Proof. intros s rs rs'. apply Permutation_flat_map. Qed.

Lemma successes_of_perm : forall s rs rs', Permutation rs rs' -> successes_of s rs = successes_of s rs'.
Proof. intros s rs rs' H. unfold successes_of. f_equal. apply Permutation_length, filter_perm, kinds_for_perm, H. Qed.

Lemma responses_of_perm : forall s rs rs', Permutation rs rs' -> responses_of s rs = responses_of s rs'.
Proof. intros s rs rs' H. unfold responses_of. f_equal. apply Permutation_length, kinds_for_perm, H. Qed.

Lemma quorum_everywhere_spec : forall n q rs,
  quorum_everywhere n q rs = true <-> forall s, (s < n)%nat -> successes_of s rs >= q.
Proof.
  intros n q rs. unfold quorum_everywhere. rewrite forallb_forall. split.
  - intros H s Hs. apply Z.le_ge, Z.geb_le, H, in_seq. lia.
  - intros H s Hs. apply in_seq in Hs. apply Z.geb_le, Z.ge_le, H. lia.
Qed.

Lemma quorum_everywhere_perm : forall n q rs rs', Permutation rs rs' ->
  quorum_everywhere n q rs = quorum_everywhere n q rs'.
Proof.
  intros n q rs rs' H. unfold quorum_everywhere. induction (seq 0 n) as [|s l IH]; [reflexivity|].
  cbn [forallb]. rewrite IH, (successes_of_perm s rs rs' H). reflexivity.
Qed.

Lemma quorum_firstn_mono : forall n q rs k d, (k <= d)%nat ->
  quorum_everywhere n q (firstn k rs) = true -> quorum_everywhere n q (firstn d rs) = true.
Proof.
  intros n q rs k d Hkd. rewrite !quorum_everywhere_spec. intros H s Hs. specialize (H s Hs).
  rewrite <- (firstn_skipn k (firstn d rs)), firstn_firstn, Nat.min_l, successes_of_app by exact Hkd.
  pose proof (successes_le_responses s (skipn k (firstn d rs))). lia.
Qed.

Lemma determined_spec : forall q ft x, determined q ft x = true <-> q <= succ x \/ ft <= confl x.
Proof. intros. unfold determined. rewrite negb_true_iff, andb_false_iff, !Z.ltb_ge. reflexivity. Qed.

Lemma early_spec : forall q ft n l, can_return_early q ft (reach n l) = true <->
  forall s, (s < n)%nat -> q <= succ (nth s (reach n l) sst0) \/ ft <= confl (nth s (reach n l) sst0).
Proof.
  intros q ft n l. unfold can_return_early.
  rewrite forallb_forall, <- Forall_forall, (Forall_nth_iff _ _ sst0), reach_length.
  split; intros H s Hs; apply determined_spec, H, Hs.
Qed.

Lemma finish_ack : forall ft n l, finish ft (reach n l) = Ack <->
  forall s, (s < n)%nat -> fail (nth s (reach n l) sst0) < ft.
Proof.
  intros ft n l. unfold finish.
  destruct (existsb (fun s => fail s >=? ft) (reach n l)) eqn:E.
  - split; [discriminate|]. intro H. apply existsb_exists, Exists_exists, (Exists_nth_iff _ _ sst0) in E as [s [Hs Hf]].
    rewrite reach_length in Hs. specialize (H s Hs). apply Z.geb_le in Hf. lia.
  - split; [|reflexivity]. intros _ s Hs. apply Z.nle_gt. intro Hge.
    apply not_true_iff_false in E. apply E, existsb_exists, Exists_exists, (Exists_nth_iff _ _ sst0). exists s.
    rewrite reach_length. split; [exact Hs|apply Z.geb_le, Hge].
Qed.

(* an early return that acknowledges has seen the quorum of every series:
   a determined series without quorum has ft conflicts, hence ft failures *)
Lemma early_ack_quorum : forall q ft n l, can_return_early q ft (reach n l) = true ->
  finish ft (reach n l) = Ack -> quorum_everywhere n q l = true.
Proof.
  intros q ft n l Hdet Hack. apply quorum_everywhere_spec. intros s Hs.
  pose proof (proj1 (early_spec q ft n l) Hdet s Hs). pose proof (proj1 (finish_ack ft n l) Hack s Hs).
  pose proof (prefix_counters n l s Hs) as P. cbn zeta in P. lia.
Qed.

Lemma loop_prefix : forall q ft rs st,
  exists k, loop q ft st rs = finish ft (fold_left apply_resp (firstn k rs) st)
    /\ (k <= List.length rs)%nat
    /\ (can_return_early q ft (fold_left apply_resp (firstn k rs) st) = true \/ k = List.length rs).
Proof.
  intros q ft rs. induction rs as [|r rs IH]; intro st.
  - exists 0%nat. cbn. auto.
  - cbn [loop]. destruct (can_return_early q ft (apply_resp st r)) eqn:E.
    + exists 1%nat. cbn [firstn fold_left List.length]. split; [reflexivity|]. split; [lia|]. left. exact E.
    + destruct (IH (apply_resp st r)) as [k [Hk [Hle Hc]]]. exists (S k).
      cbn [firstn fold_left List.length]. split; [exact Hk|]. split; [lia|].
      destruct Hc as [Hc|Hc]; [left; exact Hc|right; lia].
Qed.

Section Quorum.
  Variables (n : nat) (nrep q ft : Z) (rs : list resp).
  Hypothesis Hsum : q + ft = nrep + 1.
  Hypothesis Hwf : forall s, (s < n)%nat -> responses_of s rs = nrep.

  Lemma ack_prefix_quorum : loop q ft (repeat sst0 n) rs = Ack ->
    exists k, (k <= List.length rs)%nat /\ quorum_everywhere n q (firstn k rs) = true.
  Proof.
    intro Hack. destruct (loop_prefix q ft rs (repeat sst0 n)) as [k [Hk [Hle Hor]]].
    fold (reach n (firstn k rs)) in Hk, Hor. rewrite Hk in Hack.
    exists k. split; [exact Hle|]. destruct Hor as [Hdet| ->]; [exact (early_ack_quorum q ft n _ Hdet Hack)|].
    (* channel closed: all nrep responses are in, fewer than ft of them failures *)
    rewrite firstn_all in *. apply quorum_everywhere_spec. intros s Hs.
    pose proof (proj1 (finish_ack ft n rs) Hack s Hs).
    pose proof (prefix_counters n rs s Hs) as P. cbn zeta in P. rewrite (Hwf s Hs) in P. lia.
  Qed.

  Lemma ack_iff_quorum : loop q ft (repeat sst0 n) rs = Ack <-> quorum_everywhere n q rs = true.
  Proof.
    split.
    - intro Hack. destruct (ack_prefix_quorum Hack) as [k [Hle Hq]].
      apply (quorum_firstn_mono n q rs k _ Hle) in Hq. rewrite firstn_all in Hq. exact Hq.
    - (* wherever the loop stops, a series with quorum among its nrep responses
         has had fewer than ft failures so far *)
      intro Hq. destruct (loop_prefix q ft rs (repeat sst0 n)) as [k [Hk _]].
      fold (reach n (firstn k rs)) in Hk. rewrite Hk. apply finish_ack. intros s Hs.
      pose proof (proj1 (quorum_everywhere_spec n q rs) Hq s Hs) as Q. pose proof (Hwf s Hs) as W.
      rewrite <- (firstn_skipn k rs), successes_of_app in Q. rewrite <- (firstn_skipn k rs), responses_of_app in W.
      pose proof (prefix_counters n (firstn k rs) s Hs) as P. cbn zeta in P.
      pose proof (successes_le_responses s (skipn k rs)). lia.
  Qed.

  Lemma fanout_is_quorum : fanout n q ft rs = Some (if quorum_everywhere n q rs then Ack else Fail).
  Proof.
    unfold fanout. f_equal. destruct (quorum_everywhere n q rs) eqn:E; [apply ack_iff_quorum, E|].
    destruct (loop q ft (repeat sst0 n) rs) eqn:L; [apply ack_iff_quorum in L; congruence|reflexivity].
  Qed.

  Lemma fanout_ack_iff_quorum : fanout n q ft rs = Some Ack <-> forall s, (s < n)%nat -> successes_of s rs >= q.
  Proof. rewrite fanout_is_quorum, <- quorum_everywhere_spec. destruct (quorum_everywhere n q rs); split; congruence. Qed.

  Lemma fanout_ack_after_quorum : fanout n q ft rs = Some Ack ->
    exists k, (k <= List.length rs)%nat /\ quorum_everywhere n q (firstn k rs) = true.
  Proof. intro H. injection H as H. exact (ack_prefix_quorum H). Qed.
End Quorum.

Lemma fanout_no_quorum_fails : forall n nrep q ft rs s, q + ft = nrep + 1 ->
  (forall s, (s < n)%nat -> responses_of s rs = nrep) ->
  (s < n)%nat -> successes_of s rs < q -> fanout n q ft rs = Some Fail.
Proof.
  intros n nrep q ft rs s Hsum Hwf Hs Hlt. rewrite (fanout_is_quorum n nrep q ft rs Hsum Hwf).
  destruct (quorum_everywhere n q rs) eqn:E; [|reflexivity].
  pose proof (proj1 (quorum_everywhere_spec n q rs) E s Hs). lia.
Qed.

Lemma fanout_order_independent : forall n nrep q ft rs rs', q + ft = nrep + 1 ->
  (forall s, (s < n)%nat -> responses_of s rs = nrep) -> Permutation rs rs' ->
  fanout n q ft rs = fanout n q ft rs'.
Proof.
  intros n nrep q ft rs rs' Hsum Hwf Hp.
  rewrite (fanout_is_quorum n nrep q ft rs Hsum Hwf), (fanout_is_quorum n nrep q ft rs' Hsum).
  - rewrite (quorum_everywhere_perm n q rs rs' Hp). reflexivity.
  - intros s Hs. rewrite <- (responses_of_perm s rs rs' Hp). exact (Hwf s Hs).
Qed.

(* quorum in a consumed prefix is what the check's predicate asks of an
   acknowledged request, for every delivered count from that prefix on *)
Lemma pred_from_prefix : forall rf rep place ws k, 1 <= rf -> (k <= List.length (resps_of place ws))%nat ->
  quorum_everywhere (List.length place) (success_threshold rf rep) (firstn k (resps_of place ws)) = true ->
  exists k, (k <= List.length ws)%nat /\ forall d hg obs obsr, (k <= d)%nat ->
    pred_ok (CAck rf rep place ws hg obs obsr 200 d) = true.
Proof.
  intros rf rep place ws k Hrf Hk Hq. exists k. split; [unfold resps_of in Hk; rewrite map_length in Hk; exact Hk|].
  intros d hg obs obsr Hd. cbn [pred_ok Z.eqb Pos.eqb andb]. destruct (negb (rep >? rf)); [|reflexivity].
  rewrite (spec_threshold_is rf rep Hrf). exact (quorum_firstn_mono _ _ _ k d Hd Hq).
Qed.

Lemma handle_pred : forall rf rep place ws, 1 <= rf -> 0 <= rep ->
  (forall s, (s < List.length place)%nat -> responses_of s (resps_of place ws) = n_replicas rf rep) ->
  exists o, handle rf rep place ws = Some o
    /\ (o = OAck -> rep <= rf ->
        quorum_everywhere (List.length place) (success_threshold rf rep) (resps_of place ws) = true
        /\ exists k, (k <= List.length ws)%nat /\ forall d hg obs obsr, (k <= d)%nat ->
             pred_ok (CAck rf rep place ws hg obs obsr 200 d) = true)
    /\ (o = OFail -> quorum_everywhere (List.length place) (success_threshold rf rep) (resps_of place ws) = false).
Proof.
  intros rf rep place ws Hrf Hrep Hwf. unfold handle.
  destruct (Nat.eqb_spec (List.length place) 0) as [E0|E0].
  - exists OAck. split; [reflexivity|]. split; [|discriminate]. intros _ _.
    assert (Hq : forall l, quorum_everywhere (List.length place) (success_threshold rf rep) l = true)
      by (intro l; rewrite E0; reflexivity).
    split; [apply Hq|]. apply (pred_from_prefix rf rep place ws 0 Hrf); [lia|apply Hq].
  - destruct (rep >? rf).
    + exists OBadReplica. split; [reflexivity|]. split; discriminate.
    + destruct (handler_thresholds rf rep Hrf Hrep) as [_ Hsum]. cbn zeta in Hsum.
      rewrite (fanout_is_quorum _ _ _ _ _ Hsum Hwf).
      destruct (quorum_everywhere _ _ (resps_of place ws)) eqn:Eq.
      * exists OAck. split; [reflexivity|]. split; [|discriminate]. intros _ _. split; [reflexivity|].
        apply (ack_iff_quorum _ _ _ _ _ Hsum Hwf) in Eq.
        destruct (ack_prefix_quorum _ _ _ _ _ Hsum Hwf Eq) as [k [Hk Hqk]].
        exact (pred_from_prefix rf rep place ws k Hrf Hk Hqk).
      * exists OFail. split; [reflexivity|]. split; [discriminate|reflexivity].
Qed.

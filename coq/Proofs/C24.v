(* C24 — the gate invariant (tokens = in the write path + about to release, at
   most the capacity, no panic) is kept by every step of the LTS, on one gate
   and across reloads, and gives the predicate of the check on whatever the
   harness observes. *)
From Coq Require Import List Bool Arith Lia String.
Open Scope nat_scope.
Import ListNotations.
From Verif Require Import Lib.Corr Gen.C24 Model.C24.

(* tie T: in the CURRENT source both handlers defer Done only after the
   failed-Start return (closed by computation on Gen/C24.v) *)
Lemma current_source_safe : forall e, done_on_failed_start e = false.
Proof. intros [|]; vm_compute; reflexivity. Qed.

(* tie T: in the CURRENT source Start and the deferred Done are called on one
   binding of the gate in both handlers *)
Lemma current_source_same_gate : forall e, same_gate e = true.
Proof. intros [|]; vm_compute; reflexivity. Qed.

Definition inv (max : nat) (s : state) : Prop :=
  tokens s = working s + exiting s /\ tokens s <= max /\ panics s = 0.
Definition minv (gs : mstate) : Prop := Forall (fun g => inv (fst g) (snd g)) gs.

Lemma inv_init : forall max, inv max init.
Proof. intro max. unfold inv, init; cbn. lia. Qed.

Lemma minv_init : forall max, minv (minit max).
Proof. intro max. constructor; [apply inv_init|constructor]. Qed.

Lemma minv_snap_ok : forall gs, minv gs -> snap_ok (snap_of gs) = true.
Proof.
  intros gs H. unfold snap_ok, snap_of.
  enough (forallb (fun g => match g with (cap, w, _) => w <=? cap end)
            (map (fun g => (fst g, working (snd g), waiting (snd g))) gs) = true
          /\ sum_of panics gs = 0) as [-> ->] by reflexivity.
  induction H as [|g r [I1 [I2 I3]] _ [IH1 IH2]]; [split; reflexivity|].
  cbn [map forallb sum_of fold_right]. fold (sum_of panics r). rewrite IH1, IH2, I3.
  split; [|reflexivity]. rewrite andb_true_r. apply Nat.leb_le. lia.
Qed.

Lemma gsnap_eqb_eq : forall a b, gsnap_eqb a b = true <-> a = b.
Proof.
  intros [[a1 a2] a3] [[b1 b2] b3]. unfold gsnap_eqb. split.
  - intros [[->%Nat.eqb_eq ->%Nat.eqb_eq]%andb_true_iff ->%Nat.eqb_eq]%andb_true_iff. reflexivity.
  - intros [= -> -> ->]. rewrite !Nat.eqb_refl. reflexivity.
Qed.

Lemma snap_eqb_eq : forall a b, snap_eqb a b = true -> a = b.
Proof.
  intros [[[ga fa] ca] pa] [[[gb fb] cb] pb]. unfold snap_eqb.
  intros [[[->%(list_eqb_spec _ gsnap_eqb_eq) ->%Nat.eqb_eq]%andb_true_iff
             ->%Nat.eqb_eq]%andb_true_iff ->%Nat.eqb_eq]%andb_true_iff.
  reflexivity.
Qed.

Lemma upd_gate_inv : forall f i gs gs',
  (forall g g', inv (fst g) (snd g) -> f g = Some g' -> inv (fst g') (snd g')) ->
  minv gs -> upd_gate i f gs = Some gs' -> minv gs'.
Proof.
  intros f i gs. revert i. induction gs as [|g r IH]; intros i gs' Hf Hi Hu; [destruct i; discriminate|].
  inversion Hi as [|? ? Hg Hr]; subst. destruct i as [|j]; cbn [upd_gate] in Hu.
  - destruct (f g) as [g'|] eqn:E; [|discriminate]. inversion Hu; subst. constructor; [eapply Hf; eauto|exact Hr].
  - destruct (upd_gate j f r) as [r'|] eqn:E; [|discriminate]. inversion Hu; subst.
    constructor; [exact Hg|]. eapply IH; eauto.
Qed.

Lemma mrun_app : forall dofs same l1 l2 gs,
  mrun dofs same gs (l1 ++ l2)
  = match mrun dofs same gs l1 with Some gs' => mrun dofs same gs' l2 | None => None end.
Proof.
  intros dofs same l1 l2. induction l1 as [|l l1 IH]; intro gs; cbn [mrun app]; [reflexivity|].
  destruct (mstep dofs same gs l); [apply IH|reflexivity].
Qed.

Lemma exec_op_is_run : forall dofs same gs o gs', exec_op dofs same gs o = Some gs' ->
  exists ls, mrun dofs same gs ls = Some gs'.
Proof.
  intros dofs same gs o gs' He. unfold exec_op in He.
  destruct (op_enabled gs o); [|discriminate].
  destruct (mrun dofs same gs (op_labels gs o)) as [g1|] eqn:E1; [|discriminate].
  exists (op_labels gs o ++ all_admits 0 g1). rewrite mrun_app, E1. exact He.
Qed.

(* The LTS takes the two source-order facts as parameters, so that the refuted
   runs below can set them otherwise: [dofs e] = handler e runs Done on a failed
   Start, [same e] = its Done goes to the gate its Start was called on. The
   invariant is kept when no handler does the first and every handler the second. *)
Section SafeHandlers.
  Variables dofs same : ep -> bool.
  Hypothesis Hd : forall e, dofs e = false.
  Hypothesis Hs : forall e, same e = true.

  Lemma step_inv : forall max s l s', inv max s -> step dofs max s l = Some s' -> inv max s'.
  Proof.
    intros max s l s' [H1 [H2 H3]] Hst. destruct s as [t wt wk ex fi ca pa]. cbn in *.
    destruct l as [e| |e| |]; cbn [step waiting tokens working exiting finished cancelled panics] in Hst.
    - inversion Hst; subst; unfold inv; cbn; lia.
    - destruct wt as [|w]; [discriminate|]. destruct (t <? max) eqn:El; [|discriminate].
      apply Nat.ltb_lt in El. inversion Hst; subst; unfold inv; cbn; lia.
    - destruct wt as [|w]; [discriminate|]. rewrite Hd in Hst.
      inversion Hst; subst; unfold inv; cbn; lia.
    - destruct wk as [|w]; [discriminate|]. inversion Hst; subst; unfold inv; cbn; lia.
    - destruct ex as [|x]; [discriminate|]. destruct t as [|t]; [lia|].
      cbn [gate_done tokens waiting working exiting finished cancelled panics] in Hst. inversion Hst; subst; unfold inv; cbn; lia.
  Qed.

  Lemma run_inv : forall max ls s s', inv max s -> run dofs max s ls = Some s' -> inv max s'.
  Proof.
    intros max ls. induction ls as [|l ls IH]; intros s s' Hi Hr; cbn in Hr.
    - inversion Hr; subst; exact Hi.
    - destruct (step dofs max s l) as [s1|] eqn:E; [|discriminate].
      exact (IH s1 s' (step_inv max s l s1 Hi E) Hr).
  Qed.

  Lemma bound_all_interleavings : forall max ls s,
    run dofs max init ls = Some s -> working s <= max /\ panics s = 0 /\ tokens s = working s + exiting s.
  Proof. intros max ls s Hr. destruct (run_inv max ls init s (inv_init max) Hr) as [H1 [H2 H3]]. lia. Qed.

  Lemma on_gate_inv : forall l g g', inv (fst g) (snd g) -> on_gate dofs l g = Some g' -> inv (fst g') (snd g').
  Proof.
    intros l [cap s] g' Hi H. unfold on_gate in H. cbn [fst snd] in *.
    destruct (step dofs cap s l) as [s'|] eqn:E; [|discriminate]. inversion H; subst.
    exact (step_inv cap s l s' Hi E).
  Qed.

  Lemma mstep_inv : forall gs l gs', minv gs -> mstep dofs same gs l = Some gs' -> minv gs'.
  Proof.
    intros gs l gs' Hi H. destruct l as [i l|i e|max]; cbn [mstep] in H.
    - destruct l; try discriminate; exact (upd_gate_inv _ i gs gs' (on_gate_inv _) Hi H).
    - rewrite Hs in H. exact (upd_gate_inv _ i gs gs' (on_gate_inv _) Hi H).
    - inversion H; subst. apply Forall_app. split; [exact Hi|apply minv_init].
  Qed.

  Lemma mrun_inv : forall ls gs gs', minv gs -> mrun dofs same gs ls = Some gs' -> minv gs'.
  Proof.
    intros ls. induction ls as [|l ls IH]; intros gs gs' Hi Hr; cbn [mrun] in Hr.
    - inversion Hr; subst; exact Hi.
    - destruct (mstep dofs same gs l) as [g1|] eqn:E; [|discriminate].
      exact (IH g1 gs' (mstep_inv gs l g1 Hi E) Hr).
  Qed.

  Lemma per_gate_bound : forall max ls gs, mrun dofs same (minit max) ls = Some gs ->
    Forall (fun g => working (snd g) <= fst g /\ panics (snd g) = 0 /\ tokens (snd g) = working (snd g) + exiting (snd g)) gs.
  Proof.
    intros max ls gs Hr. pose proof (mrun_inv ls (minit max) gs (minv_init max) Hr) as Hi.
    eapply Forall_impl; [|exact Hi]. intros [cap s] [H1 [H2 H3]]. cbn [fst snd] in *. lia.
  Qed.

  Lemma exec_op_inv : forall gs o gs', minv gs -> exec_op dofs same gs o = Some gs' -> minv gs'.
  Proof.
    intros gs o gs' Hi He. destruct (exec_op_is_run dofs same gs o gs' He) as [ls Hr].
    exact (mrun_inv ls gs gs' Hi Hr).
  Qed.

  Lemma follows_pred : forall steps gs, minv gs ->
    follows dofs same gs steps = true -> forallb (fun st => snap_ok (snd st)) steps = true.
  Proof.
    intros steps. induction steps as [|[o obs] r IH]; intros gs Hi Hf; [reflexivity|].
    cbn [follows] in Hf. destruct (exec_op dofs same gs o) as [gs'|] eqn:E; [|discriminate].
    apply andb_true_iff in Hf as [Hsn Hf]. apply exec_op_inv in E; [|exact Hi].
    cbn [forallb snd]. rewrite <- (snap_eqb_eq _ _ Hsn), (minv_snap_ok gs' E). exact (IH gs' E Hf).
  Qed.
End SafeHandlers.

Lemma bound_current_source : forall max ls s,
  run done_on_failed_start max init ls = Some s -> working s <= max /\ panics s = 0.
Proof.
  intros max ls s Hr. destruct (bound_all_interleavings _ current_source_safe max ls s Hr) as [H1 [H2 _]]. auto.
Qed.

Lemma per_gate_bound_current_source : forall max ls gs,
  mrun done_on_failed_start same_gate (minit max) ls = Some gs ->
  Forall (fun g => working (snd g) <= fst g /\ panics (snd g) = 0) gs.
Proof.
  intros max ls gs Hr.
  pose proof (per_gate_bound _ _ current_source_safe current_source_same_gate max ls gs Hr) as H.
  eapply Forall_impl; [|exact H]. intros g [A [B _]]. auto.
Qed.

Lemma corr_implies_pred : forall c, corr_ok c = true -> pred_ok c = true.
Proof.
  intros [max steps].
  exact (follows_pred _ _ current_source_safe current_source_same_gate steps (minit max) (minv_init max)).
Qed.

(* a handler that looks the gate up again for its Done (Start on one gate
   value, Done on whatever gate is installed then) breaks both halves as soon
   as a request straddles a reload *)
Lemma double_lookup_over_admission :
  exists gs, mrun (fun _ => false) (fun _ => false) (minit 1)
    [MOn 0 (LArrive Http); MOn 0 LAdmit; MReload 1; MOn 1 (LArrive Http); MOn 1 LAdmit;
     MOn 0 LFinish; MRelease 0 Http; MOn 1 (LArrive Otlp); MOn 1 LAdmit] = Some gs
    /\ map (fun g => (fst g, working (snd g))) gs = [(1, 0); (1, 2)].
Proof. eexists. split; [vm_compute; reflexivity|reflexivity]. Qed.

Lemma double_lookup_panic :
  exists gs, mrun (fun _ => false) (fun _ => false) (minit 1)
    [MOn 0 (LArrive Http); MOn 0 LAdmit; MReload 1; MOn 0 LFinish; MRelease 0 Http] = Some gs
    /\ sum_of panics gs = 1.
Proof. eexists. split; [vm_compute; reflexivity|reflexivity]. Qed.

(* the order that was in the source before the repair *)
Lemma buggy_over_admission :
  exists s, run (fun _ => true) 1 init
    [LArrive Http; LAdmit; LArrive Http; LCancel Http; LArrive Otlp; LAdmit] = Some s
    /\ working s = 2.
Proof. eexists. split; [vm_compute; reflexivity|reflexivity]. Qed.

Lemma buggy_panic :
  exists s, run (fun _ => true) 1 init [LArrive Http; LCancel Http] = Some s /\ panics s = 1.
Proof. eexists. split; [vm_compute; reflexivity|reflexivity]. Qed.

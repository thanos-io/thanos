(* Facts about the byte strings and label lists of Model/C05.v ([str_eqb], [lfind], [lget],
   [lhas]), which the models of C07 and C08 share. Kept apart from Proofs/C05.v so that C07
   and C08 do not depend on the proofs about store pruning (and on Gen/C05.v's [time_skip]). *)
From Coq Require Import NArith List Bool.
Import ListNotations.
From Verif Require Import Lib.Corr Lib.Proxy_Order Model.C05.

Lemma str_eqb_eq a b : str_eqb a b = true <-> a = b.
Proof. exact (bytes_eqb_eq a b). Qed.

Lemma str_eqb_refl a : str_eqb a a = true.
Proof. exact (bytes_eqb_refl a). Qed.

Lemma str_eqb_sym a b : str_eqb a b = str_eqb b a.
Proof.
  destruct (str_eqb b a) eqn:E.
  - apply str_eqb_eq in E. subst. apply str_eqb_refl.
  - destruct (str_eqb a b) eqn:E'; [|reflexivity].
    apply str_eqb_eq in E'. subst. now rewrite str_eqb_refl in E.
Qed.

Lemma str_cmp_eq a b : str_cmp a b = Eq <-> a = b.
Proof. apply (cmp_eq _ str_ord). Qed.

Lemma lfind_cons k v r m : lfind ((k, v) :: r) m = if str_eqb k m then Some v else lfind r m.
Proof. reflexivity. Qed.

Lemma lfind_some_in ls n v : lfind ls n = Some v -> In (n, v) ls.
Proof.
  induction ls as [|[k w] r IH]; [discriminate|]. rewrite lfind_cons.
  destruct (str_eqb k n) eqn:E; [|now right; apply IH].
  apply str_eqb_eq in E. intros [= ->]. subst. now left.
Qed.

Lemma lfind_none_iff l m : lfind l m = None <-> ~ In m (map fst l).
Proof.
  induction l as [|[k w] r IH]; [cbn; tauto|]. rewrite lfind_cons. cbn [map fst In].
  destruct (str_eqb k m) eqn:E.
  - apply str_eqb_eq in E. split; [discriminate|tauto].
  - rewrite IH. split; [|tauto]. intros H [->|Hin]; [|tauto]. now rewrite str_eqb_refl in E.
Qed.

Lemma in_lfind l n v : NoDup (map fst l) -> In (n, v) l -> lfind l n = Some v.
Proof.
  induction l as [|[k w] r IH]; [contradiction|]. cbn [map fst]. rewrite lfind_cons.
  intros Hnd [[= -> ->]|Hin]; [now rewrite str_eqb_refl|].
  inversion Hnd as [|? ? Hn Hr]; subst. destruct (str_eqb k n) eqn:E; [|now apply IH].
  apply str_eqb_eq in E. subst k. exfalso. apply Hn. exact (in_map fst _ _ Hin).
Qed.

Lemma lget_nonempty_has ls n : is_empty_str (lget ls n) = false -> lhas ls n = true.
Proof. unfold lget, lhas. now destruct (lfind ls n). Qed.

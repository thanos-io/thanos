(* C11 — proofs about the model of BinaryReader.init / postingsOffset / LabelValues /
   LabelNames / LookupSymbol. The lemmas about the three loops of postingsOffset carry the
   same invariant: the ranges already appended, with the ranges still open closed at the next
   entry's offset, are the specification's answers for the values consumed so far. *)
From Coq Require Import ZArith NArith List Bool Lia Sorted.
Import ListNotations.
From Verif Require Import Lib.Corr Lib.ListFacts Lib.Storegw_Str Gen.C11 Model.C11.
Open Scope Z_scope.

Definition keys (tbl : list entry) : list str := map fst tbl.

Definition next_end (lastVal : Z) (d : list entry) : Z :=
  match d with [] => lastVal | (_, po) :: _ => po - crc32_size end.

Lemma repeat_snoc {A} (x : A) n : repeat x n ++ [x] = repeat x (S n).
Proof. symmetry. apply repeat_cons. Qed.

Lemma repeat_plus {A} (x : A) n m : repeat x (n + m) = repeat x n ++ repeat x m.
Proof. apply repeat_app. Qed.

Lemma spec_cons v po r lv w :
  spec_range ((v, po) :: r) lv w =
  if str_eqb v w then (po + posting_length_field_size, next_end lv r) else spec_range r lv w.
Proof. reflexivity. Qed.

Lemma spec_app_skip pre d lv w :
  Forall (fun e : entry => fst e <> w) pre -> spec_range (pre ++ d) lv w = spec_range d lv w.
Proof.
  induction pre as [|[v po] pre IH]; intro H; [reflexivity|].
  inversion H as [|? ? Hv Hr]; subst. simpl app. rewrite spec_cons.
  simpl in Hv. apply str_eqb_false_ne in Hv. rewrite Hv. apply IH. exact Hr.
Qed.

Lemma spec_absent tbl lv w : ~ In w (keys tbl) -> spec_range tbl lv w = NotFound.
Proof.
  induction tbl as [|[v po] tbl IH]; intro H; [reflexivity|].
  rewrite spec_cons. simpl in H.
  assert (Hv : v <> w) by (intro; apply H; left; assumption).
  apply str_eqb_false_ne in Hv. rewrite Hv. apply IH. intro; apply H; right; assumption.
Qed.

Lemma close_repeat e x n : close_rngs e (repeat (x, 0) n) = repeat (x, e) n.
Proof. induction n; simpl; [reflexivity|]. rewrite <- IHn. reflexivity. Qed.

Lemma close_app e a b : close_rngs e (a ++ b) = close_rngs e a ++ close_rngs e b.
Proof. apply map_app. Qed.

Lemma Forall_lt_ne (pre : list entry) w :
  Forall (fun e : entry => str_lt (fst e) w) pre -> Forall (fun e : entry => fst e <> w) pre.
Proof. apply Forall_impl. intros a H. apply str_lt_not_eq. exact H. Qed.

Lemma Forall_lt_le_trans (pre : list entry) w w' :
  Forall (fun e : entry => str_lt (fst e) w) pre -> str_le w w' ->
  Forall (fun e : entry => str_lt (fst e) w') pre.
Proof. intros H Hle. revert H. apply Forall_impl. intros a Ha. eapply str_lt_le_trans; eauto. Qed.

Lemma skipn_nth_split {A} (l : list A) p a :
  nth_error l p = Some a -> exists l1 l2, l = l1 ++ a :: l2 /\ skipn p l = a :: l2 /\ length l1 = p.
Proof.
  intro H. destruct (nth_error_split _ _ H) as (l1 & l2 & E & Hl).
  exists l1, l2. split; [exact E|]. split; [|exact Hl]. subst l. subst p.
  rewrite skipn_app. rewrite skipn_all. rewrite Nat.sub_diag. reflexivity.
Qed.

Lemma ssorted_nth_lt {A} (R : A -> A -> Prop) l i j a b :
  StronglySorted R l -> (i < j)%nat -> nth_error l i = Some a -> nth_error l j = Some b -> R a b.
Proof.
  intros Hs. revert i j. induction Hs as [|x l Hs IH Hf]; intros i j Hij Hi Hj.
  - destruct i; discriminate.
  - destruct j; [lia|]. destruct i.
    + simpl in Hi. inversion Hi; subst. simpl in Hj. apply nth_error_In in Hj.
      rewrite Forall_forall in Hf. apply Hf. exact Hj.
    + simpl in Hi, Hj. apply (IH i j); [lia | exact Hi | exact Hj].
Qed.

Lemma in_keys_suffix pre d (e : entry) : In e d -> In (fst e) (keys (pre ++ d)).
Proof. intro H. apply in_map, in_or_app. right. exact H. Qed.

Lemma in_keys_after pre d w nv :
  In nv (keys (pre ++ d)) -> Forall (fun e : entry => str_lt (fst e) w) pre -> str_le w nv ->
  In nv (keys d).
Proof.
  intros Hin Hpre Hle. unfold keys in *. rewrite map_app in Hin. apply in_app_or in Hin.
  destruct Hin as [Hin|Hin]; [|exact Hin]. exfalso.
  apply in_map_iff in Hin. destruct Hin as (e & He & Hin).
  rewrite Forall_forall in Hpre. specialize (Hpre e Hin). rewrite He in Hpre.
  apply str_le_not_gt in Hle. contradiction.
Qed.

(* [P] holds of the first wanted value, if there is one *)
Definition at_hd (P : str -> Prop) (vs : list str) : Prop :=
  match vs with [] => True | w :: _ => P w end.

Lemma at_hd_sorted (P : str -> Prop) w rest :
  StronglySorted str_le (w :: rest) -> (forall w', str_le w w' -> P w') -> at_hd P rest.
Proof.
  intros Hs H. destruct rest as [|w' rest]; [exact I|]. apply H.
  apply StronglySorted_inv, proj2 in Hs. inversion Hs; assumption.
Qed.

Lemma search_spec : forall offs w,
  (search offs w <= length offs)%nat
  /\ (forall j v, (j < search offs w)%nat -> value_at offs j = Some v -> str_lt v w)
  /\ ((search offs w < length offs)%nat -> exists v, value_at offs (search offs w) = Some v /\ str_le w v).
Proof.
  induction offs as [|[v p] offs IH]; intro w; simpl.
  - repeat split; try lia; try (intros j v Hj; lia).
  - destruct (str_leb w v) eqn:E.
    + repeat split; try lia. intros _. exists v. split; [reflexivity|]. apply str_leb_le. exact E.
    + destruct (IH w) as (H1 & H2 & H3). repeat split; try lia.
      * intros j v0 Hj Hv. destruct j.
        -- unfold value_at in Hv. simpl in Hv. inversion Hv; subst. apply str_leb_false_lt. exact E.
        -- apply (H2 j); [lia|]. exact Hv.
      * intro Hlt. apply H3. lia.
Qed.

Section Table.
Variable tbl : list entry.
Variable lv : Z.
Hypothesis Hsorted : StronglySorted str_lt (keys tbl).

Let spec := spec_range tbl lv.

(* position facts of a sorted table split at the current entry *)
Lemma split_facts pre value po d' :
  tbl = pre ++ (value, po) :: d' ->
  Forall (fun e : entry => str_lt (fst e) value) pre /\
  Forall (fun e : entry => str_lt value (fst e)) d'.
Proof.
  intro E. unfold keys in Hsorted. rewrite E in Hsorted. rewrite map_app in Hsorted. simpl in Hsorted.
  apply StronglySorted_app_inv in Hsorted. destruct Hsorted as (_ & H2 & H3). split.
  - apply Forall_forall. intros e He. apply H3; [apply in_map; exact He | left; reflexivity].
  - apply StronglySorted_inv, proj2 in H2. rewrite Forall_map in H2. exact H2.
Qed.

Lemma spec_found pre value po d' :
  tbl = pre ++ (value, po) :: d' ->
  spec value = (po + posting_length_field_size, next_end lv d').
Proof.
  intro E. destruct (split_facts _ _ _ _ E) as [H1 _]. unfold spec. rewrite E.
  rewrite spec_app_skip by (apply Forall_lt_ne; exact H1).
  rewrite spec_cons. rewrite str_eqb_refl. reflexivity.
Qed.

Lemma spec_between pre value po d' w :
  tbl = pre ++ (value, po) :: d' ->
  Forall (fun e : entry => str_lt (fst e) w) pre -> str_lt w value ->
  spec w = NotFound.
Proof.
  intros E Hpre Hlt. destruct (split_facts _ _ _ _ E) as [_ H2]. unfold spec. rewrite E.
  rewrite spec_app_skip by (apply Forall_lt_ne; exact Hpre).
  apply spec_absent. simpl. intros [Hv|Hin].
  - subst. eapply str_lt_irrefl; eauto.
  - unfold keys in Hin. apply in_map_iff in Hin. destruct Hin as (e & He & Hin).
    rewrite Forall_forall in H2. specialize (H2 e Hin). rewrite He in H2.
    eapply str_lt_irrefl. eapply str_lt_trans; eauto.
Qed.

(* The inner `for string(value) >= wantedValue` loop at the table entry (value, po), with [m]
   ranges already open at this entry. It consumes a prefix [took] of the wanted values: first
   those below [value] (absent from the table, and only while nothing is open), then those
   equal to it ([j] more ranges opened). While nothing is open the next wanted value stays below
   the next sampled value [next], or the loop leaves Iter. *)
Lemma inner_ok : forall vs value po next pre d' m rngs,
  tbl = pre ++ (value, po) :: d' ->
  StronglySorted str_le vs ->
  at_hd (fun w => Forall (fun e : entry => str_lt (fst e) w) pre) vs ->
  ((m > 0)%nat -> at_hd (str_le value) vs) ->
  (m = 0%nat -> forall nv, next = Some nv -> at_hd (fun w => str_lt w nv) vs) ->
  let x : range := (po + posting_length_field_size, 0) in
  let E := next_end lv d' in
  match inner value po next vs (repeat x m) rngs with
  | IBreakIter vs' rngs' =>
      exists took, took <> [] /\ vs = took ++ vs' /\ rngs' = rngs ++ map spec took /\ m = 0%nat
  | IDone vs' ns rngs' =>
      exists took j, vs = took ++ vs' /\ ns = repeat x (m + j)
        /\ rngs' ++ close_rngs E ns = (rngs ++ close_rngs E (repeat x m)) ++ map spec took
        /\ at_hd (str_lt value) vs'
        /\ (took = [] -> j = 0%nat)
        /\ (m = 0%nat -> (j > 0)%nat -> forall nv, next = Some nv -> str_lt value nv)
        /\ at_hd (fun w => str_le w value) took
  end.
Proof.
  induction vs as [|w rest IH]; intros value po next pre d' m rngs Etbl Hvs Hpre Hm Hnext x E.
  - simpl. exists [], 0%nat. rewrite Nat.add_0_r, !app_nil_r. repeat split; try reflexivity; lia.
  - cbn [inner]. simpl in Hpre.
    destruct (str_leb w value) eqn:Ele.
    2:{ (* value < w: nothing consumed *)
      apply str_leb_false_lt in Ele.
      exists [], 0%nat. rewrite Nat.add_0_r. simpl. rewrite app_nil_r.
      repeat split; try reflexivity; try lia. exact Ele. }
    apply str_leb_le in Ele.
    pose proof (proj1 (StronglySorted_inv Hvs)) as Hrest_sorted.
    assert (Hpre_rest : at_hd (fun w0 => Forall (fun e : entry => str_lt (fst e) w0) pre) rest).
    { apply (at_hd_sorted _ w rest Hvs). intros w' Hww'. eapply Forall_lt_le_trans; eauto. }
    destruct (str_eqb value w) eqn:Eeq.
    + (* value = w: found *)
      apply str_eqb_eq in Eeq. subst w.
      assert (Hspec : spec value = (po + posting_length_field_size, E)) by (eapply spec_found; eauto).
      assert (Hclose : forall r l, (r ++ close_rngs E (repeat x m)) ++ (po + posting_length_field_size, E) :: l
                                   = (r ++ close_rngs E (repeat x (S m))) ++ l).
      { intros r l. rewrite <- repeat_snoc, close_app, <- !app_assoc. reflexivity. }
      fold x. rewrite repeat_snoc.
      destruct rest as [|w' rest'].
      * exists [value], 1%nat. simpl map. rewrite Hspec, Hclose, !app_nil_r, Nat.add_1_r.
        repeat split; try reflexivity; try discriminate; try lia; try exact Ele.
        intros Hm0 _ nv Hn. exact (Hnext Hm0 nv Hn).
      * cbn [is_nil repeat andb].
        specialize (IH value po next pre d' (S m) rngs Etbl Hrest_sorted Hpre_rest
                       (fun _ => at_hd_sorted _ value _ Hvs (fun _ H => H)) ltac:(lia)).
        cbv zeta in IH. fold x E in IH.
        change (x :: repeat x m) with (repeat x (S m)).
        destruct (inner value po next (w' :: rest') (repeat x (S m)) rngs) as [vs' rngs'|vs' ns rngs'].
        -- destruct IH as (took & _ & _ & _ & Hbad). lia.
        -- destruct IH as (took & j & Hvs' & Hns & Hr & Hhd' & _ & _ & _).
           exists (value :: took), (S j). simpl map. rewrite Hspec, Hclose, Hr, Hvs'.
           repeat split; try discriminate; try exact Hhd'; try exact Ele.
           ++ rewrite Hns. f_equal. lia.
           ++ intros Hm0 _ nv Hn. exact (Hnext Hm0 nv Hn).
    + (* w < value: w is not in the table *)
      apply str_eqb_false_ne in Eeq.
      assert (Hlt : str_lt w value).
      { destruct (str_le_cases _ _ Ele) as [->|H]; [congruence|exact H]. }
      assert (Hm0 : m = 0%nat).
      { destruct m; [reflexivity|]. exfalso. apply (proj1 (str_le_not_gt value w)); [apply Hm; lia|exact Hlt]. }
      subst m. cbn [repeat].
      assert (Hspec : spec w = NotFound) by (eapply spec_between; eauto).
      destruct rest as [|w' rest'].
      * exists [w], 0%nat. simpl. rewrite Hspec, !app_nil_r.
        repeat split; try discriminate; try lia. exact Ele.
      * cbn [is_nil andb].
        destruct (match next with Some nv => str_leb nv w' | None => false end) eqn:Ebr.
        -- exists [w]. simpl. rewrite Hspec. repeat split. discriminate.
        -- assert (H2 : 0%nat = 0%nat -> forall nv, next = Some nv -> at_hd (fun w0 => str_lt w0 nv) (w' :: rest')).
           { intros _ nv Hn. subst next. apply str_leb_false_lt, Ebr. }
           specialize (IH value po next pre d' 0%nat (rngs ++ [NotFound]) Etbl Hrest_sorted Hpre_rest ltac:(lia) H2).
           cbv zeta in IH. fold x E in IH. cbn [repeat] in IH.
           destruct (inner value po next (w' :: rest') [] (rngs ++ [NotFound])) as [vs' rngs'|vs' ns rngs'].
           ++ destruct IH as (took & _ & Hvs' & Hr & _). exists (w :: took). simpl map.
              rewrite Hspec, Hr, Hvs', <- app_assoc. repeat split. discriminate.
           ++ destruct IH as (took & j & Hvs' & Hns & Hr & Hhd' & Hk0 & Hj & _).
              exists (w :: took), j. simpl map. rewrite Hspec, Hr, Hvs'. simpl. rewrite !app_nil_r, <- app_assoc.
              repeat split; try assumption; discriminate.
Qed.

Variable offs : list sample.

Definition good_samples : Prop :=
  Forall (fun s : sample => exists po, nth_error tbl (snd s) = Some (fst s, po)) offs
  /\ StronglySorted lt (map snd offs)
  /\ (exists v rest, offs = (v, 0%nat) :: rest)
  /\ (exists v front, offs = front ++ [(v, pred (length tbl))]).

Hypothesis Hgood : good_samples.

Lemma value_at_nth j v : value_at offs j = Some v -> exists p, nth_error offs j = Some (v, p).
Proof.
  unfold value_at. destruct (nth_error offs j) as [[v' p]|] eqn:E; [|discriminate].
  intro H. inversion H; subst. exists p. reflexivity.
Qed.

Lemma G_tbl j v p : nth_error offs j = Some (v, p) -> exists po, nth_error tbl p = Some (v, po).
Proof.
  intro H. destruct Hgood as (H1 & _). rewrite Forall_forall in H1.
  apply nth_error_In in H. apply (H1 _ H).
Qed.

Lemma G_in j v : value_at offs j = Some v -> In v (keys tbl).
Proof.
  intro H. destruct (value_at_nth _ _ H) as (p & Hp). destruct (G_tbl _ _ _ Hp) as (po & Hpo).
  apply nth_error_In in Hpo. unfold keys. apply in_map_iff. exists (v, po). split; [reflexivity|exact Hpo].
Qed.

Lemma G_mono j1 j2 v1 v2 : (j1 < j2)%nat ->
  value_at offs j1 = Some v1 -> value_at offs j2 = Some v2 -> str_lt v1 v2.
Proof.
  intros Hlt H1 H2.
  destruct (value_at_nth _ _ H1) as (p1 & Hp1). destruct (value_at_nth _ _ H2) as (p2 & Hp2).
  destruct (G_tbl _ _ _ Hp1) as (po1 & Hpo1). destruct (G_tbl _ _ _ Hp2) as (po2 & Hpo2).
  destruct Hgood as (_ & Hs & _).
  assert (Hp : (p1 < p2)%nat).
  { apply (ssorted_nth_lt lt (map snd offs) j1 j2 p1 p2 Hs Hlt).
    - exact (map_nth_error snd _ _ Hp1).
    - exact (map_nth_error snd _ _ Hp2). }
  apply (ssorted_nth_lt str_lt (keys tbl) p1 p2 v1 v2 Hsorted Hp).
  - exact (map_nth_error fst _ _ Hpo1).
  - exact (map_nth_error fst _ _ Hpo2).
Qed.

Lemma G_last i v : S i = length offs -> value_at offs i = Some v ->
  forall k, In k (keys tbl) -> str_le k v.
Proof.
  intros Hi Hv k Hk. destruct Hgood as (_ & _ & _ & (v' & front & E)).
  destruct (value_at_nth _ _ Hv) as (p & Hp).
  assert (Hlen : length offs = S (length front)) by (rewrite E, app_length; simpl; lia).
  assert (i = length front) by lia. subst i.
  rewrite E in Hp. rewrite nth_error_app2 in Hp by lia. rewrite Nat.sub_diag in Hp. simpl in Hp.
  inversion Hp; subst v' p. clear Hp.
  assert (Hin : In (v, pred (length tbl)) offs) by (rewrite E; apply in_or_app; right; left; reflexivity).
  destruct Hgood as (H1 & _). rewrite Forall_forall in H1. destruct (H1 _ Hin) as (po & Hpo). cbn [fst snd] in Hpo.
  unfold keys in Hk. apply In_nth_error in Hk. destruct Hk as (q & Hq).
  assert (Hql : (q < length (map fst tbl))%nat) by (apply nth_error_Some; congruence).
  rewrite map_length in Hql.
  destruct (Nat.eq_dec q (pred (length tbl))) as [->|Hne].
  - rewrite (map_nth_error fst _ _ Hpo) in Hq. simpl in Hq. inversion Hq. apply str_le_refl.
  - apply str_lt_le. apply (ssorted_nth_lt str_lt (keys tbl) q (pred (length tbl)) k v Hsorted); [unfold entry in *; lia|exact Hq|].
    exact (map_nth_error fst _ _ Hpo).
Qed.

Lemma G_first : exists v, value_at offs 0 = Some v /\ forall k, In k (keys tbl) -> str_le v k.
Proof.
  destruct Hgood as (H1 & _ & (v & rest & E) & _).
  exists v. split; [rewrite E; reflexivity|].
  intros k Hk. rewrite Forall_forall in H1.
  assert (Hin : In (v, 0%nat) offs) by (rewrite E; left; reflexivity).
  destruct (H1 _ Hin) as (po & Hpo). cbn [fst snd] in Hpo.
  unfold keys in Hk. apply In_nth_error in Hk. destruct Hk as (q & Hq).
  destruct q.
  - rewrite (map_nth_error fst _ _ Hpo) in Hq. simpl in Hq. inversion Hq. apply str_le_refl.
  - apply str_lt_le. apply (ssorted_nth_lt str_lt (keys tbl) 0 (S q) v k Hsorted); [lia| |exact Hq].
    exact (map_nth_error fst _ _ Hpo).
Qed.

Lemma offs_nonempty : (length offs >= 1)%nat.
Proof. destruct Hgood as (_ & _ & (v & rest & E) & _). rewrite E. simpl. lia. Qed.

Lemma value_at_some j : (j < length offs)%nat -> exists v, value_at offs j = Some v.
Proof.
  intro H. unfold value_at. destruct (nth_error offs j) as [[v p]|] eqn:E; [exists v; reflexivity|].
  apply nth_error_None in E. lia.
Qed.

Lemma value_at_lt j v : value_at offs j = Some v -> (j < length offs)%nat.
Proof. intro H. destruct (value_at_nth _ _ H) as (p & Hp). apply nth_error_Some. congruence. Qed.

(* decbuf positioned at a sampled entry *)
Lemma G_skip j v : value_at offs j = Some v ->
  exists pre po d', tbl = pre ++ (v, po) :: d' /\ skipn (pos_at offs j) tbl = (v, po) :: d'.
Proof.
  intro H. destruct (value_at_nth _ _ H) as (p & Hp). destruct (G_tbl _ _ _ Hp) as (po & Hpo).
  destruct (skipn_nth_split _ _ _ Hpo) as (l1 & l2 & E & Hs & _).
  exists l1, po, l2. split; [exact E|]. unfold pos_at. rewrite Hp. exact Hs.
Qed.

(* The Iter loop. [mode i w d C]: either the next sampled value is beyond the wanted value [w],
   or [i] is the last sample, [w] is its value (the last key of the table), and the decbuf [d]
   stands at its entry unless [C]. [C] reads "a value has already been consumed in this run of
   Iter": the outer loop starts it with [False], each further table entry with
   [C \/ took <> []]; what comes back, [C \/ took <> []], is the progress the outer loop's fuel needs. *)
Definition mode (i : nat) (w : str) (d : list entry) (C : Prop) : Prop :=
  (exists nv, value_at offs (S i) = Some nv /\ str_lt w nv)
  \/ (S i = length offs /\ value_at offs i = Some w /\ ((exists po d', d = (w, po) :: d') \/ C)).

Lemma iter_ok : forall d pre i w rest newSame rngs done (C : Prop),
  tbl = pre ++ d ->
  StronglySorted str_le (w :: rest) ->
  Forall (fun e : entry => str_lt (fst e) w) pre -> mode i w d C ->
  rngs ++ close_rngs (next_end lv d) newSame = map spec done ->
  exists took vs', w :: rest = took ++ vs'
    /\ iter offs lv d i (w :: rest) newSame rngs = ROuter vs' (map spec (done ++ took))
    /\ (C \/ took <> []).
Proof.
  induction d as [|[value po] d' IH]; intros pre i w rest newSame rngs done C Etbl Hvs Hpre Hmode Hinv.
  - (* the decbuf is never exhausted *)
    exfalso. rewrite app_nil_r in Etbl. subst pre.
    assert (Hex : exists nv, In nv (keys tbl) /\ str_le w nv).
    { destruct Hmode as [(nv & Hnv & Hlt)|(_ & Hv & _)].
      - exists nv. split; [eapply G_in; eauto | apply str_lt_le; exact Hlt].
      - exists w. split; [eapply G_in; eauto | apply str_le_refl]. }
    destruct Hex as (nv & Hin & Hle).
    unfold keys in Hin. apply in_map_iff in Hin. destruct Hin as (e & He & Hin).
    rewrite Forall_forall in Hpre. specialize (Hpre e Hin). rewrite He in Hpre.
    apply str_le_not_gt in Hle. contradiction.
  - cbn [iter].
    set (rngs1 := if is_nil newSame then rngs else rngs ++ close_rngs (po - crc32_size) newSame).
    assert (Hr1 : rngs1 = map spec done).
    { unfold rngs1. simpl in Hinv. destruct newSame; simpl; [|exact Hinv].
      simpl in Hinv. rewrite app_nil_r in Hinv. exact Hinv. }
    pose proof (inner_ok (w :: rest) value po (value_at offs (S i)) pre d' 0%nat rngs1 Etbl Hvs Hpre) as Hin.
    assert (Hmode_excl : S i <> length offs -> exists nv, value_at offs (S i) = Some nv /\ str_lt w nv).
    { intro Hne. destruct Hmode as [H|(H & _)]; [exact H|contradiction]. }
    assert (Hp3 : 0%nat = 0%nat -> forall nv, value_at offs (S i) = Some nv -> str_lt w nv).
    { intros _ nv Hnv.
      destruct Hmode as [(nv' & Hnv' & Hlt)|(Hlen & _)].
      - rewrite Hnv in Hnv'. inversion Hnv'; subst. exact Hlt.
      - apply value_at_lt in Hnv. lia. }
    specialize (Hin ltac:(lia) Hp3). cbv zeta in Hin. cbn [repeat] in Hin.
    destruct (split_facts _ _ _ _ Etbl) as [Hpre_val Hd'_val].
    destruct (inner value po (value_at offs (S i)) (w :: rest) [] rngs1) as [vs' rngs'|vs' ns rngs'].
    + (* break Iter *)
      destruct Hin as (took & Hk & Hvs' & Hr & _). exists took, vs'. subst rngs'.
      rewrite Hr1, map_app. split; [exact Hvs'|]. split; [reflexivity | right; exact Hk].
    + destruct Hin as (took & j & Hvs' & Hns & Hr & Hhd' & Hk0 & Hj & Hkle).
      simpl in Hns. simpl close_rngs in Hr. rewrite app_nil_r in Hr.
      assert (Hdone : rngs' ++ close_rngs (next_end lv d') ns = map spec (done ++ took)).
      { rewrite Hr, Hr1, map_app. reflexivity. }
      (* nothing consumed: the entry is below w; otherwise w is the first value consumed *)
      assert (Hk_val : took = [] -> str_lt value w).
      { intro Hk. subst took. simpl in Hvs'. subst vs'. exact Hhd'. }
      assert (Hwv : took <> [] -> str_le w value).
      { intro Hk. destruct took; [congruence|]. inversion Hvs'; subst. exact Hkle. }
      destruct (Nat.eqb (S i) (length offs)) eqn:Elen.
      * (* last sampled offset: no more offsets for this name *)
        apply Nat.eqb_eq in Elen.
        destruct Hmode as [(nv & Hnv & _)|(_ & Hv & Hc)]; [apply value_at_lt in Hnv; lia|].
        exists took, vs'. split; [exact Hvs'|]. split.
        -- f_equal. rewrite <- Hdone. f_equal.
           destruct j; [subst ns; reflexivity|].
           (* something was found at this entry: it is the last entry of the name *)
           assert (Hk1 : took <> []) by (intro Hk; specialize (Hk0 Hk); lia).
           assert (Hvw : str_le value w).
           { eapply G_last; eauto. rewrite Etbl. apply (in_keys_suffix pre _ (value, po)). left. reflexivity. }
           destruct d' as [|[v2 po2] d'']; [reflexivity|]. exfalso.
           inversion Hd'_val as [|? ? Hv2 _]; subst. simpl in Hv2.
           assert (Hv2w : str_le v2 w).
           { eapply G_last; eauto. rewrite Etbl. apply (in_keys_suffix pre _ (v2, po2)). right. left. reflexivity. }
           eapply str_lt_irrefl. eapply str_lt_le_trans; [exact Hv2|]. eapply str_le_trans; eauto.
        -- destruct Hc as [(po' & d0 & Hd)|Hc]; [|left; exact Hc].
           right. inversion Hd; subst value. intro Hk. eapply str_lt_irrefl. apply Hk_val. exact Hk.
      * apply Nat.eqb_neq in Elen. destruct (Hmode_excl Elen) as (nv & Hnv & Hwnv). rewrite Hnv.
        assert (Hfinal :
                   (if is_nil ns then ROuter vs' rngs'
                    else match d' with
                         | [] => RErr
                         | (_, po2) :: _ => ROuter vs' (rngs' ++ close_rngs (po2 - crc32_size) ns)
                         end) = ROuter vs' (map spec (done ++ took))
                   /\ (at_hd (str_lt nv) vs' -> C \/ took <> [])).
        { destruct j.
          - subst ns. simpl. simpl in Hdone. rewrite app_nil_r in Hdone. rewrite Hdone. split; [reflexivity|].
            intros Hlt. right. intro Hk. subst took. simpl in Hvs'. subst vs'.
            eapply str_lt_irrefl. eapply str_lt_trans; [exact Hwnv|exact Hlt].
          - subst ns. cbn [is_nil repeat].
            assert (Hvnv : str_lt value nv) by (apply (Hj eq_refl ltac:(lia) nv Hnv)).
            assert (Hinnv : In nv (keys ((value, po) :: d'))).
            { assert (Hnv_in : In nv (keys tbl)) by (eapply G_in; eauto). rewrite Etbl in Hnv_in.
              apply (in_keys_after _ _ w nv Hnv_in); [exact Hpre | apply str_lt_le; exact Hwnv]. }
            simpl in Hinnv. destruct Hinnv as [Heq|Hinnv]; [subst; exfalso; eapply str_lt_irrefl; eauto|].
            destruct d' as [|[v2 po2] d'']; [contradiction|].
            simpl in Hdone. rewrite <- Hdone. split; [reflexivity|].
            intros _. right. intro Hk. specialize (Hk0 Hk). lia. }
        destruct Hfinal as (Hf & Hprog).
        destruct vs' as [|w' vs''].
        { exists took, []. split; [exact Hvs'|]. split; [exact Hf|]. apply Hprog. exact I. }
        destruct (str_leb w' nv) eqn:Eleb.
        2:{ exists took, (w' :: vs''). split; [exact Hvs'|]. split; [exact Hf|].
            apply Hprog, str_leb_false_lt, Eleb. }
        apply str_leb_le in Eleb. clear Hf Hprog.
        (* continue with the next table entry *)
        pose proof Hhd' as Hvw'. simpl in Hvw'.
        pose proof Hvs as Hsplit. rewrite Hvs' in Hsplit. apply StronglySorted_app_inv in Hsplit.
        destruct Hsplit as (_ & Hvs'' & Hcross).
        assert (Hww' : str_le w w').
        { destruct took as [|t took']; inversion Hvs'; [apply str_le_refl|]. apply Hcross; left; reflexivity. }
        assert (Etbl' : tbl = (pre ++ [(value, po)]) ++ d') by (rewrite <- app_assoc; exact Etbl).
        assert (Hpre' : Forall (fun e : entry => str_lt (fst e) w') (pre ++ [(value, po)])).
        { apply Forall_app. split; [exact (Forall_lt_le_trans pre w w' Hpre Hww')|]. constructor; [exact Hvw'|constructor]. }
        set (i' := if str_eqb w' nv then S i else i).
        assert (Hmode' : mode i' w' d' (C \/ took <> [])).
        { unfold i'. destruct (str_eqb w' nv) eqn:Eq.
          - apply str_eqb_eq in Eq. subst w'.
            destruct (value_at offs (S (S i))) as [nv2|] eqn:Env2.
            + left. exists nv2. split; [exact Env2|]. eapply (G_mono (S i) (S (S i))); eauto.
            + right. split; [|split; [exact Hnv|]].
              * apply value_at_lt in Hnv.
                unfold value_at in Env2. destruct (nth_error offs (S (S i))) as [[? ?]|] eqn:En; [discriminate|].
                apply nth_error_None in En. lia.
              * right. right. intro Hk. subst took. inversion Hvs'; subst. eapply str_lt_irrefl; exact Hwnv.
          - left. exists nv. split; [exact Hnv|]. apply str_eqb_false_ne in Eq.
            destruct (str_le_cases _ _ Eleb) as [->|H]; [congruence|exact H]. }
        destruct (IH (pre ++ [(value, po)]) i' w' vs'' ns rngs' (done ++ took) (C \/ took <> [])
                     Etbl' Hvs'' Hpre' Hmode' Hdone) as (took2 & vs2 & Hv2 & Hit & Hprog).
        exists (took ++ took2), vs2. fold i'. rewrite Hit, Hvs', Hv2, !app_assoc.
        split; [reflexivity|]. split; [reflexivity|].
        destruct Hprog as [[Hc|Hk]|Hk]; [left; exact Hc|right..]; intro Hnil; apply app_eq_nil in Hnil; apply Hk, Hnil.
Qed.

Lemma map_const_repeat {A B} (f : A -> B) c l : (forall v, In v l -> f v = c) -> map f l = repeat c (length l).
Proof.
  induction l as [|a l IH]; intro H; simpl; [reflexivity|].
  rewrite H by (left; reflexivity). rewrite IH; [reflexivity|]. intros v Hv. apply H. right. exact Hv.
Qed.

Lemma spec_below_first first w :
  value_at offs 0 = Some first -> str_lt w first -> spec w = NotFound.
Proof.
  intros Hf Hlt. apply spec_absent. intro Hin.
  destruct G_first as (v & Hv & Hmin). rewrite Hf in Hv. inversion Hv; subst v.
  specialize (Hmin _ Hin). apply str_le_not_gt in Hmin. contradiction.
Qed.

Lemma outer_ok : forall fuel vs done rngs total,
  (length vs < fuel)%nat -> StronglySorted str_le vs ->
  (forall first, value_at offs 0 = Some first -> at_hd (str_le first) vs) ->
  rngs = map spec done -> total = (length done + length vs)%nat ->
  outer fuel offs lv tbl total vs rngs = OK (map spec (done ++ vs)).
Proof.
  induction fuel as [|f IH]; intros vs done rngs total Hfuel Hvs Hfirst Hr Htot; [lia|].
  destruct vs as [|w rest].
  { simpl. rewrite app_nil_r. subst rngs. reflexivity. }
  cbn [outer].
  destruct (search_spec offs w) as (Hs1 & Hs2 & Hs3).
  set (i := search offs w) in *.
  destruct (Nat.eqb i (length offs)) eqn:Ei.
  - (* past the end: every remaining value is absent *)
    apply Nat.eqb_eq in Ei. f_equal.
    pose proof offs_nonempty as Hne.
    destruct (value_at_some (pred (length offs))) as (vl & Hvl); [lia|].
    assert (Hvlw : str_lt vl w) by (apply (Hs2 (pred (length offs))); [lia|exact Hvl]).
    assert (Habs : forall v, In v (w :: rest) -> spec v = NotFound).
    { intros v Hv. apply spec_absent. intro Hin.
      assert (Hle : str_le v vl) by (eapply (G_last (pred (length offs))); eauto; lia).
      assert (Hwv : str_le w v).
      { destruct Hv as [->|Hv]; [apply str_le_refl|]. apply StronglySorted_inv, proj2 in Hvs.
        rewrite Forall_forall in Hvs. apply Hvs. exact Hv. }
      eapply str_lt_irrefl. eapply str_lt_le_trans; [exact Hvlw|]. eapply str_le_trans; eauto. }
    rewrite map_app. rewrite (map_const_repeat spec NotFound (w :: rest) Habs).
    subst rngs. rewrite map_length. subst total.
    replace (length done + length (w :: rest) - length done)%nat with (length (w :: rest)) by lia.
    reflexivity.
  - apply Nat.eqb_neq in Ei. assert (Hilt : (i < length offs)%nat) by lia.
    destruct (Hs3 Hilt) as (v & Hv & Hwv).
    set (i2 := if (Nat.ltb 0 i) && negb (option_eqb str_eqb (value_at offs i) (Some w)) then pred i else i).
    assert (Hstart : exists vi pre po d',
               tbl = pre ++ (vi, po) :: d' /\ skipn (pos_at offs i2) tbl = (vi, po) :: d'
               /\ Forall (fun e : entry => str_lt (fst e) w) pre
               /\ mode i2 w ((vi, po) :: d') False).
    { unfold i2. rewrite Hv. simpl option_eqb.
      destruct (str_eqb v w) eqn:Evw.
      - (* exact hit *)
        apply str_eqb_eq in Evw. subst v. rewrite andb_false_r.
        destruct (G_skip _ _ Hv) as (pre & po & d' & E1 & E2).
        exists w, pre, po, d'. split; [exact E1|]. split; [exact E2|].
        destruct (split_facts _ _ _ _ E1) as [Hp _]. split; [exact Hp|].
        destruct (value_at offs (S i)) as [nv|] eqn:Env.
        + left. exists nv. split; [exact Env|]. eapply (G_mono i (S i)); eauto.
        + right. split; [|split; [exact Hv|left; eauto]].
          unfold value_at in Env. destruct (nth_error offs (S i)) as [[? ?]|] eqn:En; [discriminate|].
          apply nth_error_None in En. lia.
      - apply str_eqb_false_ne in Evw.
        assert (Hlt : str_lt w v) by (destruct (str_le_cases _ _ Hwv) as [->|H]; [congruence|exact H]).
        destruct i as [|i0].
        + exfalso. apply (proj1 (str_le_not_gt v w) (Hfirst v Hv)), Hlt.
        + simpl. destruct (value_at_some i0) as (v' & Hv'); [lia|].
          assert (Hv'w : str_lt v' w) by (apply (Hs2 i0); [lia|exact Hv']).
          destruct (G_skip _ _ Hv') as (pre & po & d' & E1 & E2).
          exists v', pre, po, d'. split; [exact E1|]. split; [exact E2|].
          destruct (split_facts _ _ _ _ E1) as [Hp _]. split.
          * eapply Forall_lt_le_trans; [exact Hp|]. apply str_lt_le. exact Hv'w.
          * left. exists v. split; [exact Hv|exact Hlt]. }
    fold i2.
    destruct Hstart as (vi & pre & po & d' & E1 & E2 & Hp & Hmode). rewrite E2.
    destruct (iter_ok ((vi, po) :: d') pre i2 w rest [] rngs done False E1 Hvs Hp Hmode)
      as (took & vs' & Hsplit & Hit & Hprog).
    { simpl. rewrite app_nil_r. exact Hr. }
    rewrite Hit. destruct Hprog as [[]|Hk].
    destruct took as [|t took]; [congruence|]. injection Hsplit as <- Hrest. subst rest.
    apply (StronglySorted_app_inv _ (w :: took) vs') in Hvs. destruct Hvs as (_ & Hvs' & Hcross).
    rewrite (IH vs' (done ++ w :: took) _ total).
    + rewrite <- app_assoc. reflexivity.
    + simpl in Hfuel. rewrite app_length in Hfuel. lia.
    + exact Hvs'.
    + intros first Hf. destruct vs' as [|w' vs']; [exact I|].
      eapply str_le_trans; [exact (Hfirst first Hf)|]. apply Hcross; left; reflexivity.
    + reflexivity.
    + subst total. simpl. rewrite !app_length. simpl. lia.
Qed.

Lemma discard_spec first : forall vs,
  exists took rest, vs = took ++ rest /\ discard first vs = (repeat NotFound (length took), rest)
    /\ Forall (fun v => str_lt v first) took
    /\ at_hd (str_le first) rest.
Proof.
  induction vs as [|v r IH].
  - exists [], []. repeat split. constructor.
  - simpl. destruct (str_ltb v first) eqn:E.
    + destruct IH as (took & rest & H1 & H2 & H3 & H4). exists (v :: took), rest. rewrite H2, H1.
      repeat split; [|exact H4]. constructor; [apply str_ltb_lt; exact E|exact H3].
    + exists [], (v :: r). repeat split; [constructor|]. apply str_ltb_false_le, E.
Qed.

Lemma postings_offset_ok : forall vs, StronglySorted str_le vs ->
  postings_offset offs lv tbl vs = OK (map spec vs).
Proof.
  intros vs Hvs. unfold postings_offset. destruct vs as [|v0 vs0]; [reflexivity|].
  set (vs := v0 :: vs0) in *.
  destruct Hgood as (_ & _ & (first & orest & E) & _). rewrite E.
  destruct (discard_spec first vs) as (took & rest & H1 & H2 & H3 & H4). rewrite H2.
  assert (Hf0 : value_at offs 0 = Some first) by (rewrite E; reflexivity).
  rewrite <- E.
  rewrite (outer_ok (S (length rest)) rest took _ (length vs)).
  - rewrite <- H1. reflexivity.
  - lia.
  - rewrite H1 in Hvs. apply StronglySorted_app_inv in Hvs. apply Hvs.
  - intros f Hf. rewrite Hf0 in Hf. inversion Hf; subst f. exact H4.
  - symmetry. apply map_const_repeat. rewrite Forall_forall in H3.
    intros v Hv. eapply spec_below_first; eauto.
  - rewrite H1. apply app_length.
Qed.

Lemma lv_scan_ok lastv po : forall d1 d2 acc,
  Forall (fun e : entry => fst e <> lastv) d1 ->
  lv_scan (d1 ++ (lastv, po) :: d2) lastv acc = Some (acc ++ keys d1 ++ [lastv]).
Proof.
  induction d1 as [|[v p] d1 IH]; intros d2 acc H; simpl.
  - rewrite str_eqb_refl. reflexivity.
  - inversion H as [|? ? Hv Hr]; subst. simpl in Hv. apply str_eqb_false_ne in Hv. rewrite Hv.
    rewrite IH by exact Hr. rewrite <- app_assoc. reflexivity.
Qed.

Lemma label_values_unfold (o : list sample) t v0 rest vl :
  o = (v0, 0%nat) :: rest -> value_at o (pred (length o)) = Some vl ->
  label_values o t = lv_scan t vl [].
Proof. intros -> H. unfold label_values. rewrite H. reflexivity. Qed.

Lemma label_values_ok : label_values offs tbl = Some (keys tbl).
Proof.
  pose proof offs_nonempty as Hne.
  destruct Hgood as (H1 & _ & (v0 & orest & E0) & (vl & front & El)).
  assert (Hvl : value_at offs (pred (length offs)) = Some vl).
  { rewrite El at 2. unfold value_at. rewrite El, app_length. simpl length.
    replace (pred (length front + 1)) with (length front) by lia.
    rewrite nth_error_app2 by lia. rewrite Nat.sub_diag. reflexivity. }
  rewrite (label_values_unfold offs tbl v0 orest vl E0 Hvl).
  assert (Hin : In (vl, pred (length tbl)) offs) by (rewrite El; apply in_or_app; right; left; reflexivity).
  rewrite Forall_forall in H1. destruct (H1 _ Hin) as (po & Hpo). cbn [fst snd] in Hpo.
  destruct (skipn_nth_split _ _ _ Hpo) as (l1 & l2 & Et & _ & Hl).
  assert (l2 = []).
  { assert (Hlen : length tbl = (length l1 + S (length l2))%nat) by (rewrite Et at 1; rewrite app_length; reflexivity).
    destruct l2; [reflexivity|]. simpl in Hlen. unfold entry in *. lia. }
  subst l2. destruct (split_facts _ _ _ _ Et) as [Hp _].
  rewrite Et at 1. rewrite lv_scan_ok by (apply Forall_lt_ne; exact Hp).
  simpl. rewrite Et. unfold keys. rewrite map_app. reflexivity.
Qed.

End Table.

Lemma sample_last_switch_eq vc n : sample_last_switch vc n = sample_last_end vc n.
Proof. reflexivity. Qed.

Lemma sample_last_end_keep vc n : sample_last_end vc n = negb (sample_keep vc n).
Proof. reflexivity. Qed.

Lemma sample_keep_first n : sample_keep 1 n = true.
Proof. unfold sample_keep. destruct n; reflexivity. Qed.

Lemma ssorted_lt_snoc l y : StronglySorted lt l -> Forall (fun x => (x < y)%nat) l -> StronglySorted lt (l ++ [y]).
Proof.
  intros Hs Hf. apply StronglySorted_app; [exact Hs|repeat constructor|].
  intros x z Hx [<-|[]]. rewrite Forall_forall in Hf. exact (Hf x Hx).
Qed.

Section Init.
Variable n : Z.
Variable tbl0 : list entry.

Let in_tbl (s : sample) : Prop := exists po, nth_error tbl0 (snd s) = Some (fst s, po).

(* after [pos] entries: the samples are entries at increasing positions below [pos]; the entry
   read last is remembered in [last], and is the last sample exactly when it was kept *)
Definition init_inv (pos : nat) (acc : list sample) (last : option sample) : Prop :=
  Forall in_tbl acc /\ StronglySorted lt (map snd acc)
  /\ Forall (fun s : sample => (snd s < pos)%nat) acc
  /\ match last with
     | None => pos = 0%nat /\ acc = []
     | Some l => S (snd l) = pos /\ in_tbl l /\ (exists v0 rest, acc = (v0, 0%nat) :: rest)
                 /\ (if sample_keep (Z.of_nat pos) n then exists front, acc = front ++ [l]
                     else Forall (fun s : sample => (snd s < snd l)%nat) acc)
     end.

Lemma init_snoc acc (l : sample) :
  in_tbl l -> Forall in_tbl acc -> StronglySorted lt (map snd acc) ->
  Forall (fun s : sample => (snd s < snd l)%nat) acc ->
  Forall in_tbl (acc ++ [l]) /\ StronglySorted lt (map snd (acc ++ [l])).
Proof.
  intros Hl A1 A2 A3. split; [apply Forall_app; split; [exact A1|constructor; [exact Hl|constructor]]|].
  rewrite map_app. apply ssorted_lt_snoc; [exact A2|]. rewrite Forall_map. exact A3.
Qed.

Lemma init_loop_good : forall rem done_t acc last,
  tbl0 = done_t ++ rem -> tbl0 <> [] -> init_inv (length done_t) acc last ->
  good_samples tbl0 (init_loop n rem (length done_t) (Z.of_nat (length done_t)) last acc).
Proof.
  induction rem as [|[v po] rem IH]; intros done_t acc last Et Hne (A1 & A2 & A3 & A4).
  - rewrite app_nil_r in Et. subst done_t. simpl. destruct last as [l|].
    2:{ destruct A4 as [H0 _]. destruct tbl0; [congruence|discriminate]. }
    destruct A4 as (Hp & Hl & Hfirst & Hkeep).
    assert (Epred : l = (fst l, pred (length tbl0))) by (destruct l; simpl in *; f_equal; lia).
    unfold good_samples. rewrite sample_last_end_keep. destruct (sample_keep (Z.of_nat (length tbl0)) n); simpl.
    + split; [exact A1|]. split; [exact A2|]. split; [exact Hfirst|].
      destruct Hkeep as (front & Hf). exists (fst l), front. rewrite <- Epred. exact Hf.
    + destruct (init_snoc acc l Hl A1 A2 Hkeep) as [B1 B2]. split; [exact B1|]. split; [exact B2|]. split.
      * destruct Hfirst as (v0 & rest & ->). exists v0, (rest ++ [l]). reflexivity.
      * exists (fst l), acc. rewrite <- Epred. reflexivity.
  - cbn [init_loop].
    assert (Et' : tbl0 = (done_t ++ [(v, po)]) ++ rem) by (rewrite <- app_assoc; exact Et).
    assert (Hlen' : length (done_t ++ [(v, po)]) = S (length done_t)) by (rewrite app_length; simpl; lia).
    replace (Z.of_nat (length done_t) + 1) with (Z.of_nat (length (done_t ++ [(v, po)]))) by (rewrite Hlen'; lia).
    rewrite <- Hlen'. apply IH; [exact Et' | exact Hne |]. rewrite Hlen'.
    set (pos := length done_t) in *. set (l := (v, pos) : sample).
    assert (Hl : in_tbl l).
    { exists po. simpl. rewrite Et. unfold pos. rewrite nth_error_app2, Nat.sub_diag by lia. reflexivity. }
    assert (A3' : Forall (fun s : sample => (snd s < S pos)%nat) acc).
    { eapply Forall_impl; [|exact A3]. intros a H. unfold sample in *. simpl in *. lia. }
    assert (Hfirst : exists v0 rest, (if sample_keep (Z.of_nat (S pos)) n then acc ++ [l] else acc) = (v0, 0%nat) :: rest).
    { destruct last as [l0|].
      - destruct A4 as (_ & _ & (v0 & rest & ->) & _).
        destruct (sample_keep _ n); [exists v0, (rest ++ [l])|exists v0, rest]; reflexivity.
      - destruct A4 as [H0 ->]. unfold l. rewrite H0. cbn [Z.of_nat Pos.of_succ_nat]. rewrite sample_keep_first.
        exists v, []. reflexivity. }
    unfold init_inv. destruct (sample_keep (Z.of_nat (S pos)) n).
    + destruct (init_snoc acc l Hl A1 A2 A3) as [B1 B2]. split; [exact B1|]. split; [exact B2|]. split.
      * apply Forall_app. split; [exact A3'|]. constructor; [simpl; lia|constructor].
      * split; [reflexivity|]. split; [exact Hl|]. split; [exact Hfirst|]. exists acc. reflexivity.
    + split; [exact A1|]. split; [exact A2|]. split; [exact A3'|].
      split; [reflexivity|]. split; [exact Hl|]. split; [exact Hfirst|exact A3].
Qed.

Lemma init_sample_good : tbl0 <> [] -> good_samples tbl0 (init_sample n tbl0).
Proof.
  intro Hne. apply (init_loop_good tbl0 [] [] None); [reflexivity | exact Hne |].
  repeat split; constructor.
Qed.
End Init.

Lemma offsets_eq_spec : forall n tbl next_off vs,
  1 <= n -> tbl <> [] -> StronglySorted str_lt (keys tbl) -> StronglySorted str_le vs ->
  postings_offset (init_sample n tbl) (last_val_offset next_off) tbl vs
  = OK (map (spec_range tbl (last_val_offset next_off)) vs).
Proof.
  intros n tbl next_off vs _ Hne Hs Hvs.
  apply postings_offset_ok; [exact Hs | apply init_sample_good; exact Hne | exact Hvs].
Qed.

Lemma label_values_eq : forall n tbl,
  1 <= n -> tbl <> [] -> StronglySorted str_lt (keys tbl) ->
  label_values (init_sample n tbl) tbl = Some (keys tbl).
Proof.
  intros n tbl _ Hne Hs. apply label_values_ok; [exact Hs | apply init_sample_good; exact Hne].
Qed.

Lemma sampled_ok : forall n tbl, 1 <= n -> tbl <> [] -> good_samples tbl (init_sample n tbl).
Proof. intros n tbl _ Hne. apply init_sample_good. exact Hne. Qed.

(* the specification, with the constants written out *)
Lemma spec_found_at : forall tbl lv pre v po d',
  StronglySorted str_lt (keys tbl) -> tbl = pre ++ (v, po) :: d' ->
  spec_range tbl lv v = (po + 4, match d' with [] => lv | (_, po') :: _ => po' - 4 end).
Proof. intros tbl lv pre v po d' Hs E. apply (spec_found tbl lv Hs pre v po d' E). Qed.

Lemma spec_missing : forall tbl lv v, ~ In v (keys tbl) -> spec_range tbl lv v = (-1, -1).
Proof. intros. apply spec_absent. assumption. Qed.

Lemma range_eqb_refl r : range_eqb r r = true.
Proof. unfold range_eqb. rewrite !Z.eqb_refl. reflexivity. Qed.

Lemma sample_eqb_refl s : sample_eqb s s = true.
Proof. unfold sample_eqb. rewrite str_eqb_refl, Nat.eqb_refl. reflexivity. Qed.

Lemma name_case_ok : forall n tbl next_off vs,
  1 <= n -> tbl <> [] -> StronglySorted str_lt (keys tbl) -> StronglySorted str_le vs ->
  let offs := init_sample n tbl in
  let lv := last_val_offset next_off in
  exists out lvs,
    postings_offset offs lv tbl vs = OK out /\ label_values offs tbl = Some lvs /\
    out = map (spec_range tbl lv) vs /\ lvs = keys tbl /\
    (* the case the harness would emit if the implementation agrees with the model and
       the full index with the specification passes both checks *)
    corr_ok (CName n tbl next_off offs lv [(vs, Some out, map (spec_range tbl lv) vs)] (Some lvs) (keys tbl)) = true /\
    pred_ok (CName n tbl next_off offs lv [(vs, Some out, map (spec_range tbl lv) vs)] (Some lvs) (keys tbl)) = true.
Proof.
  intros n tbl next_off vs Hn Hne Hs Hvs offs lv.
  exists (map (spec_range tbl lv) vs), (keys tbl).
  pose proof (offsets_eq_spec n tbl next_off vs Hn Hne Hs Hvs) as H1.
  pose proof (label_values_eq n tbl Hn Hne Hs) as H2.
  fold offs in H1, H2. fold lv in H1.
  split; [exact H1|]. split; [exact H2|]. split; [reflexivity|]. split; [reflexivity|].
  split.
  - unfold offs, lv in *. cbn [corr_ok]. cbv zeta. cbn [forallb]. rewrite H1, H2. cbn [res_eqb option_eqb].
    rewrite (list_eqb_refl sample_eqb sample_eqb_refl), Z.eqb_refl.
    rewrite !(list_eqb_refl range_eqb range_eqb_refl), (list_eqb_refl str_eqb str_eqb_refl). reflexivity.
  - cbn [pred_ok forallb option_eqb].
    rewrite (list_eqb_refl range_eqb range_eqb_refl), (list_eqb_refl str_eqb str_eqb_refl). reflexivity.
Qed.

(* LabelNames; [sort_str] is, as a term, [isort str_leb] of Lib/ListFacts.v. *)
Lemma mem_str_in x l : mem_str x l = true <-> In x l.
Proof.
  induction l as [|a l IH]; simpl; [intuition congruence|].
  rewrite orb_true_iff, IH, str_eqb_eq. intuition congruence.
Qed.

Lemma dedup_in y l : In y (dedup_str l) <-> In y l.
Proof.
  induction l as [|a l IH]; simpl; [tauto|].
  destruct (mem_str a l) eqn:E; simpl; rewrite IH.
  - apply mem_str_in in E. intuition congruence.
  - tauto.
Qed.

Lemma dedup_nodup l : NoDup (dedup_str l).
Proof.
  induction l as [|a l IH]; simpl; [constructor|].
  destruct (mem_str a l) eqn:E; [exact IH|]. constructor; [|exact IH].
  rewrite dedup_in. intro H. apply mem_str_in in H. congruence.
Qed.

Lemma label_names_ok : forall names,
  StronglySorted str_le (label_names names)
  /\ forall s, In s (label_names names) <-> (In s names /\ s <> []).
Proof.
  intro names. unfold label_names. split; [apply str_isort_sorted|].
  intro s. rewrite (isort_In str_leb), filter_In, dedup_in. destruct s; simpl; intuition congruence.
Qed.

Definition sc_ok (tbl : Z -> option str) (c : scache) : Prop :=
  forall slot idx s, sc_get c slot = Some (idx, s) -> tbl idx = Some s.

Lemma sc_ok_nil tbl : sc_ok tbl [].
Proof. intros slot idx s H. discriminate. Qed.

Lemma sc_ok_store tbl c slot o s : sc_ok tbl c -> tbl o = Some s -> sc_ok tbl ((slot, (o, s)) :: c).
Proof.
  intros Hc Ht slot' idx s' H. simpl in H. destruct (slot =? slot')%Z.
  - inversion H; subst. exact Ht.
  - eapply Hc; eauto.
Qed.

Lemma lookup_symbol_ok tbl names c o : sc_ok tbl c ->
  fst (lookup_symbol tbl names c o) = tbl o /\ sc_ok tbl (snd (lookup_symbol tbl names c o)).
Proof.
  intro Hc. unfold lookup_symbol.
  destruct (existsb (Z.eqb o) names); [split; [reflexivity|exact Hc]|].
  assert (Hmiss : fst (match tbl o with
                       | Some s' => (Some s', (Z.rem o sym_cache_size, (o, s')) :: c)
                       | None => (None, c)
                       end) = tbl o
                  /\ sc_ok tbl (snd (match tbl o with
                       | Some s' => (Some s', (Z.rem o sym_cache_size, (o, s')) :: c)
                       | None => (None, c)
                       end))).
  { destruct (tbl o) as [s'|] eqn:E; simpl; [|split; [reflexivity|exact Hc]].
    split; [reflexivity|]. apply sc_ok_store; assumption. }
  destruct (sc_get c (Z.rem o sym_cache_size)) as [[idx [|x s]]|] eqn:Eg; try exact Hmiss.
  destruct (idx =? o)%Z eqn:Ei; [|exact Hmiss].
  apply Z.eqb_eq in Ei. subst idx. simpl. split; [|exact Hc]. symmetry. eapply Hc; eauto.
Qed.

Lemma lookup_history_ok tbl names : forall h c, sc_ok tbl c -> run_lookups tbl names c h = map tbl h.
Proof.
  induction h as [|o h IH]; intros c Hc; [reflexivity|].
  cbn [run_lookups map]. destruct (lookup_symbol_ok tbl names c o Hc) as (H1 & H2).
  destruct (lookup_symbol tbl names c o) as [a c']. cbn [fst snd] in *. rewrite H1, (IH c' H2). reflexivity.
Qed.

(* without the index test a colliding reference gets another symbol's string *)
Lemma lookup_history_noidx_refuted :
  exists tbl h, run_lookups_noidx tbl [] [] h <> map tbl h.
Proof.
  exists (fun o => if (o =? 5)%Z then Some [97%N] else if (o =? 1029)%Z then Some [98%N] else None), [5%Z; 1029%Z].
  vm_compute. intro H. discriminate H.
Qed.

(* tie T: the hit test in the source is the one modelled *)
Lemma lookup_symbol_cond_checked : lookup_symbol_cond_ok = true.
Proof. reflexivity. Qed.

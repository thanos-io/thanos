(* C04 — identical replicas with arbitrary NON-overlapping chunk cuts: the first
   pseudo-replica built by the overlap split holds all samples, every other one
   holds a subsequence. *)
From Coq Require Import ZArith List Bool NArith Lia Sorting.Sorted Permutation.
Import ListNotations.
From Verif Require Import Lib.Corr Gen.C04 Model.C04 Proofs.C04.
Open Scope Z_scope.

Lemma SS_same_time L x y : SS L -> In x L -> In y L -> fst x = fst y -> x = y.
Proof.
  induction L as [|z L IH]; simpl; intros HS Hx Hy E; [contradiction|].
  pose proof (SS_tail_gt _ _ HS x) as Gx. pose proof (SS_tail_gt _ _ HS y) as Gy. apply SS_inv in HS as [HS _].
  destruct Hx as [<-|Hx], Hy as [<-|Hy]; auto.
  - specialize (Gy Hy). lia.
  - specialize (Gx Hx). lia.
Qed.

(* a strictly increasing list all of whose elements occur in a strictly
   increasing list L is a subsequence of L *)
Lemma sorted_sublist : forall L A, SS L -> SS A -> (forall x, In x A -> In x L) -> sub A L.
Proof.
  induction L as [|y L IH]; intros A HL HA Hin.
  - destruct A as [|x A]; [apply sub_nil|]. destruct (Hin x (or_introl eq_refl)).
  - destruct A as [|x A]; [apply sub_nil|].
    pose proof (SS_tail_gt _ _ HL) as HF. pose proof (SS_tail_gt _ _ HA) as HFA.
    apply SS_inv in HL as [HL _]. pose proof (proj1 (SS_inv _ _ HA)) as HA'.
    destruct (Hin x (or_introl eq_refl)) as [<-|Hx].
    + apply sub_take. apply IH; auto. intros z Hz.
      destruct (Hin z (or_intror Hz)) as [<-|Hz']; [|assumption].
      specialize (HFA _ Hz). lia.
    + apply sub_skip. apply IH; auto. intros z [<-|Hz]; [assumption|].
      destruct (Hin z (or_intror Hz)) as [<-|Hz']; [|assumption].
      specialize (HFA _ Hz). specialize (HF _ Hx). lia.
Qed.

Lemma in_drop_lt thr L x : SS L -> In x L -> thr <= fst x -> In x (drop_lt thr L).
Proof.
  induction L as [|y L IH]; simpl; intros HS Hin Hx; [contradiction|].
  destruct (fst y <? thr) eqn:E; [|exact Hin].
  destruct Hin as [<-|Hin]; [lia|]. apply IH; auto. apply SS_inv in HS. tauto.
Qed.

Lemma drop_lt_app_all_lt thr A B : (forall z, In z A -> fst z < thr) -> drop_lt thr (A ++ B) = drop_lt thr B.
Proof.
  induction A as [|w A IH]; simpl; intros H; [reflexivity|].
  rewrite (proj2 (Z.ltb_lt _ _) (H w (or_introl eq_refl))). auto.
Qed.

Lemma drop_lt_MinT L : rawstream L -> drop_lt (MinT + 1) L = L.
Proof. intros [_ HM]. apply drop_lt_keep. destruct HM; [exact I|lia]. Qed.

(* for a strictly increasing list: [a..] = [a..b] ++ [b+1..] *)
Lemma drop_lt_split a b L : SS L -> a <= b + 1 -> drop_lt a L = in_range a b L ++ drop_lt (b + 1) L.
Proof.
  induction L as [|y L IH]; simpl; intros HS Hab; [reflexivity|].
  pose proof (SS_tail_gt _ _ HS) as HF. apply SS_inv in HS as [HS _].
  destruct (fst y <? a) eqn:E.
  - destruct (a <=? fst y) eqn:E1; [lia|]. simpl.
    destruct (fst y <? b + 1) eqn:E2; [|lia]. apply IH; auto.
  - destruct (a <=? fst y) eqn:E1; [|lia]. simpl.
    destruct (fst y <=? b) eqn:E3.
    + simpl. destruct (fst y <? b + 1) eqn:E2; [|lia]. f_equal.
      rewrite <- IH by auto. symmetry. apply drop_lt_keep.
      destruct L as [|z L']; [exact I|]. specialize (HF z (or_introl eq_refl)). lia.
    + destruct (fst y <? b + 1) eqn:E2; [lia|].
      rewrite in_range_nil; [reflexivity|]. intros z Hz. specialize (HF _ Hz). lia.
Qed.

(* MinTime / MaxTime are the first / last sample time; at least one sample *)
Definition wf (c : chunk) : Prop :=
  exists x r, csamples c = x :: r /\ cmin c = fst x /\ cmax c = last_t (fst x) r.

(* a replica's chunks: consecutive pieces of its samples *)
Definition cut (L : list sample) (ds : list chunk) : Prop :=
  concat (map csamples ds) = L /\ Forall wf ds.

Lemma last_t_ge : forall r x, SS (x :: r) -> forall y, In y (x :: r) -> fst y <= last_t (fst x) r.
Proof.
  induction r as [|z r IH]; intros x HS; simpl.
  - intros y [<-|[]]. lia.
  - pose proof (SS_tail_gt _ _ HS z (or_introl eq_refl)) as Hxz. apply SS_inv in HS as [HS _].
    intros y [<-|Hy]; [|exact (IH z HS y Hy)].
    apply Z.le_trans with (fst z); [apply Z.lt_le_incl, Hxz | apply (IH z HS); left; reflexivity].
Qed.

Lemma wf_bounds c : wf c -> SS (csamples c) ->
  (forall y, In y (csamples c) -> cmin c <= fst y <= cmax c)
  /\ (exists x, In x (csamples c) /\ fst x = cmin c) /\ (exists x, In x (csamples c) /\ fst x = cmax c).
Proof.
  intros (x & r & E & Hmin & Hmax) HS. rewrite E in *. rewrite Hmin, Hmax.
  pose proof (last_t_ge r x HS) as H2. repeat split; auto.
  - destruct H as [<-|Hy]; [lia|]. pose proof (SS_tail_gt _ _ HS _ Hy). lia.
  - exists x. split; [left; reflexivity|reflexivity].
  - destruct (last_t_mem r x) as (y & Hy & Ey). exists y. auto.
Qed.

Lemma wf_same_samples c d : wf c -> wf d -> csamples c = csamples d -> cmin c = cmin d /\ cmax c = cmax d.
Proof.
  intros (x & r & E & H1 & H2) (x' & r' & E' & H1' & H2') Es.
  rewrite E, E' in Es. injection Es as <- <-. split; congruence.
Qed.

(* a piece in the middle of a strictly increasing list is what lies between its bounds *)
Lemma in_range_middle pre S post a b :
  SS (pre ++ S ++ post) ->
  (forall y, In y S -> a <= fst y <= b) ->
  (exists x, In x S /\ fst x = a) -> (exists x, In x S /\ fst x = b) ->
  in_range a b (pre ++ S ++ post) = S.
Proof.
  intros HS Hb (xa & Hxa & Ea) (xb & Hxb & Eb).
  apply SS_app_iff in HS as (_ & HS' & H1). apply SS_app_iff in HS' as (_ & _ & H2).
  rewrite !in_range_app, (in_range_nil a b pre), (in_range_nil a b post), in_range_all, app_nil_r; auto.
  - intros y Hy. specialize (H2 xb y Hxb Hy). lia.
  - intros y Hy. specialize (H1 y xa Hy (in_or_app _ _ _ (or_introl Hxa))). lia.
Qed.

(* every chunk of a cut is the part of the stream between its bounds, and the
   next sample after it (if any) starts another chunk of the cut *)
Lemma cut_props : forall ds L pre,
  cut L ds -> SS (pre ++ L) ->
  forall d, In d ds ->
    csamples d = in_range (cmin d) (cmax d) (pre ++ L)
    /\ (forall y ys, drop_lt (cmax d + 1) (pre ++ L) = y :: ys -> exists d', In d' ds /\ cmin d' = fst y).
Proof.
  induction ds as [|d1 ds IH]; intros L pre [Hc Hwf] HS d Hin; [contradiction|].
  simpl in Hc. inversion Hwf as [|? ? Hwf1 Hwf']; subst.
  set (S1 := csamples d1) in *. set (L' := concat (map csamples ds)) in *.
  assert (HS1 : SS S1).
  { apply SS_app_iff in HS as (_ & H & _). apply SS_app_iff in H. tauto. }
  destruct (wf_bounds d1 Hwf1 HS1) as (Hbd & Hxa & Hxb).
  destruct Hin as [<-|Hin].
  - split; [symmetry; apply in_range_middle; auto|].
    intros y ys Hd.
    destruct Hxb as (xb & Hxb & Eb).
    rewrite app_assoc in Hd, HS. apply SS_app_iff in HS as (H1 & H2 & H3).
    rewrite drop_lt_app_all_lt in Hd.
    2:{ intros z Hz. apply in_app_or in Hz as [Hz|Hz].
        - apply SS_app_iff in H1 as (_ & _ & H4). specialize (H4 z xb Hz Hxb). lia.
        - destruct (Hbd z Hz). lia. }
    assert (HL' : L' = y :: ys).
    { rewrite <- Hd. symmetry. apply drop_lt_keep. destruct L' as [|z L'']; [exact I|].
      specialize (H3 xb z (in_or_app _ _ _ (or_intror Hxb)) (or_introl eq_refl)). lia. }
    destruct ds as [|d2 ds']; [discriminate HL'|].
    inversion Hwf' as [|? ? Hwf2 _]; subst. destruct Hwf2 as (x2 & r2 & E2 & Hmin2 & _).
    unfold L' in HL'. simpl in HL'. rewrite E2 in HL'. injection HL' as <- _.
    exists d2. split; [right; left; reflexivity|exact Hmin2].
  - rewrite app_assoc in HS |- *.
    destruct (IH L' (pre ++ S1) (conj eq_refl Hwf') HS d Hin) as [Hseg Hnext].
    split; [exact Hseg|]. intros y ys Hd. destruct (Hnext y ys Hd) as (d' & Hd' & E).
    exists d'. split; [right; exact Hd'|exact E].
Qed.

Lemma cut_first L ds y ys : cut L ds -> L = y :: ys -> exists d, In d ds /\ cmin d = fst y.
Proof.
  intros [Hc Hwf] E. destruct ds as [|d1 ds]; [simpl in Hc; congruence|].
  apply Forall_inv in Hwf. destruct Hwf as (x & r & E1 & Hmin & _).
  simpl in Hc. rewrite E1, E in Hc. injection Hc as <- _.
  exists d1. split; [left; reflexivity|exact Hmin].
Qed.

(* the first pseudo-replica of the overlap split (overlap_split_first below):
   from the first chunk on, every chunk that starts after the end of the last
   one taken *)
Fixpoint greedy (last : Z) (cs : list chunk) : list chunk :=
  match cs with
  | [] => []
  | c :: cs' => if last <? cmin c then c :: greedy (cmax c) cs' else greedy last cs'
  end.

(* the first replica (kept reversed, last chunk first) while folding [place] *)
Definition step0 (r : list chunk) (c : chunk) : list chunk :=
  match r with
  | [] => [c]
  | l :: _ => if cmax l <? cmin c then c :: r else r
  end.

Lemma fold_place_first : forall rest r0 others,
  r0 <> [] ->
  exists others', fold_left (fun reps c => place c reps) rest (r0 :: others)
                  = fold_left step0 rest r0 :: others'.
Proof.
  induction rest as [|c rest IH]; intros r0 others Hne; simpl.
  - eauto.
  - destruct r0 as [|l r0']; [congruence|]. simpl.
    destruct (cmax l <? cmin c); apply IH; discriminate.
Qed.

Lemma fold_step0_greedy : forall rest l r,
  rev (fold_left step0 rest (l :: r)) = rev (l :: r) ++ greedy (cmax l) rest.
Proof.
  induction rest as [|c rest IH]; intros l r; simpl.
  - rewrite app_nil_r. reflexivity.
  - destruct (cmax l <? cmin c).
    + rewrite IH. simpl. rewrite <- !app_assoc. reflexivity.
    + apply IH.
Qed.

Lemma overlap_split_first c0 rest :
  exists others, overlap_split (c0 :: rest) = (c0 :: greedy (cmax c0) rest) :: others.
Proof.
  unfold overlap_split.
  destruct (fold_place_first rest [c0] []) as [others' E]; [discriminate|].
  rewrite E. simpl. rewrite fold_step0_greedy. simpl. eauto.
Qed.

Lemma greedy_in : forall cs last c, In c (greedy last cs) -> In c cs.
Proof.
  induction cs as [|c0 cs IH]; intros last c H; simpl in H; [contradiction|].
  destruct (last <? cmin c0).
  - destruct H as [<-|H]; [left; reflexivity|right; eapply IH; eauto].
  - right. eapply IH; eauto.
Qed.

Section Cover.
Variable L : list sample.
Hypothesis HL : SS L.

(* some chunk starts at the first sample after [last] *)
Definition avail (cs : list chunk) (last : Z) : Prop :=
  forall y ys, drop_lt (last + 1) L = y :: ys -> exists d, In d cs /\ cmin d = fst y.

Definition good (c : chunk) : Prop :=
  wf c /\ csamples c = in_range (cmin c) (cmax c) L.

Lemma good_sub c : good c -> sub (csamples c) L.
Proof. intros [_ ->]. apply in_range_sub. Qed.

Lemma good_bounds c y : good c -> In y (csamples c) -> cmin c <= fst y <= cmax c.
Proof.
  intros Hc. apply (wf_bounds c (proj1 Hc)). eapply SS_sub; [apply good_sub, Hc|exact HL].
Qed.

Lemma good_facts c : good c ->
  cmin c <= cmax c /\ exists x, In x L /\ fst x = cmin c.
Proof.
  intros Hc. pose proof (good_sub c Hc) as Hs.
  destruct (wf_bounds c (proj1 Hc) (SS_sub _ _ Hs HL)) as (Hbd & (x & Hx & Ex) & _).
  split; [destruct (Hbd x Hx); lia|]. exists x. eauto using sub_in.
Qed.

(* a chunk that starts at or before [last] is not the one that starts after it *)
Lemma avail_tail c cs last : avail (c :: cs) last -> cmin c <= last -> avail cs last.
Proof.
  intros H Hle y ys E. destruct (H y ys E) as (d & [<-|Hd] & Ed); [|eauto].
  apply drop_lt_head_ge in E. lia.
Qed.

Lemma greedy_cover : forall cs last,
  StronglySorted (fun c d => cmin c <= cmin d) cs ->
  Forall good cs ->
  avail cs last -> (forall c, In c cs -> avail cs (cmax c)) ->
  concat (map csamples (greedy last cs)) = drop_lt (last + 1) L.
Proof.
  induction cs as [|c cs IH]; intros last Hsort Hgood Hav Hnext.
  - simpl. destruct (drop_lt (last + 1) L) as [|y ys] eqn:E; [reflexivity|].
    destruct (Hav y ys E) as (d & [] & _).
  - apply StronglySorted_inv in Hsort as [Hsort Hle]. rewrite Forall_forall in Hle.
    inversion Hgood as [|? ? Hc Hgood']; subst.
    destruct (good_facts c Hc) as (Hcle & x & Hx & Ex).
    (* the requirements for the tail, whichever way c goes *)
    assert (Hnext' : forall c', In c' cs -> avail cs (cmax c')).
    { intros c' Hc'. apply (avail_tail c); [apply Hnext; right; exact Hc'|].
      rewrite Forall_forall in Hgood'. destruct (good_facts c' (Hgood' _ Hc')) as (Hc'le & _).
      specialize (Hle _ Hc'). lia. }
    cbn [greedy]. destruct (last <? cmin c) eqn:Et.
    + (* c is taken: it starts exactly at the first sample after last *)
      assert (Hin : In x (drop_lt (last + 1) L)) by (apply in_drop_lt; auto; lia).
      destruct (drop_lt (last + 1) L) as [|y ys] eqn:E; [destruct Hin|].
      destruct (Hav y ys E) as (d & Hd & Ed).
      assert (Hcd : cmin c <= cmin d) by (destruct Hd as [<-|Hd]; [lia|apply Hle; exact Hd]).
      assert (Hyx : fst y <= fst x).
      { destruct Hin as [<-|Hin]; [lia|].
        assert (HSd : SS (y :: ys)) by (rewrite <- E; apply drop_lt_SS; exact HL).
        pose proof (SS_tail_gt _ _ HSd _ Hin). lia. }
      assert (Ey : fst y = cmin c) by lia.
      cbn [map concat]. rewrite (IH (cmax c) Hsort Hgood').
      * destruct Hc as [_ Hseg]. rewrite Hseg.
        rewrite <- drop_lt_split by (auto; lia).
        (* [last+1..] = [cmin c..] because its head is at cmin c *)
        rewrite <- E. rewrite <- (drop_lt_drop_lt (last + 1) (cmin c) L) by lia.
        rewrite E. apply drop_lt_keep. lia.
      * apply (avail_tail c); [apply Hnext; left; reflexivity|exact Hcle].
      * exact Hnext'.
    + (* c is skipped *)
      apply IH; auto. apply (avail_tail c); [exact Hav|lia].
Qed.
End Cover.

Lemma chunk_iter_from_SS : forall cs thr,
  Forall SS cs ->
  SS (chunk_iter_from thr cs) /\ Forall (fun x => thr <= fst x) (chunk_iter_from thr cs).
Proof.
  induction cs as [|c cs IH]; intros thr HF; simpl.
  - split; constructor.
  - inversion HF as [|? ? Hc HF']; subst.
    destruct (drop_lt thr c) as [|x c'] eqn:E; [apply IH; assumption|].
    assert (HSd : SS (x :: c')) by (rewrite <- E; apply drop_lt_SS; assumption).
    pose proof (drop_lt_head_ge _ _ _ _ E) as Hx.
    pose proof (last_t_ge c' x HSd) as Hlast.
    destruct (IH (last_t (fst x) c' + 1) HF') as [HS2 HF2]. rewrite Forall_forall in HF2.
    rewrite app_comm_cons. split.
    + apply SS_app_iff. repeat split; auto. intros a b Ha Hb.
      specialize (Hlast a Ha). specialize (HF2 _ Hb). lia.
    + apply Forall_forall. intros y Hy. apply in_app_or in Hy as [Hy|Hy].
      * destruct Hy as [<-|Hy]; [lia|]. pose proof (SS_tail_gt _ _ HSd _ Hy). lia.
      * specialize (HF2 _ Hy). specialize (Hlast x (or_introl eq_refl)). lia.
Qed.

Lemma chunk_iter_from_in : forall cs thr y,
  In y (chunk_iter_from thr cs) -> exists c, In c cs /\ In y c.
Proof.
  induction cs as [|c cs IH]; intros thr y Hy; simpl in Hy; [contradiction|].
  destruct (drop_lt thr c) as [|x c'] eqn:E.
  - destruct (IH _ _ Hy) as (c0 & H1 & H2). exists c0. split; [right|]; assumption.
  - rewrite app_comm_cons in Hy. apply in_app_or in Hy as [Hy|Hy].
    + exists c. split; [left; reflexivity|]. eapply sub_in; [apply (drop_lt_sub thr)|]. rewrite E. exact Hy.
    + destruct (IH _ _ Hy) as (c0 & H1 & H2). exists c0. split; [right|]; assumption.
Qed.

(* chunks that are pieces of L, in any order and overlapping in any way, are read as a subsequence of L *)
Lemma chunk_iter_sub L r : SS L -> Forall (good L) r -> sub (chunk_iter r) L.
Proof.
  intros HS Hgood. rewrite Forall_forall in Hgood.
  apply sorted_sublist; [exact HS| |].
  - apply chunk_iter_from_SS, Forall_map, Forall_forall. intros c Hc.
    eapply SS_sub; [apply good_sub, Hgood, Hc|exact HS].
  - intros y Hy. apply chunk_iter_from_in in Hy as (s & Hs & Hys).
    apply in_map_iff in Hs as (c & <- & Hc). eapply sub_in; [apply good_sub, Hgood, Hc|exact Hys].
Qed.

Lemma split_complete L cs :
  rawstream L -> cs <> [] ->
  StronglySorted (fun c d => cmin c <= cmin d) cs ->
  Forall (good L) cs ->
  avail L cs MinT -> (forall c, In c cs -> avail L cs (cmax c)) ->
  exists ws, map chunk_iter (overlap_split cs) = L :: ws /\ Forall (fun w => sub w L) ws.
Proof.
  intros Hraw Hne Hsort Hgood Hav Hnext. pose proof Hraw as [HS HM].
  destruct cs as [|c0 rest]; [congruence|].
  destruct (overlap_split_first c0 rest) as [others Eo].
  pose proof (overlap_split_partition (c0 :: rest) Hne) as [Hperm _].
  rewrite Eo in *. cbn [map].
  exists (map chunk_iter others). split.
  - f_equal.
    (* the first pseudo-replica is the greedy chain from the first sample *)
    destruct (good_facts L HS c0 (Forall_inv Hgood)) as (_ & x & Hx & Ex).
    rewrite Forall_forall in HM, Hgood.
    replace (c0 :: greedy (cmax c0) rest) with (greedy MinT (c0 :: rest))
      by (cbn [greedy]; specialize (HM x Hx); destruct (MinT <? cmin c0) eqn:E; [reflexivity|lia]).
    pose proof (greedy_cover L HS (c0 :: rest) MinT Hsort (proj2 (Forall_forall _ _) Hgood) Hav Hnext) as Hcov.
    rewrite drop_lt_MinT in Hcov by exact Hraw.
    apply chunk_iter_cuts; auto; [|apply Forall_forall; exact HM].
    apply Forall_forall. intros c Hc. apply greedy_in in Hc.
    destruct (Hgood _ Hc) as [(x0 & r0 & -> & _) _]. discriminate.
  - apply Forall_forall. intros w Hw. apply in_map_iff in Hw as (r & <- & Hr).
    apply chunk_iter_sub; [exact HS|]. rewrite Forall_forall in *. intros c Hc. apply Hgood.
    eapply Permutation_in; [exact Hperm|]. apply in_concat. exists r. split; [right; exact Hr|exact Hc].
Qed.

(* what the proxy hands over for one logical series whose replicas all hold L:
   only chunks of the replicas, and the samples of every replica chunk *)
Definition proxy_rel (chunks_of_reps : list (list chunk)) (cs : list chunk) : Prop :=
  (forall c, In c cs -> exists ds, In ds chunks_of_reps /\ In c ds) /\
  (forall ds d, In ds chunks_of_reps -> In d ds -> exists c, In c cs /\ csamples c = csamples d).

Lemma logical_props L reps cs :
  rawstream L -> L <> [] -> reps <> [] ->
  Forall (cut L) reps -> proxy_rel reps cs ->
  Forall (good L) cs /\ avail L cs MinT /\ (forall c, In c cs -> avail L cs (cmax c)) /\ cs <> [].
Proof.
  intros Hraw HneL Hne Hcuts [Hsub Hsup]. pose proof Hraw as [HS _]. rewrite Forall_forall in Hcuts.
  assert (Hwfd : forall ds d, In ds reps -> In d ds -> wf d).
  { intros ds d Hds Hd. destruct (Hcuts _ Hds) as [_ Hwf]. rewrite Forall_forall in Hwf. auto. }
  assert (Hgood : forall c, In c cs -> good L c).
  { intros c Hc. destruct (Hsub c Hc) as (ds & Hds & Hcd).
    split; [eauto|]. apply (cut_props ds L [] (Hcuts _ Hds) HS c Hcd). }
  (* a replica chunk starting at y is handed over, with the same bounds *)
  assert (Hup : forall ds d (y : sample), In ds reps -> In d ds -> cmin d = fst y -> exists c, In c cs /\ cmin c = fst y).
  { intros ds d y Hds Hd Ed. destruct (Hsup ds d Hds Hd) as (c & Hc & Ec).
    exists c. split; [exact Hc|].
    destruct (wf_same_samples c d (proj1 (Hgood c Hc)) (Hwfd _ _ Hds Hd) Ec). congruence. }
  assert (Hav0 : avail L cs MinT).
  { intros y ys E. rewrite drop_lt_MinT in E by exact Hraw.
    destruct reps as [|ds0 reps']; [congruence|].
    destruct (cut_first L ds0 y ys (Hcuts _ (or_introl eq_refl)) E) as (d & Hd & Ed).
    eapply Hup; eauto. left; reflexivity. }
  split; [apply Forall_forall; exact Hgood|]. split; [exact Hav0|]. split.
  - intros c Hc y ys E. destruct (Hsub c Hc) as (ds & Hds & Hcd).
    destruct (cut_props ds L [] (Hcuts _ Hds) HS c Hcd) as [_ Hnext].
    destruct (Hnext y ys E) as (d' & Hd' & Ed'). eauto.
  - intros ->. destruct L as [|y0 ys0]; [congruence|].
    destruct (Hav0 y0 ys0) as (d & [] & _). apply drop_lt_MinT. exact Hraw.
Qed.

Lemma chunk_eqb_eq c d : chunk_eqb c d = true -> c = d.
Proof.
  destruct c, d. unfold chunk_eqb. simpl. intros H.
  apply andb_true_iff in H as [H H3]. apply andb_true_iff in H as [H1 H2].
  apply Z.eqb_eq in H1, H2. apply samples_eqb_iff in H3. subst. reflexivity.
Qed.

Lemma chunks_sorted_SS : forall cs, chunks_sorted cs = true -> StronglySorted (fun c d => cmin c <= cmin d) cs.
Proof.
  induction cs as [|c cs IH]; intros H; [constructor|].
  destruct cs as [|d cs'].
  - constructor; constructor.
  - cbn [chunks_sorted] in H. apply andb_true_iff in H as [H1 H2].
    specialize (IH H2). constructor; [exact IH|].
    assert (Hcd : cmin c <= cmin d).
    { apply orb_true_iff in H1 as [H1|H1]; [lia|]. apply andb_true_iff in H1 as [H1 _]. lia. }
    constructor; [exact Hcd|].
    apply StronglySorted_inv in IH as [_ HF]. eapply Forall_impl; [|exact HF]. intros; simpl in *; lia.
Qed.

Lemma proxy_bools_rel all_reps cs :
  forallb (fun c => mem_chunk c (concat all_reps)) cs = true ->
  forallb (fun c => mem_samples (csamples c) cs) (concat all_reps) = true ->
  proxy_rel all_reps cs.
Proof.
  intros H1 H2. rewrite forallb_forall in H1, H2. split.
  - intros c Hc. specialize (H1 c Hc). unfold mem_chunk in H1. apply existsb_exists in H1 as (d & Hd & E).
    apply chunk_eqb_eq in E. subst d. apply in_concat in Hd as (ds & Hds & Hcd). eauto.
  - intros ds d Hds Hd.
    assert (Hin : In d (concat all_reps)) by (apply in_concat; eauto).
    specialize (H2 d Hin). unfold mem_samples in H2. apply existsb_exists in H2 as (c & Hc & E).
    apply samples_eqb_iff in E. eauto.
Qed.

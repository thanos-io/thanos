(* C34 — the invariant of the protocol model (Model/C34.v): every source is in an unmarked
   block of the bucket ([U_cov]), and every gateway's view holds for every source a block
   that is still in the bucket and whose mark the gateway would not yet have hidden at its
   last sync ([gw_ok]). Both are instances of [cov_by]. *)
From Coq Require Import ZArith List Bool Lia Permutation.
Import ListNotations.
From Verif Require Import Lib.Corr Lib.ListFacts Gen.C34 Model.C31 Proofs.C31 Model.C34.
Open Scope Z_scope.

Definition U_cov (u : list Z) (b : list mblk) : Prop :=
  forall s, In s u -> exists x, In x b /\ mark x = None /\ In s (srcs (blk_of x)).

Definition mark_young (p : params) (g : gateway) (x : mblk) : Prop :=
  match mark x with None => True | Some m => last_sync g - ignoreDelay p <= m end.

(* every source is in a block of the bucket with property Q. [U_cov u b] is
   [cov_by (fun x => mark x = None) u b] by conversion: the lemmas on [cov_by] apply to it
   as they stand. *)
Definition cov_by (Q : mblk -> Prop) (u : list Z) (b : list mblk) : Prop :=
  forall s, In s u -> exists x, In x b /\ Q x /\ In s (srcs (blk_of x)).

(* A gateway serves the view of its last sync until the next one, at most syncLag later. A
   block it relies on had, at that sync, no mark or one younger than ignoreDelay; so as long
   as the view is in use the mark is younger than ignoreDelay + syncLag <= deleteDelay, and
   the cleaner cannot have deleted the block. *)
Definition gw_ok (p : params) (u : list Z) (b : list mblk) (t : Z) (g : gateway) : Prop :=
  last_sync g <= t <= last_sync g + syncLag p /\
  cov_by (fun x => In (bid (blk_of x)) (view g) /\ mark_young p g x) u b.

Definition Inv (p : params) (u : list Z) (st : state) : Prop :=
  U_cov u (bucket st) /\ NoDup (ids (bucket st)) /\ Forall (gw_ok p u (bucket st) (now st)) (gws st).

Definition good_params (p : params) : Prop :=
  0 <= ignoreDelay p /\ 0 <= syncLag p /\ ignoreDelay p + syncLag p <= deleteDelay p.

Lemma ids_map_blk b : ids b = map bid (map blk_of b).
Proof. unfold ids. now rewrite map_map. Qed.

Lemma NoDup_id_eq b x y : NoDup (ids b) -> In x b -> In y b -> bid (blk_of x) = bid (blk_of y) -> x = y.
Proof. exact (NoDup_map_inj (fun z => bid (blk_of z)) b x y). Qed.

Lemma find_m_spec b i x : find_m b i = Some x -> In x b /\ bid (blk_of x) = i.
Proof.
  unfold find_m. intros H. apply find_some in H. destruct H as [H1 H2]. apply Z.eqb_eq in H2. auto.
Qed.

Lemma Forall_set_nth {A} (P : A -> Prop) k v l : Forall P l -> P v -> Forall P (set_nth k v l).
Proof.
  intros Hl Hv. revert k. induction Hl as [|a l Ha Hl IH]; intros k.
  - destruct k; constructor.
  - destruct k; simpl; constructor; auto.
Qed.

(* the three bucket operations on [cov_by] *)
Lemma cov_by_cons (Q : mblk -> Prop) u b x : cov_by Q u b -> cov_by Q u (x :: b).
Proof. intros H s Hs. destruct (H s Hs) as (y & Hy & R). exists y. split; [now right|exact R]. Qed.

Lemma cov_by_map (Q : mblk -> Prop) u b (f : mblk -> mblk) :
  (forall x, blk_of (f x) = blk_of x) -> (forall x, Q x -> Q (f x)) -> cov_by Q u b -> cov_by Q u (map f b).
Proof.
  intros Hb Hq H s Hs. destruct (H s Hs) as (x & Hx & Hqx & Hsx). exists (f x). rewrite Hb. auto using in_map.
Qed.

(* a block without Q can go *)
Lemma cov_by_delete (Q : mblk -> Prop) u b i x0 : NoDup (ids b) -> find_m b i = Some x0 -> ~ Q x0 -> cov_by Q u b ->
  cov_by Q u (filter (fun y => negb (bid (blk_of y) =? i)) b).
Proof.
  intros Hn F Hq H s Hs. destruct (find_m_spec _ _ _ F) as [Hx0 <-].
  destruct (H s Hs) as (x & Hx & Hqx & Hsx). exists x. repeat split; auto.
  apply filter_In. split; auto. apply negb_true_iff, Z.eqb_neq. intros Eq.
  now rewrite (NoDup_id_eq b x x0) in Hqx.
Qed.

Definition mark_one (t i : Z) (y : mblk) : mblk := if bid (blk_of y) =? i then mk_mblk (blk_of y) (Some t) else y.

Lemma blk_of_mark_one t i y : blk_of (mark_one t i y) = blk_of y.
Proof. unfold mark_one. now destruct (_ =? _). Qed.

Lemma ids_mark_block t i b : ids (mark_block t i b) = ids b.
Proof. unfold ids, mark_block. rewrite map_map. apply map_ext. intros y. exact (f_equal bid (blk_of_mark_one t i y)). Qed.

Lemma mark_keeps u b i x0 t : find_m b i = Some x0 -> replaced b x0 = true -> NoDup (ids b) -> U_cov u b ->
  NoDup (ids (mark_block t i b)) /\ U_cov u (mark_block t i b).
Proof.
  intros F Hrep Hn Hc. destruct (find_m_spec _ _ _ F) as [Hx0 <-]. split; [now rewrite ids_mark_block|].
  intros s Hs. destruct (Hc s Hs) as (x & Hx & Hm & Hsx).
  destruct (bid (blk_of x) =? bid (blk_of x0)) eqn:E.
  - (* the marked block itself: the guard names an unmarked block that replaces it *)
    apply Z.eqb_eq in E. assert (x = x0) as -> by (apply (NoDup_id_eq b); auto).
    unfold replaced in Hrep. rewrite forallb_forall in Hrep.
    apply Hrep, existsb_exists in Hsx as (y & Hy & [[Hyu Hyne%negb_true_iff]%andb_prop Hys]%andb_prop).
    exists (mark_one t (bid (blk_of x0)) y). split; [now apply in_map|]. unfold mark_one. rewrite Hyne.
    split; [unfold unmarked in Hyu; now destruct (mark y) | now apply mem_In].
  - exists (mark_one t (bid (blk_of x0)) x). split; [now apply in_map|]. unfold mark_one. rewrite E. auto.
Qed.

(* what a gateway sync establishes (uses the C31 theorem that kept blocks cover all sources);
   for delay = ignoreDelay p this is the second clause of [gw_ok] for the gateway that has just synced *)
Lemma sync_establishes u b t delay : U_cov u b -> NoDup (ids b) ->
  cov_by (fun x => In (bid (blk_of x)) (sync_view t delay b) /\
                   match mark x with None => True | Some m => t - delay <= m end) u b.
Proof.
  intros Hc Hn s Hs. destruct (Hc s Hs) as (x & Hx & Hm & Hsx).
  set (vis := filter (mark_visible t delay) b).
  assert (Hxv : In x vis). { apply filter_In. split; auto. unfold mark_visible. now rewrite Hm. }
  assert (Hnl : NoDup (map bid (map blk_of vis))).
  { rewrite <- ids_map_blk. unfold ids, vis. now apply (NoDup_map_filter (fun z => bid (blk_of z))). }
  destruct (kept_cover (map blk_of vis) (blk_of x) s Hnl (in_map blk_of _ _ Hxv) Hsx) as (pb & Hp & _ & Hk & Hsp).
  apply in_map_iff in Hp. destruct Hp as (y & <- & Hy).
  exists y. pose proof Hy as Hy'. apply filter_In in Hy'. destruct Hy' as [Hyb Hvis].
  repeat split; auto.
  - unfold sync_view. fold vis. apply in_map. apply kept_In. split; auto. now apply in_map.
  - unfold mark_visible in Hvis. destruct (mark y); auto. apply negb_true_iff, Z.ltb_ge in Hvis. lia.
Qed.

Lemma step_preserves p u st l st' : good_params p -> Inv p u st -> step p u st l = Some st' -> Inv p u st'.
Proof.
  intros (HI & HL & HD) (Hc & Hn & Hg) Hstep. destruct l as [dt|nb|i|i|k]; simpl in Hstep.
  - destruct (0 <=? dt) eqn:E1; [|discriminate]. simpl in Hstep.
    destruct (forallb _ (gws st)) eqn:E2; [|discriminate]. inversion Hstep; subst; clear Hstep.
    apply Z.leb_le in E1. rewrite forallb_forall in E2.
    split; [|split]; simpl; auto.
    rewrite Forall_forall in *. intros g Hgin. destruct (Hg g Hgin) as [[H1 H2] H3].
    specialize (E2 g Hgin). apply Z.leb_le in E2. split; [lia | exact H3].
  - destruct (negb (mem (bid nb) (ids (bucket st)))) eqn:E1; [|discriminate]. simpl in Hstep.
    destruct (subset (srcs nb) u && (grp nb =? 0)); [|discriminate]. inversion Hstep; subst; clear Hstep.
    apply negb_true_iff, mem_false in E1.
    split; [now apply cov_by_cons|split; [now constructor|]]; simpl.
    eapply Forall_impl; [|exact Hg]. intros g [Ht H3]. split; [exact Ht|now apply cov_by_cons].
  - destruct (find_m (bucket st) i) as [x0|] eqn:F; [|discriminate].
    destruct (unmarked x0 && replaced (bucket st) x0) eqn:E; [|discriminate]. inversion Hstep; subst; clear Hstep.
    apply andb_true_iff in E. destruct E as [_ Hrep].
    destruct (mark_keeps u _ i x0 (now st) F Hrep Hn Hc) as [Hn' Hc'].
    split; [exact Hc'|split; [exact Hn'|]]; simpl.
    eapply Forall_impl; [|exact Hg]. intros g [Ht H3]. split; [exact Ht|].
    (* a mark set now is younger than any gateway's last sync *)
    apply (cov_by_map _ _ _ (mark_one (now st) i)); [apply blk_of_mark_one| |exact H3].
    intros x [Hv Hy]. rewrite blk_of_mark_one. split; [exact Hv|].
    unfold mark_one, mark_young in *. destruct (_ =? _); simpl; auto. lia.
  - destruct (find_m (bucket st) i) as [x0|] eqn:F; [|discriminate].
    destruct (mark x0) as [m|] eqn:M; [|discriminate].
    destruct (deleteDelay p <? now st - m) eqn:E; [|discriminate]. inversion Hstep; subst; clear Hstep.
    apply Z.ltb_lt in E.
    split; [apply (cov_by_delete _ u _ i x0 Hn F); [congruence|exact Hc]|]; simpl.
    split; [now apply (NoDup_map_filter (fun z => bid (blk_of z)))|].
    eapply Forall_impl; [|exact Hg]. intros g [Ht H3]. split; [exact Ht|].
    (* the deleted block's mark is too old for any gateway to still rely on it *)
    apply (cov_by_delete _ u _ i x0 Hn F); [|exact H3]. intros [_ Hy]. unfold mark_young in Hy. rewrite M in Hy. lia.
  - destruct (k <? length (gws st))%nat; [|discriminate]. inversion Hstep; subst; clear Hstep.
    split; [|split]; simpl; auto.
    apply Forall_set_nth; auto. split; simpl; [lia|].
    exact (sync_establishes u (bucket st) (now st) (ignoreDelay p) Hc Hn).
Qed.

Lemma run_preserves p u ls : good_params p -> forall st st', Inv p u st -> run p u st ls = Some st' -> Inv p u st'.
Proof.
  intros Hp. induction ls as [|l ls IH]; intros st st' Hi H; simpl in H.
  - now inversion H; subst.
  - destruct (step p u st l) as [st1|] eqn:E; [|discriminate]. eapply IH; [|exact H]. eapply step_preserves; eauto.
Qed.

Lemma init_inv p u b n : good_params p -> U_cov u b -> NoDup (ids b) -> Inv p u (init p b n).
Proof.
  intros (HI & HL & HD) Hc Hn. split; [|split]; simpl; auto.
  apply Forall_forall. intros g ->%repeat_spec. split; simpl; [lia|].
  exact (sync_establishes u b 0 (ignoreDelay p) Hc Hn).
Qed.

Lemma inv_served p u st : Inv p u st -> all_served u st = true.
Proof.
  intros (_ & _ & Hg). unfold all_served. apply forallb_forall. intros g Hgin.
  rewrite Forall_forall in Hg. destruct (Hg g Hgin) as [_ H3].
  apply forallb_forall. intros s Hs. destruct (H3 s Hs) as (x & Hx & [Hv _] & Hsx).
  unfold served_by. apply existsb_exists. exists x. split; auto.
  apply andb_true_iff. split; now apply mem_In.
Qed.

Lemma covers_U_cov u b : covers u b = true -> U_cov u b.
Proof.
  unfold covers. rewrite forallb_forall. intros H s Hs. specialize (H s Hs).
  apply existsb_exists in H. destruct H as (x & Hx & Hc). apply andb_true_iff in Hc. destruct Hc as [Hu Hm].
  exists x. repeat split; auto; [|now apply mem_In]. unfold unmarked in Hu. destruct (mark x); [discriminate|reflexivity].
Qed.

Lemma always_served p u b n ls st :
  good_params p -> covers u b = true -> NoDup (ids b) ->
  run p u (init p b n) ls = Some st -> all_served u st = true.
Proof.
  intros Hp Hc Hn H. eapply inv_served, run_preserves; eauto. apply init_inv; auto. now apply covers_U_cov.
Qed.

(* every view block passes the mark test, and covers what unmarked blocks cover:
   the predicate evaluated on the real filter chain holds of the model's sync *)
Lemma model_view_pred t delay b : NoDup (ids b) -> view_pred t delay b (sync_view t delay b) = true.
Proof.
  intros Hn. unfold view_pred. apply andb_true_iff. split.
  - apply forallb_forall. intros i Hi. unfold sync_view in Hi. apply in_map_iff in Hi.
    destruct Hi as (pb & <- & Hp). apply kept_In in Hp. destruct Hp as [Hp _].
    apply in_map_iff in Hp. destruct Hp as (y & <- & Hy). apply filter_In in Hy. destruct Hy as [Hyb Hvis].
    destruct (find_m b (bid (blk_of y))) as [z|] eqn:F.
    + destruct (find_m_spec _ _ _ F) as [Hz Hid]. assert (z = y) as -> by (apply (NoDup_id_eq b); auto). exact Hvis.
    + unfold find_m in F. eapply find_none in F; [|exact Hyb]. simpl in F. now rewrite Z.eqb_refl in F.
  - apply forallb_forall. intros x Hx. destruct (unmarked x) eqn:Hu; auto.
    apply forallb_forall. intros s Hs.
    assert (Hc : U_cov [s] b).
    { intros s' [<-|[]]. exists x. repeat split; auto. unfold unmarked in Hu. destruct (mark x); [discriminate|reflexivity]. }
    destruct (sync_establishes [s] b t delay Hc Hn s (or_introl eq_refl)) as (y & Hy & [Hv _] & Hsy).
    apply existsb_exists. exists y. split; auto. apply andb_true_iff. split; now apply mem_In.
Qed.

Definition tight_params : params := mk_params 10 5 12.
Definition tight_bucket : list mblk := [mk_mblk (mk_blk 1 0 [7] 1) None].
Definition tight_schedule : list label :=
  [Upload (mk_blk 2 0 [7] 1); Mark 1; Tick 5; Sync 0; Tick 5; Sync 0; Tick 3; Clean 1].

Lemma tight_refuted :
  exists st, run tight_params [7] (init tight_params tight_bucket 1) tight_schedule = Some st
    /\ all_served [7] st = false
    /\ covers [7] tight_bucket = true /\ NoDup (ids tight_bucket)
    /\ deleteDelay tight_params < ignoreDelay tight_params + syncLag tight_params.
Proof.
  eexists. split; [vm_compute; reflexivity|]. split; [vm_compute; reflexivity|]. split; [vm_compute; reflexivity|].
  split; [repeat constructor; simpl; tauto | vm_compute; reflexivity].
Qed.

Lemma defaults_good : good_params default_params /\ store_marks_filter_before_dedup = true /\ compact_marks_filter_before_dedup = true.
Proof. unfold good_params. vm_compute. intuition congruence. Qed.

(* [compactor_ignore_delay d] is d/2 (cmd/thanos/compact.go): the compactor's own fetcher hides a
   marked block after half the delete delay, so never after the cleaner may delete it. *)
Lemma compactor_view_bound d : 0 <= d -> 0 <= compactor_ignore_delay d <= d.
Proof.
  intros H. unfold compactor_ignore_delay, compact_ignore_delay_expr.
  split; [apply Z.quot_pos|apply Z.quot_le_upper_bound]; lia.
Qed.

Lemma apply_op_keeps u b o b' : NoDup (ids b) -> U_cov u b -> apply_op b o = Some b' ->
  NoDup (ids b') /\ U_cov u b'.
Proof.
  intros Hn Hc H. destruct o as [nb|i|i]; simpl in H.
  - destruct (mem (bid nb) (ids b)) eqn:E; [discriminate|]. injection H as <-. apply mem_false in E. split; [now constructor|now apply cov_by_cons].
  - destruct (find_m b i) as [x0|] eqn:F; [|discriminate].
    destruct (unmarked x0 && replaced b x0) eqn:E; [|discriminate]. injection H as <-.
    apply andb_prop in E as [_ Hrep]. now apply (mark_keeps u b i x0).
  - destruct (find_m b i) as [x0|] eqn:F; [|discriminate].
    destruct (unmarked x0) eqn:E; [discriminate|]. injection H as <-.
    split; [now apply (NoDup_map_filter (fun z => bid (blk_of z)))|].
    apply (cov_by_delete _ u b i x0 Hn F); [|exact Hc]. unfold unmarked in E. now destruct (mark x0).
Qed.

Lemma apply_log_keeps u ops : forall b b', NoDup (ids b) -> U_cov u b -> apply_log b ops = Some b' ->
  NoDup (ids b') /\ U_cov u b'.
Proof.
  induction ops as [|o r IH]; intros b b' Hn Hc H; simpl in H.
  - inversion H; subst. auto.
  - destruct (apply_op b o) as [b1|] eqn:E; [|discriminate].
    destruct (apply_op_keeps u b o b1 Hn Hc E) as [Hn1 Hc1]. eapply IH; eauto.
Qed.

(* the rewrite of a single block followed by the code's garbage collection: the
   second mark is rejected by the guard, and afterwards no unmarked block holds source 7 *)
Definition rw_bucket : list mblk := [mk_mblk (mk_blk 1 0 [7] 1) None].
Definition rw_ops : list lop := [OUpload (mk_blk 2 0 [7] 1); OMark 1; OMark 2].

Lemma rewrite_gc_rejected :
  apply_log rw_bucket rw_ops = None /\ first_rejected rw_bucket rw_ops 0 = Some 2%nat
  /\ covers [7] rw_bucket = true /\ covers [7] (apply_log_raw rw_bucket rw_ops) = false.
Proof. vm_compute. repeat split; reflexivity. Qed.

(* at the level of the protocol: with the code's garbage-collection rule as a step,
   good delays do not save the data *)
Definition gc_params : params := mk_params 10 5 20.
Definition gc_schedule : list clabel :=
  [L (Upload (mk_blk 2 0 [7] 1)); L (Mark 1); GC 2; L (Tick 5); L (Sync 0); L (Tick 5); L (Sync 0); L (Tick 5); L (Sync 0)].

Lemma code_gc_refuted :
  exists st, run_code gc_params [7] (init gc_params rw_bucket 1) gc_schedule = Some st
    /\ all_served [7] st = false
    /\ ignoreDelay gc_params + syncLag gc_params <= deleteDelay gc_params
    /\ covers [7] rw_bucket = true /\ NoDup (ids rw_bucket).
Proof.
  eexists. split; [vm_compute; reflexivity|]. split; [vm_compute; reflexivity|].
  split; [vm_compute; congruence|]. split; [vm_compute; reflexivity|]. repeat constructor. simpl. tauto.
Qed.

Lemma compactor_order_facts : compactor_order_ok = true.
Proof. vm_compute. reflexivity. Qed.

(* C03 — instantiation of the shared proxy proofs (Lib/Proxy_Proofs.v) for the
   concrete labels / chunks of Model/C03.v. *)
From Coq Require Import ZArith NArith List Bool Lia Permutation Sorted.
Import ListNotations.
From Verif Require Import Lib.Corr Lib.Proxy_Order Lib.Proxy_Model Lib.Proxy_Proofs Lib.Proxy_LoserTree Gen.C03 Model.C03 Proofs.C03_Inst.
Open Scope Z_scope.

Lemma limit_break_off limit : limit <= 0 -> forall i, limit_break limit i = false.
Proof. intros H i. unfold limit_break. destruct (limit >? 0) eqn:E; [apply Z.gtb_lt in E; lia | reflexivity]. Qed.

Definition streams_of (lazy : bool) (wrl : list str) (scripts : list script) : list (list resp) :=
  map (resp_set lbl_cmp lazy (wrlb wrl) (rm_labels wrl)) scripts.

(* every store whose stream the proxy forwards without re-sorting sent its series sorted by labels *)
Definition inputs_sorted (lazy : bool) (wrl : list str) (scripts : list script) : Prop :=
  forall s, In s scripts -> lazy = true -> negb (ssupports s) && wrlb wrl = false ->
    StronglySorted (lle lbl_cmp) (map fst (sers (flatten_frames (sframes s)))).

Lemma streams_sorted_of lazy wrl scripts :
  inputs_sorted lazy wrl scripts -> streams_sorted lbl_cmp (streams_of lazy wrl scripts).
Proof.
  intros Hi st Hst. apply in_map_iff in Hst as [s [<- Hs]].
  apply (resp_set_sorted lbl_cmp lbl_ord). intros Hl Hf. apply Hi; assumption.
Qed.

(* stores that cannot strip replica labels: stripping + re-sorting yields a label-sorted
   stream with the same responses *)
Lemma resort_ok wrl (l : list resp) :
  StronglySorted (lle lbl_cmp) (map fst (sers (sort_without_labels lbl_cmp (rm_labels wrl) l)))
  /\ Permutation (sort_without_labels lbl_cmp (rm_labels wrl) l) (map (rm_resp (rm_labels wrl)) l).
Proof. split; [apply (sort_without_labels_sorted lbl_cmp lbl_ord) | apply sort_without_labels_perm]. Qed.

Lemma min_merge_sorted (ss : list (list resp)) (out : list resp) :
  min_run lbl_cmp wlen ss out -> streams_sorted lbl_cmp ss ->
  StronglySorted (lle lbl_cmp) (map fst (sers out)) /\ Permutation out (concat ss).
Proof.
  intros H Hs. split; [exact (min_run_sorted lbl_cmp lbl_ord wlen ss out H Hs) | exact (min_run_perm lbl_cmp wlen ss out H)].
Qed.

(* the unfixed de-duplication keeps an aggregated chunk once per aggregate *)
Definition dup_aggr : chunk := MkChunk 0 10 [None; Some (1, 11%N, [1%N]); Some (1, 12%N, [2%N]); None; None; None].
Lemma unfixed_keeps_duplicate :
  dedup_unfixed [] [dup_aggr; dup_aggr] = [dup_aggr; dup_aggr]
  /\ dedup_keys ckey keqb [] [dup_aggr; dup_aggr] = [dup_aggr].
Proof. split; vm_compute; reflexivity. Qed.

Lemma unfixed_dedup_refuted :
  exists cs, ~ NoDup (map ckey (dedup_unfixed [] cs)) /\ NoDup (map ckey (dedup_keys ckey keqb [] cs)).
Proof.
  exists [dup_aggr; dup_aggr]. destruct unfixed_keeps_duplicate as [H1 H2]. rewrite H1, H2. split.
  - intros N. inversion N as [|? ? Hn _]; subst. apply Hn. left. reflexivity.
  - repeat constructor. intros [].
Qed.

(* a positive limit passes exactly the first `limit` responses of the de-duplicated stream *)
Lemma series_loop_limit limit (l : list resp) : forall i,
  0 <= i <= limit -> 0 < limit ->
  series_loop limit_break false limit i l = (firstn (Z.to_nat (limit - i)) l, false).
Proof.
  induction l as [|x r IH]; intros i Hi Hl.
  - cbn. rewrite firstn_nil. reflexivity.
  - cbn [series_loop]. unfold limit_break at 1.
    destruct (limit >? 0) eqn:E1; [|rewrite Z.gtb_ltb in E1; apply Z.ltb_ge in E1; lia]. cbn [andb].
    destruct (i + 1 >? limit) eqn:E2.
    + rewrite Z.gtb_ltb in E2. apply Z.ltb_lt in E2. assert (limit - i = 0) as -> by lia. reflexivity.
    + rewrite Z.gtb_ltb in E2. apply Z.ltb_ge in E2.
      assert (Z.to_nat (limit - i) = S (Z.to_nat (limit - (i + 1)))) as -> by lia. cbn [firstn].
      destruct x; rewrite IH by lia; reflexivity.
Qed.

Lemma losertree_min_run (ss : list (list resp)) : min_run lbl_cmp wlen ss (lt_merge lbl_cmp wlen ss).
Proof. exact (lt_merge_min_run lbl_cmp lbl_ord wlen ss). Qed.

Lemma losertree_merge (ss : list (list resp)) :
  Permutation (lt_merge lbl_cmp wlen ss) (concat ss)
  /\ (streams_sorted lbl_cmp ss -> StronglySorted (lle lbl_cmp) (map fst (sers (lt_merge lbl_cmp wlen ss)))).
Proof.
  split; [apply (min_run_perm lbl_cmp wlen); apply losertree_min_run|].
  intros Hs. apply (min_run_sorted lbl_cmp lbl_ord wlen ss); [apply losertree_min_run | exact Hs].
Qed.

Theorem proxy_spec lazy wrl limit batch scripts :
  limit <= 0 ->
  (forall s, In s scripts -> sopen_err s = None /\ send s = EEof) ->
  inputs_sorted lazy wrl scripts ->
  exists frames,
    proxy lazy wrl false limit batch scripts = Some frames
    /\ let outs := sers (unbatch frames) in
       let ins := concat (map (presented (wrlb wrl) (rm_labels wrl)) scripts) in
       StronglySorted (llt lbl_cmp) (map fst outs)
       /\ (forall X cs, In (X, cs) outs ->
             Sorted time_ord cs /\ NoDup (map ckey cs)
             /\ forall k, In k (map ckey cs) <-> exists cs', In (X, cs') ins /\ In k (map ckey cs'))
       /\ (forall X, In X (map fst outs) <-> In X (map fst ins))
       /\ Permutation (warns (unbatch frames)) (concat (map (fun s => warns (flatten_frames (sframes s))) scripts)).
Proof.
  intros Hlim Hok Hin.
  apply (pipeline_spec lbl_cmp lbl_ord ckey keqb keqb_spec cleb time_ord cleb_true cleb_false wlen
           limit_break lazy (wrlb wrl) (rm_labels wrl) limit batch scripts).
  - apply limit_break_off. exact Hlim.
  - exact Hok.
  - apply streams_sorted_of. exact Hin.
  - apply losertree_min_run.
Qed.

(* lazy or eager, any buffer size (not in the model), any batch size: the same label sets in
   the same order, each with the same set of chunk keys *)
Theorem strategy_independent lazy1 lazy2 batch1 batch2 wrl limit scripts :
  limit <= 0 ->
  (forall s, In s scripts -> sopen_err s = None /\ send s = EEof) ->
  inputs_sorted lazy1 wrl scripts -> inputs_sorted lazy2 wrl scripts ->
  exists f1 f2,
    proxy lazy1 wrl false limit batch1 scripts = Some f1 /\ proxy lazy2 wrl false limit batch2 scripts = Some f2
    /\ map fst (sers (unbatch f1)) = map fst (sers (unbatch f2))
    /\ (forall X cs1 cs2, In (X, cs1) (sers (unbatch f1)) -> In (X, cs2) (sers (unbatch f2)) ->
          forall k, In k (map ckey cs1) <-> In k (map ckey cs2)).
Proof.
  intros Hl Hok H1 H2.
  destruct (proxy_spec lazy1 wrl limit batch1 scripts Hl Hok H1) as (f1 & E1 & S1 & C1 & L1 & _).
  destruct (proxy_spec lazy2 wrl limit batch2 scripts Hl Hok H2) as (f2 & E2 & S2 & C2 & L2 & _).
  exists f1, f2. split; [exact E1|]. split; [exact E2|]. split.
  - apply (llt_sorted_ext lbl_cmp lbl_ord); [exact S1 | exact S2|]. intros X. rewrite L1, L2. reflexivity.
  - intros X cs1 cs2 Hc1 Hc2 k. destruct (C1 _ _ Hc1) as (_ & _ & K1). destruct (C2 _ _ Hc2) as (_ & _ & K2).
    rewrite K1, K2. tauto.
Qed.

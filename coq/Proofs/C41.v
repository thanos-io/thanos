(* C41 — proofs about Model/C41.v. The generated nextIntervalBoundary returns the last point of
   the step grid through [t] strictly below the next interval boundary ([last_step_before],
   [nib_spec]). Hence each sub-query of the split loop ends on the grid and the next one starts a
   step later, so their evaluation steps concatenate to the original's ([steps_app],
   [split_loop_sound]); and each iteration restarts in a later interval, which bounds the
   iterations by the fuel of the model ([nib_next_interval], [split_loop_total]). The
   labels/series loop and step alignment follow. *)
From Coq Require Import ZArith List Bool Lia.
Import ListNotations.
From Verif Require Import Lib.Corr Gen.C41 Model.C41.
Open Scope Z_scope.

(* Go's truncating division rounds towards zero, so for negative [t] the
   multiple of [ms] it yields is above [t]; the next one is above [t] either way. *)
Lemma quot_succ_gt t ms : 0 < ms -> t < (Z.quot t ms + 1) * ms.
Proof.
  intros Hms. pose proof (Z.quot_rem' t ms). pose proof (Z.rem_bound_abs t ms). lia.
Qed.

(* The arithmetic of nextIntervalBoundary for any boundary [b] above [t]: the
   last point of the step grid through [t] that lies strictly below [b]. *)
Lemma last_step_before t b step :
  0 < step -> t < b ->
  let target := b - Z.rem (b - t) step in
  let e := if target =? b then target - step else target in
  t <= e < b /\ b <= e + step /\ (step | e - t).
Proof.
  intros Hs Hb. cbv zeta.
  pose proof (Z.rem_bound_pos (b - t) step) as Hr.
  pose proof (Z.rem_le (b - t) step) as Hle.
  assert (Hd : (step | b - Z.rem (b - t) step - t)).
  { exists (Z.quot (b - t) step). pose proof (Z.quot_rem' (b - t) step). lia. }
  destruct (Z.eqb_spec (b - Z.rem (b - t) step) b) as [E|E].
  - rewrite E in *. pose proof (Z.divide_pos_le step (b - t) ltac:(lia) Hd).
    split; [lia|]. split; [lia|].
    replace (b - step - t) with (b - t - step) by lia.
    apply Z.divide_sub_r; [exact Hd|apply Z.divide_refl].
  - split; [lia|]. split; [lia|exact Hd].
Qed.

Lemma nib_spec t step interval :
  0 < step -> 0 < Z.quot interval ns_per_ms ->
  let ms := Z.quot interval ns_per_ms in
  let e := nextIntervalBoundary t step interval in
  t <= e < (Z.quot t ms + 1) * ms /\ (Z.quot t ms + 1) * ms <= e + step /\ (step | e - t).
Proof.
  intros Hs Hms. exact (last_step_before t _ step Hs (quot_succ_gt t _ Hms)).
Qed.

(* Each iteration of the loop restarts in a later interval (counted with
   flooring division, which [split_fuel] uses). *)
Lemma nib_next_interval t step interval :
  0 < step -> 0 < Z.quot interval ns_per_ms ->
  let ms := Z.quot interval ns_per_ms in
  t / ms < (nextIntervalBoundary t step interval + step) / ms.
Proof.
  intros Hs Hms ms. destruct (nib_spec t step interval Hs Hms) as (_ & Hb & _).
  pose proof (quot_succ_gt t ms Hms) as Hlt. fold ms in Hb.
  apply Z.lt_le_trans with (Z.quot t ms + 1).
  - apply Z.div_lt_upper_bound; lia.
  - apply Z.div_le_lower_bound; lia.
Qed.

Lemma map_seq_shift {A} (f : nat -> A) a n :
  map f (seq a n) = map (fun k => f (k + a)%nat) (seq 0 n).
Proof.
  revert f a. induction n as [|n IH]; intros f a; [reflexivity|].
  cbn [seq map]. f_equal.
  rewrite (IH f (S a)). rewrite (IH (fun k => f (k + a)%nat) 1%nat).
  apply map_ext. intros k. f_equal. lia.
Qed.

Lemma steps_app s e1 e2 st :
  0 < st -> s <= e1 <= e2 -> (st | e1 - s) ->
  steps s e2 st = steps s e1 st ++ steps (e1 + st) e2 st.
Proof.
  intros Hst [H1 H2] [k1 Hk]. assert (e1 = s + k1 * st) by lia. subst e1. clear Hk.
  assert (Hk1 : 0 <= k1) by (apply (Z.mul_nonneg_cancel_r k1 st); lia).
  unfold steps.
  destruct (Z.ltb_spec e2 s); [lia|]. destruct (Z.ltb_spec (s + k1 * st) s); [lia|].
  replace (s + k1 * st - s) with (k1 * st) by lia. rewrite Z.div_mul by lia.
  replace (e2 - s) with (e2 - (s + k1 * st) + k1 * st) by lia. rewrite Z.div_add by lia.
  destruct (Z.ltb_spec e2 (s + k1 * st + st)).
  - rewrite Z.div_small, app_nil_r by lia. reflexivity.
  - replace (e2 - (s + k1 * st)) with (e2 - (s + k1 * st + st) + 1 * st) by lia.
    rewrite Z.div_add by lia.
    set (k2 := (e2 - (s + k1 * st + st)) / st).
    assert (Hk2 : 0 <= k2) by (apply Z.div_pos; lia).
    replace (Z.to_nat (k2 + 1 + k1) + 1)%nat with ((Z.to_nat k1 + 1) + (Z.to_nat k2 + 1))%nat by lia.
    rewrite seq_app, map_app. f_equal.
    rewrite map_seq_shift. apply map_ext. intros k. lia.
Qed.

Definition aligned (start step : Z) (p : Z * Z) : Prop := (step | fst p - start).

Lemma aligned_self start step b : aligned start step (start, b).
Proof. exists 0. cbn [fst]. lia. Qed.

Lemma split_loop_sound fuel : forall start end_ step interval l,
  0 < step -> 0 < Z.quot interval ns_per_ms -> start < end_ ->
  split_loop fuel start end_ step interval = Some l ->
  concat (map (fun p => steps (fst p) (snd p) step) l) = steps start end_ step
  /\ Forall (aligned start step) l.
Proof.
  induction fuel as [|f IH]; intros start end_ step interval l Hst Hms Hlt H; [discriminate|].
  cbn [split_loop] in H.
  destruct (Z.ltb_spec start end_); [|lia].
  destruct (nib_spec start step interval Hst Hms) as ((Hle & _) & _ & Hdiv).
  set (e := nextIntervalBoundary start step interval) in *.
  destruct (split_loop f (e + step) end_ step interval) as [r|] eqn:R; [|discriminate].
  inversion H; subst l; clear H. cbn [map concat fst snd].
  destruct (Z.geb_spec (e + step) end_) as [G|G].
  - (* last sub-query, end clamped to the request's end: the loop stops *)
    assert (r = []).
    { destruct f as [|f']; [discriminate|]. cbn [split_loop] in R.
      destruct (Z.ltb_spec (e + step) end_); [lia|congruence]. }
    subst r. cbn [map concat]. rewrite app_nil_r.
    split; [reflexivity|]. constructor; [apply aligned_self|constructor].
  - destruct (IH _ _ _ _ _ Hst Hms G R) as [IH1 IH2]. rewrite IH1. split.
    + symmetry. apply steps_app; [lia|lia|exact Hdiv].
    + constructor; [apply aligned_self|].
      eapply Forall_impl; [|exact IH2]. unfold aligned. intros p [k Hk].
      destruct Hdiv as [k' Hk']. exists (k + k' + 1). lia.
Qed.

Lemma split_loop_total fuel : forall start end_ step interval,
  0 < step -> 0 < Z.quot interval ns_per_ms ->
  (1 <= fuel)%nat ->
  (start < end_ -> end_ / Z.quot interval ns_per_ms - start / Z.quot interval ns_per_ms + 2 <= Z.of_nat fuel) ->
  split_loop fuel start end_ step interval <> None.
Proof.
  induction fuel as [|f IH]; intros start end_ step interval Hst Hms H1 H2; [lia|].
  cbn [split_loop].
  destruct (Z.ltb_spec start end_) as [E|E]; [|discriminate]. specialize (H2 E).
  pose proof (nib_next_interval start step interval Hst Hms) as Hq. cbv zeta in Hq.
  pose proof (Z.div_le_mono start end_ _ Hms) as Hend.
  specialize (IH (nextIntervalBoundary start step interval + step) end_ step interval Hst Hms).
  destruct (split_loop f _ end_ step interval); [discriminate|].
  apply IH; lia.
Qed.

Theorem split_query_correct start end_ step interval :
  0 < step -> 0 < Z.quot interval ns_per_ms -> start <= end_ ->
  exists l, split_query start end_ step interval = Some l
    /\ concat (map (fun p => steps (fst p) (snd p) step) l) = steps start end_ step
    /\ Forall (aligned start step) l.
Proof.
  intros Hst Hms Hle. unfold split_query.
  destruct (Z.eqb_spec start end_) as [E|E].
  - subst end_. eexists; split; [reflexivity|]. split.
    + cbn [map concat fst snd]. unfold steps. rewrite Z.ltb_irrefl, Z.sub_diag.
      rewrite Z.div_0_l by lia. reflexivity.
    + constructor; [apply aligned_self|constructor].
  - assert (Hlt : start < end_) by lia.
    destruct (split_loop (split_fuel start end_ interval) start end_ step interval) as [l|] eqn:R.
    + exists l. split; [reflexivity|]. eapply split_loop_sound; eauto.
    + exfalso. revert R. apply split_loop_total; try assumption; unfold split_fuel; cbv zeta; lia.
Qed.

(* boolean form: the predicate the check evaluates on the implementation's output *)
Theorem range_pred_ok start end_ step interval_ms :
  0 < step -> 0 < interval_ms -> start <= end_ ->
  exists out, split_query start end_ step (interval_ms * ns_per_ms) = Some out
    /\ pred_ok (CRange start end_ step interval_ms out) = true.
Proof.
  intros Hst Hi Hle.
  assert (Hms : 0 < Z.quot (interval_ms * ns_per_ms) ns_per_ms)
    by (unfold ns_per_ms; rewrite Z.quot_mul by lia; lia).
  destruct (split_query_correct start end_ step _ Hst Hms Hle) as (l & H1 & H2 & H3).
  exists l. split; [exact H1|]. cbn [pred_ok]. apply andb_true_iff. split.
  - apply (list_eqb_spec Z.eqb Z.eqb_eq). exact H2.
  - apply forallb_forall. intros p Hp. rewrite Forall_forall in H3.
    apply Z.eqb_eq. apply Z.rem_divide; [lia|exact (H3 p Hp)].
Qed.

Lemma contiguous_done s e l : e <= s -> contiguous s e l = true -> l = [].
Proof.
  destruct l as [|[a b] r]; [reflexivity|]. cbn [contiguous]. intros He H.
  rewrite !andb_true_iff, Z.eqb_eq, Z.ltb_lt, Z.leb_le in H. lia.
Qed.

Lemma range_loop_correct fuel : forall start end_ dur,
  0 < dur -> (1 <= fuel)%nat ->
  (start < end_ -> (end_ - start) / dur + 2 <= Z.of_nat fuel) ->
  exists l, range_loop fuel start end_ dur = Some l /\ contiguous start end_ l = true.
Proof.
  induction fuel as [|f IH]; intros start end_ dur Hd H1 H2; [lia|].
  cbn [range_loop]. destruct (Z.ltb_spec start end_) as [E|E].
  - specialize (H2 E).
    assert (Hq : 0 <= (end_ - start) / dur) by (apply Z.div_pos; lia).
    destruct (IH (start + dur) end_ dur Hd) as (r & Hr & Hc); [lia| |].
    + intros _. replace (end_ - (start + dur)) with ((end_ - start) + (-1) * dur) by lia.
      rewrite Z.div_add by lia. lia.
    + rewrite Hr. eexists; split; [reflexivity|]. cbn [contiguous].
      rewrite !andb_true_iff, Z.eqb_eq, Z.ltb_lt, Z.leb_le.
      repeat split; try lia.
      destruct (Z.min_spec (start + dur) end_) as [[Hm ->]|[Hm ->]]; [exact Hc|].
      (* the loop has reached the end: the remainder is empty *)
      rewrite (contiguous_done _ _ _ Hm Hc). apply Z.leb_refl.
  - eexists; split; [reflexivity|]. apply Z.leb_le, E.
Qed.

Theorem split_range_correct start end_ interval_ms :
  0 < interval_ms ->
  exists out, split_range start end_ (interval_ms * ns_per_ms) = Some out
    /\ pred_ok (CSplit start end_ interval_ms out) = true.
Proof.
  intros Hi. unfold split_range. cbv zeta.
  assert (Hq : Z.quot (interval_ms * ns_per_ms) ns_per_ms = interval_ms)
    by (unfold ns_per_ms; apply Z.quot_mul; lia).
  rewrite Hq. cbn [pred_ok].
  apply range_loop_correct; lia.
Qed.

Lemma quot_mul_near a step : 0 < step -> Z.abs (a - Z.quot a step * step) < step.
Proof.
  intros Hst. pose proof (Z.quot_rem' a step). pose proof (Z.rem_bound_abs a step). lia.
Qed.

Theorem step_align_correct start end_ step :
  0 < step ->
  pred_ok (CAlign start end_ step (step_align start end_ step)) = true
  /\ Z.abs (start - fst (step_align start end_ step)) < step
  /\ Z.abs (end_ - snd (step_align start end_ step)) < step.
Proof.
  intros Hst. unfold step_align. cbn [pred_ok fst snd].
  split; [|split; apply quot_mul_near; exact Hst].
  rewrite !Z.rem_mul by lia. reflexivity.
Qed.

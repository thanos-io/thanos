(* C43 — proofs about Model/C43.v: the cache key determines the tenant (always) and
   the result-changing parameters (when engine / replica labels avoid the separators).
   A key is read from the right: its last fields are free of ':' and can be split off
   one after the other ([peel_tail]); the query text, which may hold any byte, is what
   remains at the left. *)
From Coq Require Import ZArith NArith List Bool Lia Decimal DecimalZ DecimalPos Sorted Permutation.
Import ListNotations.
From Verif Require Import Lib.Corr Lib.ListFacts Gen.C43 Model.C43.
Open Scope Z_scope.

Definition no (c : N) (s : str) : Prop := ~ In c s.

Lemma split_first (c : N) : forall a1 a2 b1 b2 : str,
  no c a1 -> no c a2 -> a1 ++ c :: b1 = a2 ++ c :: b2 -> a1 = a2 /\ b1 = b2.
Proof.
  induction a1 as [|x a1 IH]; intros [|y a2] b1 b2 H1 H2 E; inversion E; subst.
  - auto.
  - destruct H2. left; reflexivity.
  - destruct H1. left; reflexivity.
  - apply not_in_cons in H1 as [_ H1], H2 as [_ H2].
    destruct (IH a2 b1 b2 H1 H2) as [-> ->]; auto.
Qed.

Lemma split_last (c : N) : forall a1 a2 b1 b2 : str,
  no c b1 -> no c b2 -> a1 ++ c :: b1 = a2 ++ c :: b2 -> a1 = a2 /\ b1 = b2.
Proof.
  intros a1 a2 b1 b2 H1 H2 E.
  apply (f_equal (@List.rev N)) in E. rewrite !rev_app_distr in E. cbn [List.rev] in E. rewrite <- !app_assoc in E.
  apply split_first in E as [A B].
  - apply (f_equal (@List.rev N)) in A, B. rewrite !rev_involutive in A, B. auto.
  - intro K. apply H1, in_rev, K.
  - intro K. apply H2, in_rev, K.
Qed.

(* fields written as ":f1:f2:...:fn" *)
Definition joinf (l : list str) : str := flat_map fld l.

Lemma last_field_split l x : joinf (l ++ [x]) = joinf l ++ c_colon :: x.
Proof. unfold joinf. rewrite flat_map_app. cbn. rewrite app_nil_r. reflexivity. Qed.

Lemma peel_tail : forall t1 t2 l1 l2,
  length t1 = length t2 -> Forall (no c_colon) t1 -> Forall (no c_colon) t2 ->
  joinf (l1 ++ t1) = joinf (l2 ++ t2) -> joinf l1 = joinf l2 /\ t1 = t2.
Proof.
  induction t1 as [|x t1 IH] using rev_ind; intros t2 l1 l2 HL F1 F2 E.
  - destruct t2; [|discriminate]. rewrite !app_nil_r in E. auto.
  - destruct t2 as [|y t2 _] using rev_ind; rewrite !app_length in HL; cbn in HL; [lia|].
    apply Forall_app in F1 as [F1 Fx], F2 as [F2 Fy]. apply Forall_inv in Fx, Fy.
    rewrite !app_assoc, !last_field_split in E.
    apply split_last in E as [E ->]; auto.
    destruct (IH t2 l1 l2) as [A ->]; auto. lia.
Qed.

Lemma joinf_inj q1 q2 t1 t2 :
  length t1 = length t2 -> Forall (no c_colon) t1 -> Forall (no c_colon) t2 ->
  joinf (q1 :: t1) = joinf (q2 :: t2) -> q1 = q2 /\ t1 = t2.
Proof.
  intros HL F1 F2 E. apply (peel_tail t1 t2 [q1] [q2]) in E as [E ->]; auto.
  cbn in E. rewrite !app_nil_r in E. inversion E. auto.
Qed.

(* a left inverse of [uint_bytes], one digit at a time *)
Definition digit_of (b : N) (d : uint) : uint :=
  match N.to_nat (b - 48) with
  | 0 => D0 d | 1 => D1 d | 2 => D2 d | 3 => D3 d | 4 => D4 d
  | 5 => D5 d | 6 => D6 d | 7 => D7 d | 8 => D8 d | _ => D9 d
  end%nat.

Lemma uint_bytes_inv d : fold_right digit_of Nil (uint_bytes d) = d.
Proof. induction d; cbn [uint_bytes fold_right]; rewrite ?IHd; reflexivity. Qed.

Lemma uint_bytes_inj d1 d2 : uint_bytes d1 = uint_bytes d2 -> d1 = d2.
Proof. intro E. rewrite <- (uint_bytes_inv d1), E. apply uint_bytes_inv. Qed.

Lemma uint_bytes_digits : forall d b, In b (uint_bytes d) -> (48 <= b <= 57)%N.
Proof.
  induction d; cbn; intros b H; try contradiction;
    (destruct H as [H|H]; [subst; lia | auto]).
Qed.

(* a digit string does not start with '-' *)
Lemma int_bytes_inj i1 i2 : int_bytes i1 = int_bytes i2 -> i1 = i2.
Proof.
  destruct i1 as [d1|d1], i2 as [d2|d2]; cbn; intro E.
  - f_equal. apply uint_bytes_inj, E.
  - destruct d1; discriminate.
  - destruct d2; discriminate.
  - injection E as E. f_equal. apply uint_bytes_inj, E.
Qed.

Lemma dec_inj a b : dec a = dec b -> a = b.
Proof.
  intro E. apply int_bytes_inj in E.
  rewrite <- (DecimalZ.of_to a), <- (DecimalZ.of_to b), E. reflexivity.
Qed.

Lemma dec_chars z b : In b (dec z) -> b = c_minus \/ (48 <= b <= 57)%N.
Proof.
  unfold dec. destruct (Z.to_int z) as [d|d]; cbn.
  - intro H. right. apply (uint_bytes_digits d), H.
  - intros [H|H]; [left; auto | right; apply (uint_bytes_digits d), H].
Qed.

Lemma dec_nocolon z : no c_colon (dec z).
Proof. intro H. apply dec_chars in H as [H|H]; [discriminate H | unfold c_colon in H; lia]. Qed.

(* the sign of a negative number is followed by a digit *)
Lemma dec_not_dash z : dec z <> s_dash.
Proof.
  unfold dec, s_dash. destruct (Z.to_int z) as [d|d] eqn:E; cbn; intro H.
  - assert (K : In c_minus (uint_bytes d)) by (rewrite H; left; reflexivity).
    apply uint_bytes_digits in K. unfold c_minus in K. lia.
  - injection H as H. destruct d; try discriminate H.
    destruct z; try discriminate E. injection E as E. exact (Unsigned.to_uint_nonnil _ E).
Qed.

Lemma bool_bytes_inj a b : bool_bytes a = bool_bytes b -> a = b.
Proof. destruct a, b; cbn; intro E; try reflexivity; discriminate. Qed.

Lemma bool_bytes_nocolon b : no c_colon (bool_bytes b).
Proof. destruct b; cbn; unfold no, c_colon; cbn; intuition discriminate. Qed.

Lemma bool_not_dec b z : bool_bytes b <> dec z.
Proof.
  intro E. assert (K : In (hd 0%N (bool_bytes b)) (dec z)) by (rewrite <- E; destruct b; left; reflexivity).
  apply dec_chars in K. unfold c_minus in K. destruct b; cbn in K; destruct K as [K|K]; try discriminate; lia.
Qed.

Lemma dash_nocolon : no c_colon s_dash.
Proof. intros [K|[]]. discriminate K. Qed.

Create HintDb nocolon.
#[local] Hint Resolve dec_nocolon bool_bytes_nocolon dash_nocolon : nocolon.
#[local] Hint Constructors Forall : nocolon.

Lemma esc_byte_nocolon b : no c_colon (esc_byte b).
Proof.
  unfold esc_byte, no. destruct (N.eqb b c_pct); [cbn; intuition discriminate|].
  destruct (N.eqb_spec b c_colon); cbn; [intuition discriminate | intuition].
Qed.

Lemma esc_tenant_nocolon t : no c_colon (esc_tenant t).
Proof.
  unfold esc_tenant, no. intro H. apply in_flat_map in H as (b & _ & H).
  exact (esc_byte_nocolon b H).
Qed.

(* the escape is a prefix code: '%' starts an escape sequence and nothing else, and the
   two sequences differ in their second byte *)
Lemma esc_byte_head a b r1 r2 : esc_byte a ++ r1 = esc_byte b ++ r2 -> a = b /\ r1 = r2.
Proof.
  unfold esc_byte.
  destruct (N.eqb_spec a c_pct) as [->|A]; [|destruct (N.eqb_spec a c_colon) as [->|_]];
  (destruct (N.eqb_spec b c_pct) as [->|B]; [|destruct (N.eqb_spec b c_colon) as [->|_]]);
  cbn; intro E; split; congruence.
Qed.

Lemma esc_byte_nonnil a : esc_byte a <> [].
Proof. unfold esc_byte. destruct (N.eqb a c_pct); [discriminate|]. destruct (N.eqb a c_colon); discriminate. Qed.

Lemma esc_tenant_inj : forall t1 t2, esc_tenant t1 = esc_tenant t2 -> t1 = t2.
Proof.
  unfold esc_tenant.
  induction t1 as [|a t1 IH]; intros [|b t2]; cbn [flat_map]; intro E.
  - reflexivity.
  - symmetry in E. apply app_eq_nil in E as [E _]. destruct (esc_byte_nonnil b E).
  - apply app_eq_nil in E as [E _]. destruct (esc_byte_nonnil a E).
  - apply esc_byte_head in E as [-> E]. f_equal. auto.
Qed.

Definition safe_label (s : str) : Prop := s <> [] /\ no c_colon s /\ no c_comma s.

(* [sort_strs] is [isort str_leb] up to conversion *)
Lemma sort_strs_perm l : Permutation l (sort_strs l).
Proof. symmetry. exact (isort_perm str_leb l). Qed.

Lemma sort_strs_forall (P : str -> Prop) l : Forall P l -> Forall P (sort_strs l).
Proof. apply Permutation_Forall, sort_strs_perm. Qed.

Lemma join_comma_cons x y l : join_comma (x :: y :: l) = x ++ c_comma :: join_comma (y :: l).
Proof. reflexivity. Qed.

Lemma join_comma_inj : forall l1 l2,
  Forall safe_label l1 -> Forall safe_label l2 -> join_comma l1 = join_comma l2 -> l1 = l2.
Proof.
  induction l1 as [|x l1 IH]; intros l2 F1 F2 E.
  - destruct l2 as [|y l2]; [reflexivity|]. exfalso.
    inversion F2 as [|? ? [Hy _] _]; subst.
    destruct l2; cbn in E; destruct y; try discriminate; congruence.
  - inversion F1 as [|? ? [Hx [Hxc Hxm]] F1']; subst.
    destruct l2 as [|y l2].
    + exfalso. destruct l1; cbn in E; destruct x; try discriminate; congruence.
    + inversion F2 as [|? ? [Hy [Hyc Hym]] F2']; subst.
      destruct l1 as [|x' l1]; destruct l2 as [|y' l2].
      * cbn in E. congruence.
      * destruct Hxm. cbn [join_comma] in E. rewrite E. apply in_elt.
      * destruct Hym. cbn [join_comma] in E. rewrite <- E. apply in_elt.
      * rewrite !join_comma_cons in E. apply split_first in E as [-> E]; auto.
        f_equal. apply IH; auto.
Qed.

Lemma join_comma_nocolon l : Forall (no c_colon) l -> no c_colon (join_comma l).
Proof.
  induction l as [|x l IH]; intro F; [intros []|].
  inversion F; subst. destruct l as [|y l]; [assumption|].
  rewrite join_comma_cons. intro K. apply in_app_or in K. destruct K as [K|[K|K]].
  - contradiction.
  - discriminate K.
  - apply IH in K; auto.
Qed.

Lemma key_body_colon r : exists s, key_body r = c_colon :: s.
Proof. destruct r; cbn; eexists; reflexivity. Qed.

Lemma key_inv t1 r1 t2 r2 : key t1 r1 = key t2 r2 -> t1 = t2 /\ key_body r1 = key_body r2.
Proof.
  unfold key, fld. intro E. apply app_inv_head in E.
  destruct (key_body_colon r1) as [s1 H1], (key_body_colon r2) as [s2 H2].
  rewrite H1, H2 in *. cbn in E. inversion E as [E'].
  apply split_first in E' as [A B]; try apply esc_tenant_nocolon.
  apply esc_tenant_inj in A. subst. auto.
Qed.

Theorem tenant_separation t1 r1 t2 r2 : key t1 r1 = key t2 r2 -> t1 = t2.
Proof. intro E. apply key_inv in E. tauto. Qed.

(* the shard field "total:index" reads as two fields, "-" as one *)
Definition shard_fields (sh : option (Z * Z)) : list str :=
  match sh with None => [s_dash] | Some (t, i) => [dec t; dec i] end.

Definition range_head (q : str) (start step split msr : Z) : list str :=
  [q; dec step; dec split; dec (Z.quot start split); dec (res_class msr)].

Definition range_tail (lb : Z) (eng : str) (part : bool) (reps : list str) (an : bool) : list str :=
  [dec lb; eng; bool_bytes part; join_comma (sort_strs reps); bool_bytes an].

Lemma range_body_fields q start step split msr sh lb eng part reps an :
  key_body (RRange q start step split msr sh lb eng part reps an)
  = joinf ((range_head q start step split msr ++ shard_fields sh) ++ range_tail lb eng part reps an).
Proof.
  unfold joinf. cbn [key_body range_head List.app flat_map]. do 5 f_equal.
  rewrite flat_map_app. cbn [range_tail flat_map]. rewrite app_nil_r. f_equal.
  destruct sh as [[t i]|]; cbn; rewrite ?app_nil_r; reflexivity.
Qed.

Lemma shard_fields_peel l1 l2 sh1 sh2 :
  joinf (l1 ++ shard_fields sh1) = joinf (l2 ++ shard_fields sh2) -> joinf l1 = joinf l2 /\ sh1 = sh2.
Proof.
  destruct sh1 as [[t1 i1]|], sh2 as [[t2 i2]|]; cbn [shard_fields]; intro E.
  - apply peel_tail in E as [E T]; auto with nocolon.
    injection T as T1 T2. apply dec_inj in T1, T2. subst. auto.
  - change (l1 ++ [dec t1; dec i1]) with (l1 ++ [dec t1] ++ [dec i1]) in E. rewrite app_assoc in E.
    apply peel_tail in E as [_ T]; auto with nocolon. injection T as T. destruct (dec_not_dash _ T).
  - change (l2 ++ [dec t2; dec i2]) with (l2 ++ [dec t2] ++ [dec i2]) in E. rewrite app_assoc in E.
    apply peel_tail in E as [_ T]; auto with nocolon. injection T as T. symmetry in T. destruct (dec_not_dash _ T).
  - apply peel_tail in E as [E _]; auto with nocolon.
Qed.

Definition safe_range (r : req) : Prop :=
  match r with
  | RRange _ _ _ _ _ _ _ eng _ reps _ => no c_colon eng /\ Forall safe_label reps
  | _ => True
  end.

Lemma range_tail_nocolon lb eng part reps an :
  no c_colon eng -> Forall safe_label reps -> Forall (no c_colon) (range_tail lb eng part reps an).
Proof.
  intros He Hr. unfold range_tail. repeat constructor; auto with nocolon.
  apply join_comma_nocolon, sort_strs_forall. eapply Forall_impl; [|exact Hr]. intros s (_ & H & _). exact H.
Qed.

(* the readable statement for range requests *)
Definition range_same (r1 r2 : req) : Prop :=
  match r1, r2 with
  | RRange q1 st1 step1 sp1 msr1 sh1 lb1 e1 p1 rl1 an1, RRange q2 st2 step2 sp2 msr2 sh2 lb2 e2 p2 rl2 an2 =>
      q1 = q2 /\ step1 = step2 /\ sp1 = sp2 /\ Z.quot st1 sp1 = Z.quot st2 sp2
      /\ res_class msr1 = res_class msr2 /\ sh1 = sh2 /\ lb1 = lb2 /\ e1 = e2 /\ p1 = p2
      /\ sort_strs rl1 = sort_strs rl2 /\ an1 = an2
  | _, _ => False
  end.

Definition is_range (r : req) : Prop := match r with RRange _ _ _ _ _ _ _ _ _ _ _ => True | _ => False end.

Theorem range_injective t1 r1 t2 r2 :
  is_range r1 -> is_range r2 -> safe_range r1 -> safe_range r2 ->
  key t1 r1 = key t2 r2 -> t1 = t2 /\ range_same r1 r2.
Proof.
  intros I1 I2 S1 S2 E. apply key_inv in E as [ET E]. split; [exact ET|].
  destruct r1; try contradiction. destruct r2; try contradiction.
  destruct S1 as [He1 Hr1], S2 as [He2 Hr2]. rewrite !range_body_fields in E.
  (* the five fields after the shard, then the shard, then the five before it *)
  apply peel_tail in E as [E T]; auto using range_tail_nocolon.
  apply shard_fields_peel in E as [E ->].
  apply joinf_inj in E as [-> H]; auto with nocolon.
  injection H as H1 H2 H3 H4. injection T as T1 -> T3 T4 T5.
  apply dec_inj in H1, H2, H3, H4, T1. apply bool_bytes_inj in T3, T5.
  apply join_comma_inj in T4; try (apply sort_strs_forall; assumption).
  cbn [range_same]. repeat split; assumption.
Qed.

Lemma str_eqb_eq a b : str_eqb a b = true <-> a = b.
Proof. exact (bytes_eqb_eq a b). Qed.

Lemma str_eqb_refl a : str_eqb a a = true.
Proof. exact (bytes_eqb_refl a). Qed.

Lemma strs_eqb_refl a : strs_eqb a a = true.
Proof. apply list_eqb_refl, str_eqb_refl. Qed.

Lemma opt_zz_eqb_refl a : opt_zz_eqb a a = true.
Proof. destruct a as [[x y]|]; cbn; [rewrite !Z.eqb_refl|]; reflexivity. Qed.

Lemma range_same_params r1 r2 : range_same r1 r2 -> same_params r1 r2 = true.
Proof.
  destruct r1, r2; cbn [range_same same_params]; try contradiction.
  intros (-> & -> & -> & -> & -> & -> & -> & -> & -> & -> & ->).
  rewrite !str_eqb_refl, !Z.eqb_refl, opt_zz_eqb_refl, strs_eqb_refl, !Bool.eqb_reflx. reflexivity.
Qed.

Theorem range_pred t1 r1 t2 r2 :
  is_range r1 -> is_range r2 -> safe_range r1 -> safe_range r2 ->
  pred_ok (CPair t1 r1 (key t1 r1) t2 r2 (key t2 r2)) = true.
Proof.
  intros I1 I2 S1 S2. cbn [pred_ok].
  destruct (str_eqb (key t1 r1) (key t2 r2)) eqn:E; [|reflexivity].
  apply str_eqb_eq in E. destruct (range_injective _ _ _ _ I1 I2 S1 S2 E) as [-> H].
  rewrite str_eqb_refl. apply range_same_params, H.
Qed.

Lemma labels_body_fields l m st sp p :
  key_body (RLabels l m st sp p) = joinf ([l; m] ++ [dec sp; dec (Z.quot st sp)]).
Proof. unfold joinf. cbn. rewrite ?app_nil_r. reflexivity. Qed.

Lemma series_body_fields m st sp p rl :
  key_body (RSeries m st sp p rl) = joinf ([m] ++ [dec sp; dec (Z.quot st sp)]).
Proof. unfold joinf. cbn. rewrite ?app_nil_r. reflexivity. Qed.

Theorem labels_injective t1 t2 l1 m1 st1 sp1 p1 l2 m2 st2 sp2 p2 :
  no c_colon l1 -> no c_colon l2 ->
  key t1 (RLabels l1 m1 st1 sp1 p1) = key t2 (RLabels l2 m2 st2 sp2 p2) ->
  t1 = t2 /\ l1 = l2 /\ m1 = m2 /\ sp1 = sp2 /\ Z.quot st1 sp1 = Z.quot st2 sp2.
Proof.
  intros H1 H2 E. apply key_inv in E as [ET E]. split; [exact ET|]. rewrite !labels_body_fields in E.
  apply peel_tail in E as [E T]; auto with nocolon.
  injection T as T1 T2. apply dec_inj in T1, T2.
  cbn in E. rewrite !app_nil_r in E. injection E as E.
  apply split_first in E as [A B]; auto.
Qed.

Theorem series_injective t1 t2 m1 st1 sp1 p1 rl1 m2 st2 sp2 p2 rl2 :
  key t1 (RSeries m1 st1 sp1 p1 rl1) = key t2 (RSeries m2 st2 sp2 p2 rl2) ->
  t1 = t2 /\ m1 = m2 /\ sp1 = sp2 /\ Z.quot st1 sp1 = Z.quot st2 sp2.
Proof.
  intros E. apply key_inv in E as [ET E]. split; [exact ET|]. rewrite !series_body_fields in E.
  apply joinf_inj in E as [-> T]; auto with nocolon.
  injection T as T1 T2. apply dec_inj in T1, T2. auto.
Qed.

(* a range key ends in a boolean, the others in a number *)
Lemma range_body_last q st step sp msr sh lb e p rl an :
  exists a, key_body (RRange q st step sp msr sh lb e p rl an) = a ++ fld (bool_bytes an).
Proof. cbn [key_body]. rewrite !app_assoc. eexists. reflexivity. Qed.

Lemma other_body_last r : ~ is_range r -> exists a z, key_body r = a ++ fld (dec z).
Proof. destruct r; cbn [is_range key_body]; [tauto| |]; intros _; rewrite !app_assoc; eexists _, _; reflexivity. Qed.

Theorem range_vs_other t1 r1 t2 r2 :
  is_range r1 -> ~ is_range r2 -> key t1 r1 <> key t2 r2.
Proof.
  intros I1 I2 E. apply key_inv in E as [_ E]. destruct r1; try contradiction.
  destruct (range_body_last query start step split_ms msr shard lookback engine partial replicas analyze) as [a1 E1].
  destruct (other_body_last r2 I2) as (a2 & z & E2). rewrite E1, E2 in E.
  apply split_last in E as [_ E]; auto with nocolon. exact (bool_not_dec _ _ E).
Qed.

Theorem labels_vs_series t1 t2 l1 m1 st1 sp1 p1 m2 st2 sp2 p2 rl2 :
  no c_colon l1 -> hd_error l1 <> Some c_lbrack -> hd_error m2 = Some c_lbrack ->
  key t1 (RLabels l1 m1 st1 sp1 p1) <> key t2 (RSeries m2 st2 sp2 p2 rl2).
Proof.
  intros H1 Hl Hm E. apply key_inv in E as [_ E]. rewrite labels_body_fields, series_body_fields in E.
  apply peel_tail in E as [E _]; auto with nocolon.
  cbn in E. rewrite !app_nil_r in E. injection E as E.
  (* l1 ++ ":" ++ m1 = m2, and m2 starts with '[' *)
  destruct m2 as [|b m2]; [discriminate|]. injection Hm as Hm. subst b.
  destruct l1 as [|a l1]; [discriminate E | injection E as Ea _; subst a; apply Hl; reflexivity].
Qed.

Lemma res_class_from_nonneg rs m : 0 <= res_class_from rs m.
Proof. induction rs as [|r rs IH]; cbn [res_class_from]; [|destruct (r >? m)]; lia. Qed.

(* for levels in descending order, as the scan loop of the source assumes: the scan stops at
   the first level at or below [m], and every later level is below that one *)
Lemma res_class_from_eq rs m1 m2 : StronglySorted Z.ge rs ->
  res_class_from rs m1 = res_class_from rs m2 <-> (forall l, In l rs -> (l <=? m1) = (l <=? m2)).
Proof.
  induction 1 as [|r rs _ IH F]; cbn [res_class_from In]; [tauto|]. rewrite Forall_forall in F.
  pose proof (res_class_from_nonneg rs m1). pose proof (res_class_from_nonneg rs m2).
  rewrite !Z.gtb_ltb, !Z.ltb_antisym.
  destruct (r <=? m1) eqn:A, (r <=? m2) eqn:B; cbn [negb].
  - split; [|reflexivity]. intros _ l [<-|Hl]; [congruence|].
    apply F in Hl. apply Z.leb_le in A, B. transitivity true; [|symmetry]; apply Z.leb_le; lia.
  - split; [lia|]. intro K. rewrite (K r) in A by auto. congruence.
  - split; [lia|]. intro K. rewrite (K r) in A by auto. congruence.
  - rewrite Z.add_cancel_l, IH. split; [intros K l [<-|Hl]; [congruence | auto] | auto].
Qed.

(* max source resolution enters through the set of resolution levels it allows *)
Theorem resolution_class msr1 msr2 :
  res_class msr1 = res_class msr2 <->
  (forall l, In l key_resolutions -> (l <=? msr1) = (l <=? msr2)).
Proof. apply res_class_from_eq. unfold key_resolutions. repeat constructor; discriminate. Qed.

Theorem tenant_accepted_spec t :
  tenant_accepted t = true <->
  t <> [c_dot] /\ t <> [c_dot; c_dot] /\ ~ In c_slash t /\ ~ In c_bslash t.
Proof.
  unfold tenant_accepted.
  rewrite negb_true_iff, !orb_false_iff, <- !not_true_iff_false, !str_eqb_eq, existsb_exists.
  split.
  - intros [[A B] C]. repeat split; auto; intro K; apply C; eexists; (split; [exact K|]);
      rewrite N.eqb_refl; auto using orb_true_r.
  - intros (A & B & C & D). repeat split; auto. intros (b & Hb & K).
    apply orb_true_iff in K as [K|K]; apply N.eqb_eq in K; subst; contradiction.
Qed.

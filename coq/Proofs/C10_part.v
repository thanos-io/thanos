(* C10 — gapBasedPartitioner.Partition covers every requested range. *)
From Coq Require Import ZArith NArith List Bool Lia Sorted.
Import ListNotations.
From Verif Require Import Lib.Corr Lib.ListFacts Lib.Storegw_Str Gen.C10 Model.C10.
Open Scope Z_scope.

Definition by_start (a b : Z * Z) : Prop := fst a <= fst b.

Lemma grow_spec g : forall rs pend k pend' rest k',
  grow g pend rs k = (pend', rest, k') ->
  exists taken, rs = taken ++ rest /\ k' = (k + length taken)%nat /\ pend <= pend'
                /\ Forall (fun r : Z * Z => snd r <= pend') taken.
Proof.
  induction rs as [|[s e] r IH]; intros pend k pend' rest k' H.
  - simpl in H. inversion H; subst. exists []. simpl. repeat split; try constructor; try lia.
  - cbn [grow] in H. destruct (pend + g <? s).
    + inversion H; subst. exists []. simpl. repeat split; try constructor; try lia.
    + apply IH in H. destruct H as (taken & E & Hk & Hp & Hf).
      exists ((s, e) :: taken). repeat split.
      * simpl. rewrite E. reflexivity.
      * simpl. lia.
      * destruct (pend <=? e) eqn:El; [apply Z.leb_le in El|apply Z.leb_gt in El]; lia.
      * constructor; [|exact Hf]. simpl. destruct (pend <=? e) eqn:El; [apply Z.leb_le in El|apply Z.leb_gt in El]; lia.
Qed.

Lemma partition_ok g : forall fuel rs j all done,
  all = done ++ rs -> j = length done -> (length rs <= fuel)%nat ->
  StronglySorted by_start all ->
  exists ps, partition fuel g rs j = Some ps /\ parts_cover_from all ps j = true.
Proof.
  induction fuel as [|f IH]; intros rs j all done Ea Ej Hf Hs.
  - destruct rs; [|simpl in Hf; lia]. exists []. split; [reflexivity|]. simpl.
    subst. rewrite app_nil_r. apply Nat.eqb_refl.
  - destruct rs as [|[s e] r].
    + exists []. split; [reflexivity|]. simpl. subst. rewrite app_nil_r. apply Nat.eqb_refl.
    + cbn [partition]. destruct (grow g e r (S j)) as [[pend rest] k] eqn:Eg.
      destruct (grow_spec g r e (S j) pend rest k Eg) as (taken & Er & Ek & Hp & Ht).
      assert (Ea' : all = (done ++ (s, e) :: taken) ++ rest).
      { rewrite Ea, Er. rewrite <- app_assoc. reflexivity. }
      assert (Ek' : k = length (done ++ (s, e) :: taken)).
      { rewrite app_length. simpl. lia. }
      destruct (IH rest k all (done ++ (s, e) :: taken) Ea' Ek') as (ps & P1 & P2).
      { simpl in Hf. rewrite Er, app_length in Hf. lia. }
      { exact Hs. }
      rewrite P1. exists ((s, pend, j, k) :: ps). split; [reflexivity|].
      cbn [parts_cover_from]. rewrite Nat.eqb_refl, P2, andb_true_r. cbn [andb].
      assert (Hlt : (j <? k)%nat = true) by (apply Nat.ltb_lt; lia). rewrite Hlt. cbn [andb].
      (* the elements of this part *)
      assert (Hel : firstn (k - j) (skipn j all) = (s, e) :: taken).
      { rewrite Ea, Ej, skipn_app_length, Er.
        replace (k - length done)%nat with (S (length taken)) by lia. simpl. rewrite firstn_app_length. reflexivity. }
      rewrite Hel. apply forallb_forall. intros x Hx.
      (* everything after (s, e) in [all] starts at or after s *)
      assert (Hsorted : Forall (by_start (s, e)) (taken ++ rest)).
      { rewrite Ea, Er in Hs. clear - Hs. induction done as [|d done IHd]; simpl in Hs.
        - inversion Hs; assumption.
        - apply IHd. inversion Hs; assumption. }
      destruct Hx as [<-|Hx].
      * simpl. apply andb_true_iff. split; apply Z.leb_le; lia.
      * apply andb_true_iff. split; apply Z.leb_le.
        -- rewrite Forall_forall in Hsorted. specialize (Hsorted x (in_or_app _ _ _ (or_introl Hx))).
           unfold by_start in Hsorted. simpl in Hsorted. exact Hsorted.
        -- rewrite Forall_forall in Ht. apply Ht. exact Hx.
Qed.

Lemma partition_covers g rs : StronglySorted by_start rs ->
  exists ps, partition (length rs) g rs 0%nat = Some ps /\ parts_cover rs ps = true.
Proof.
  intro Hs. apply (partition_ok g (length rs) rs 0%nat rs []); auto.
Qed.
